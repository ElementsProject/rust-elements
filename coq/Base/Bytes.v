(* Bytes, byte<->N conversions, hex and decimal text helpers used by models and the driver; at the end, the list lemmas the proofs share. *)
From Coq Require Import List NArith ZArith Lia Bool ZifyN ZifyBool ZifyNat.
From Coq.Strings Require Import Byte.
Import ListNotations.
Ltac Zify.zify_post_hook ::= Z.div_mod_to_equations.
Open Scope N_scope.
Arguments N.add : simpl never. Arguments N.mul : simpl never. Arguments N.div : simpl never.
Arguments N.modulo : simpl never. Arguments N.sub : simpl never. Arguments N.pow : simpl never.

Definition bytes := list byte.

Definition b2n (b : byte) : N := Byte.to_N b.
Definition n2b (n : N) : byte := match Byte.of_N (n mod 256) with Some b => b | None => x00 end.

Lemma b2n_lt b : b2n b < 256.
Proof. pose proof (Byte.to_N_bounded b). unfold b2n. lia. Qed.
Lemma n2b_b2n b : n2b (b2n b) = b.
Proof. unfold n2b. rewrite N.mod_small by apply b2n_lt. unfold b2n. now rewrite Byte.of_to_N. Qed.
Lemma b2n_n2b n : b2n (n2b n) = n mod 256.
Proof. unfold n2b, b2n. destruct (Byte.of_N (n mod 256)) eqn:E.
  - now apply Byte.to_of_N in E.
  - exfalso. apply Byte.of_N_None_iff in E. pose proof (N.mod_upper_bound n 256). lia. Qed.
Lemma b2n_n2b_small n : n < 256 -> b2n (n2b n) = n.
Proof. intros. rewrite b2n_n2b. now apply N.mod_small. Qed.
Lemma b2n_inj a b : b2n a = b2n b -> a = b.
Proof. intros E. rewrite <- (n2b_b2n a), <- (n2b_b2n b). now rewrite E. Qed.
Lemma n2b_lit b n : b2n b = n -> b = n2b n. Proof. intros <-. now rewrite n2b_b2n. Qed.
Lemma n2b_inj a b : a < 256 -> b < 256 -> n2b a = n2b b -> a = b.
Proof. intros Ha Hb E. rewrite <- (b2n_n2b_small a Ha), <- (b2n_n2b_small b Hb). now rewrite E. Qed.

Definition byte_eqb (a b : byte) : bool := Byte.eqb a b.
Lemma byte_eqb_spec a b : reflect (a = b) (byte_eqb a b).
Proof. unfold byte_eqb. destruct (Byte.eqb a b) eqn:E; constructor.
  - now apply Byte.byte_dec_bl.
  - intro H. subst. pose proof (Byte.byte_dec_lb (eq_refl b)). congruence. Qed.

Fixpoint bytes_eqb (a b : bytes) : bool :=
  match a, b with [], [] => true | x :: a', y :: b' => byte_eqb x y && bytes_eqb a' b' | _, _ => false end.
Lemma bytes_eqb_spec a : forall b, reflect (a = b) (bytes_eqb a b).
Proof. induction a as [|x a IH]; intros [|y b]; cbn; try (constructor; congruence).
  destruct (byte_eqb_spec x y); cbn; [|constructor; congruence].
  destruct (IH b); constructor; congruence. Qed.
Lemma byte_eqb_refl c : byte_eqb c c = true.
Proof. destruct (byte_eqb_spec c c); congruence. Qed.
Lemma bytes_eqb_refl a : bytes_eqb a a = true.
Proof. destruct (bytes_eqb_spec a a); congruence. Qed.
Lemma bytes_eq_dec (a b : bytes) : {a = b} + {a <> b}.
Proof. destruct (bytes_eqb_spec a b); [left|right]; assumption. Qed.

Fixpoint le_enc (k : nat) (n : N) : bytes := match k with O => [] | S k' => n2b n :: le_enc k' (n / 256) end.
Fixpoint le_val (bs : bytes) : N := match bs with [] => 0 | b :: r => b2n b + 256 * le_val r end.
Definition be_enc (k : nat) (n : N) : bytes := rev (le_enc k n).
Definition be_val (bs : bytes) : N := le_val (rev bs).

Lemma le_enc_length k : forall n, length (le_enc k n) = k.
Proof. induction k; intros; cbn; auto. Qed.
Lemma le_val_lt bs : le_val bs < 256 ^ N.of_nat (length bs).
Proof. induction bs as [|b r IH]; cbn [le_val length].
  - cbn. lia.
  - rewrite Nnat.Nat2N.inj_succ, N.pow_succ_r'. pose proof (b2n_lt b). nia. Qed.
Lemma le_cons_div b n : (b2n b + 256 * n) / 256 = n.
Proof. rewrite N.mul_comm, N.div_add, (N.div_small _ _ (b2n_lt b)) by discriminate. reflexivity. Qed.
Lemma le_cons_n2b b n : n2b (b2n b + 256 * n) = b.
Proof. rewrite <- (n2b_b2n b) at 2. unfold n2b. now rewrite N.mul_comm, N.mod_add by discriminate. Qed.
Lemma le_enc_val bs : le_enc (length bs) (le_val bs) = bs.
Proof. induction bs as [|b r IH]; cbn [le_val length le_enc]; [reflexivity|]. now rewrite le_cons_div, le_cons_n2b, IH. Qed.
Lemma le_val_enc k : forall n, n < 256 ^ N.of_nat k -> le_val (le_enc k n) = n.
Proof. induction k as [|k IH]; intros n H; cbn [le_enc le_val].
  - cbn in H. lia.
  - rewrite Nnat.Nat2N.inj_succ, N.pow_succ_r' in H.
    rewrite IH by (apply N.div_lt_upper_bound; lia). rewrite b2n_n2b. lia. Qed.
Lemma be_enc_length k n : length (be_enc k n) = k.
Proof. unfold be_enc. now rewrite rev_length, le_enc_length. Qed.
Lemma be_enc_val bs : be_enc (length bs) (be_val bs) = bs.
Proof. unfold be_enc, be_val. rewrite <- (rev_length bs), le_enc_val. apply rev_involutive. Qed.
Lemma be_val_enc k n : n < 256 ^ N.of_nat k -> be_val (be_enc k n) = n.
Proof. intros. unfold be_enc, be_val. rewrite rev_involutive. now apply le_val_enc. Qed.
Lemma be_val_lt bs : be_val bs < 256 ^ N.of_nat (length bs).
Proof. unfold be_val. rewrite <- rev_length. apply le_val_lt. Qed.

Definition take (n : nat) (bs : bytes) : option (bytes * bytes) :=
  if Nat.leb n (length bs) then Some (firstn n bs, skipn n bs) else None.
Lemma take_spec n bs a r : take n bs = Some (a, r) -> bs = a ++ r /\ length a = n.
Proof. unfold take. destruct (Nat.leb_spec n (length bs)); [|discriminate]. intros E. inversion E; subst.
  split; [symmetry; apply firstn_skipn|]. rewrite firstn_length. lia. Qed.
Lemma take_app a r : take (length a) (a ++ r) = Some (a, r).
Proof. unfold take. rewrite app_length. destruct (Nat.leb_spec (length a) (length a + length r)); [|lia].
  rewrite firstn_app, Nat.sub_diag, firstn_O, app_nil_r, firstn_all.
  rewrite skipn_app, Nat.sub_diag, skipn_all. reflexivity. Qed.

(* hex text: ASCII codes as bytes *)
Definition hexdigit (n : N) : byte := if n <? 10 then n2b (48 + n) else n2b (87 + n).
Definition hex_of_byte (b : byte) : bytes := [hexdigit (b2n b / 16); hexdigit (b2n b mod 16)].
Definition hex_of_bytes (bs : bytes) : bytes := flat_map hex_of_byte bs.
Definition unhexdigit (c : byte) : option N :=
  let n := b2n c in
  if (48 <=? n) && (n <=? 57) then Some (n - 48)
  else if (97 <=? n) && (n <=? 102) then Some (n - 87)
  else if (65 <=? n) && (n <=? 70) then Some (n - 55) else None.
Fixpoint bytes_of_hex (s : bytes) : option bytes :=
  match s with
  | [] => Some []
  | a :: b :: r => match unhexdigit a, unhexdigit b, bytes_of_hex r with
                   | Some x, Some y, Some t => Some (n2b (16 * x + y) :: t) | _, _, _ => None end
  | _ => None end.

Fixpoint dec_digits (fuel : nat) (n : N) (acc : bytes) : bytes :=
  match fuel with O => acc | S f => let acc' := n2b (48 + n mod 10) :: acc in
    if n / 10 =? 0 then acc' else dec_digits f (n / 10) acc' end.
Definition dec_of_N (n : N) : bytes := dec_digits (S (N.to_nat (N.log2 n))) n [].
Fixpoint N_of_dec_aux (s : bytes) (acc : N) : option N :=
  match s with [] => Some acc | c :: r => let n := b2n c in
    if (48 <=? n) && (n <=? 57) then N_of_dec_aux r (10 * acc + (n - 48)) else None end.
Definition N_of_dec (s : bytes) : option N := match s with [] => None | _ => N_of_dec_aux s 0 end.

Fixpoint split_on (sep : byte) (s : bytes) (cur : bytes) : list bytes :=
  match s with [] => [rev_append cur []] | c :: r => if byte_eqb c sep then rev_append cur [] :: split_on sep r [] else split_on sep r (c :: cur) end.
Definition words (s : bytes) : list bytes := split_on x20 s [].

(* string notation for list byte literals: "abc"%lb : blit, coerced to list byte *)
Inductive blit := BLit (l : list byte).
Definition unlit (x : blit) : list byte := match x with BLit l => l end.
Definition blit_of (l : list byte) : blit := BLit l.
Coercion unlit : blit >-> list.
Declare Scope lb_scope. Delimit Scope lb_scope with lb.
String Notation blit blit_of unlit : lb_scope.
Bind Scope lb_scope with blit.
Example lb_test : unlit "ab"%lb = [x61; x62]. Proof. reflexivity. Qed.

Lemma Some_inj {A} (a b : A) : Some a = Some b -> a = b. Proof. congruence. Qed.
Lemma map_repeat {A B} (f : A -> B) x n : map f (repeat x n) = repeat (f x) n.
Proof. induction n as [|n IH]; cbn; [reflexivity|now rewrite IH]. Qed.
Lemma firstn_app_len {A} (a b : list A) : firstn (length a) (a ++ b) = a.
Proof. induction a as [|x a IH]; cbn; [reflexivity|now rewrite IH]. Qed.
Lemma skipn_app_len {A} (a b : list A) : skipn (length a) (a ++ b) = b.
Proof. induction a as [|x a IH]; cbn; auto. Qed.
Lemma app_eq_len {A} (a b x y : list A) : length a = length b -> a ++ x = b ++ y -> a = b /\ x = y.
Proof. revert b. induction a as [|h a IH]; intros [|h' b] L E; try discriminate; cbn in *; [auto|].
  inversion E; subst. destruct (IH b) as [-> ->]; auto. Qed.
Lemma forallb_impl {A} (p q : A -> bool) l : (forall x, p x = true -> q x = true) -> forallb p l = true -> forallb q l = true.
Proof. intros E. rewrite !forallb_forall. auto. Qed.
Lemma forallb_firstn {A} (p : A -> bool) n l : forallb p l = true -> forallb p (firstn n l) = true.
Proof. revert n; induction l as [|a r IH]; intros [|n]; cbn; auto. intros H. apply andb_true_iff in H as [-> H]. now rewrite IH. Qed.
Lemma Forall2_length {A B} (R : A -> B -> Prop) l l' : Forall2 R l l' -> length l = length l'.
Proof. induction 1; cbn; auto. Qed.
Lemma Forall2_diag {A} (R : A -> A -> Prop) : (forall a, R a a) -> forall l, Forall2 R l l.
Proof. intros E. induction l; constructor; auto. Qed.
Lemma map_fix {A} (f : A -> A) (p : A -> bool) l : (forall x, p x = true -> f x = x) -> forallb p l = true -> map f l = l.
Proof. intros E. induction l as [|x l IH]; cbn [forallb map]; [reflexivity|]. intros H. apply andb_true_iff in H as [H1 H2]. now rewrite E, IH. Qed.
Lemma forallb_map {A B} (f : A -> B) (p : B -> bool) l : forallb p (map f l) = forallb (fun x => p (f x)) l.
Proof. induction l as [|x l IH]; cbn [map forallb]; [reflexivity|]. now rewrite IH. Qed.
Lemma existsb_negb_forallb {A} (p : A -> bool) l : existsb (fun x => negb (p x)) l = negb (forallb p l).
Proof. induction l as [|x l IH]; cbn [existsb forallb]; [reflexivity|]. rewrite IH. destruct (p x); reflexivity. Qed.
Lemma forallb_In {A} (p : A -> bool) l : forallb p l = true -> forall x, In x l -> p x = true.
Proof. intros H x Hx. rewrite forallb_forall in H. now apply H. Qed.
Lemma forallb_nth {A} (p : A -> bool) l n a : forallb p l = true -> nth_error l n = Some a -> p a = true.
Proof. intros F N. apply nth_error_In in N. rewrite forallb_forall in F. auto. Qed.
Lemma map_factor {A B C} (f : A -> B) (g : A -> C) : (forall a b, f a = f b -> g a = g b) -> forall l l', map f l = map f l' -> map g l = map g l'.
Proof. intros I. induction l as [|a l IH]; intros [|b l'] E; cbn in *; try discriminate; [reflexivity|].
  inversion E. f_equal; auto. Qed.
Lemma cons_inj {A} (a b : A) l l' : a :: l = b :: l' -> a = b /\ l = l'. Proof. intros E. now inversion E. Qed.
Lemma option_map_some {A B} (f : A -> B) o y : option_map f o = Some y -> exists x, o = Some x /\ y = f x.
Proof. destruct o; cbn; intros E; inversion E; eauto. Qed.
Lemma fold_left_ext {A B} (f g : A -> B -> A) l a : (forall a b, f a b = g a b) -> fold_left f l a = fold_left g l a.
Proof. intros E. revert a. induction l as [|x l IH]; intros a; cbn [fold_left]; [reflexivity|]. now rewrite E, IH. Qed.
Lemma existsb_ext {A} (f g : A -> bool) l : (forall x, f x = g x) -> existsb f l = existsb g l.
Proof. intros E. induction l as [|x l IH]; cbn [existsb]; [reflexivity|]. now rewrite E, IH. Qed.
Lemma F2_map {A B} (R : A -> A -> Prop) (f : A -> B) : (forall a b, R a b -> f a = f b) -> forall l l', Forall2 R l l' -> map f l = map f l'.
Proof. intros E l l' F. induction F; cbn; [reflexivity|]. now rewrite (E _ _ H), IHF. Qed.
Lemma F2_flat_map {A B} (R : A -> A -> Prop) (f : A -> list B) : (forall a b, R a b -> f a = f b) -> forall l l', Forall2 R l l' -> flat_map f l = flat_map f l'.
Proof. intros E l l' F. rewrite !flat_map_concat_map. now rewrite (F2_map R f E l l' F). Qed.
Lemma F2_nth {A} (R : A -> A -> Prop) l l' : Forall2 R l l' -> forall n,
  match nth_error l n, nth_error l' n with Some a, Some b => R a b | None, None => True | _, _ => False end.
Proof. intros F. induction F; intros [|n]; cbn; auto. apply IHF. Qed.
Lemma F2_firstn {A} (R : A -> A -> Prop) l l' : Forall2 R l l' -> forall n, Forall2 R (firstn n l) (firstn n l').
Proof. intros F. induction F; intros [|n]; cbn; constructor; auto. Qed.
Lemma app_eq_len_r {A} (a b x y : list A) : length x = length y -> a ++ x = b ++ y -> a = b /\ x = y.
Proof. intros L E. assert (La : length a = length b) by (apply (f_equal (@length A)) in E; rewrite !app_length in E; lia).
  now apply app_eq_len. Qed.
Lemma NoDup_app_intro {A} (l1 l2 : list A) : NoDup l1 -> NoDup l2 -> (forall x, In x l1 -> ~ In x l2) -> NoDup (l1 ++ l2).
Proof. induction l1 as [|y l1 IH]; intros N1 N2 D; [assumption|]. inversion N1 as [|? ? NI N1']; subst. cbn. constructor.
  - rewrite in_app_iff. intros [I|I]; [contradiction|]. exact (D y (or_introl eq_refl) I).
  - apply IH; [assumption|assumption|]. intros x I. apply D. now right. Qed.
Lemma pointwise_Forall2 {A B} (R : A -> B -> Prop) : forall (l : list A) (l' : list B), length l' = length l ->
  (forall j a, nth_error l j = Some a -> exists b, nth_error l' j = Some b /\ R a b) -> Forall2 R l l'.
Proof. induction l as [|a l IH]; intros [|b l'] L H; cbn in L; try discriminate; constructor.
  - destruct (H 0%nat a eq_refl) as (b' & E & Rab). cbn in E. now injection E as <-.
  - apply IH; [lia|]. intros j x N. exact (H (S j) x N). Qed.
Lemma map_seq_nth {A} (g : A -> Z) : forall (l : list A) (k : nat),
  map g l = map (fun i => match nth_error l (i - k)%nat with Some o => g o | None => 0%Z end) (seq k (length l)).
Proof. induction l as [|a l IH]; intro k; cbn [length seq map]; [reflexivity|]. rewrite Nat.sub_diag. cbn [nth_error]. f_equal.
  rewrite (IH (S k)). apply map_ext_in. intros i I. apply in_seq in I. replace (i - k)%nat with (S (i - S k)) by lia. reflexivity. Qed.
Lemma existsb_false {A} (f : A -> bool) l : existsb f l = false <-> forall x, In x l -> f x = false.
Proof. induction l as [|a l IH]; cbn [existsb In]; [tauto|]. rewrite orb_false_iff, IH. split; [intros [Ha Hl] x [<-|Hx]; auto|auto]. Qed.
Lemma existsb_rev {A} (f : A -> bool) l : existsb f (rev l) = existsb f l.
Proof. induction l as [|a l IH]; [reflexivity|]. cbn [rev existsb]. rewrite existsb_app, IH. cbn [existsb]. rewrite orb_false_r. apply orb_comm. Qed.
Lemma same_length_nth {A B} (l : list A) (l' : list B) i x : length l = length l' -> nth_error l i = Some x -> exists y, nth_error l' i = Some y.
Proof.
  intros L NE. destruct (nth_error l' i) as [y|] eqn:E; [now exists y|]. apply nth_error_None in E.
  assert (i < length l)%nat by (apply nth_error_Some; congruence). lia.
Qed.
Lemma Forall2_nth {A} (R : A -> A -> Prop) d : forall l l' i, Forall2 R l l' -> (i < length l)%nat -> R (nth i l d) (nth i l' d).
Proof. intros l l' i H. revert i. induction H as [|x y l l' Rxy H IH]; intros [|i] Hi; cbn in *; try lia; auto. apply IH. lia. Qed.
Lemma Forall2_of_nth {A} (R : A -> A -> Prop) d n : forall l l', length l = n -> length l' = n ->
  (forall i, (i < n)%nat -> R (nth i l d) (nth i l' d)) -> Forall2 R l l'.
Proof.
  induction n as [|n IH]; intros [|x l] [|y l'] E E' H; try discriminate; constructor.
  - apply (H 0%nat). lia.
  - apply IH; [now injection E|now injection E'|]. intros i Hi. apply (H (S i)). lia.
Qed.

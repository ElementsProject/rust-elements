(* Executable SHA-256 over list byte (FIPS 180-4) on Coq's primitive 63-bit integers; used only to *run* the models
   (correspondence, Examples). Every theorem is stated over an abstract hash, so no primitive enters a proof. *)
From Coq Require Import List NArith Uint63.
From Coq.Strings Require Import Byte.
From EV Require Import Base.Bytes.
Import ListNotations.
Open Scope uint63_scope.
Definition iand := PrimInt63.land. Definition ior := PrimInt63.lor. Definition ixor := PrimInt63.lxor.
Definition ishl := PrimInt63.lsl. Definition ishr := PrimInt63.lsr.

Definition b2i (b : byte) : int := match b with
  | x00 => 0
  | x01 => 1
  | x02 => 2
  | x03 => 3
  | x04 => 4
  | x05 => 5
  | x06 => 6
  | x07 => 7
  | x08 => 8
  | x09 => 9
  | x0a => 10
  | x0b => 11
  | x0c => 12
  | x0d => 13
  | x0e => 14
  | x0f => 15
  | x10 => 16
  | x11 => 17
  | x12 => 18
  | x13 => 19
  | x14 => 20
  | x15 => 21
  | x16 => 22
  | x17 => 23
  | x18 => 24
  | x19 => 25
  | x1a => 26
  | x1b => 27
  | x1c => 28
  | x1d => 29
  | x1e => 30
  | x1f => 31
  | x20 => 32
  | x21 => 33
  | x22 => 34
  | x23 => 35
  | x24 => 36
  | x25 => 37
  | x26 => 38
  | x27 => 39
  | x28 => 40
  | x29 => 41
  | x2a => 42
  | x2b => 43
  | x2c => 44
  | x2d => 45
  | x2e => 46
  | x2f => 47
  | x30 => 48
  | x31 => 49
  | x32 => 50
  | x33 => 51
  | x34 => 52
  | x35 => 53
  | x36 => 54
  | x37 => 55
  | x38 => 56
  | x39 => 57
  | x3a => 58
  | x3b => 59
  | x3c => 60
  | x3d => 61
  | x3e => 62
  | x3f => 63
  | x40 => 64
  | x41 => 65
  | x42 => 66
  | x43 => 67
  | x44 => 68
  | x45 => 69
  | x46 => 70
  | x47 => 71
  | x48 => 72
  | x49 => 73
  | x4a => 74
  | x4b => 75
  | x4c => 76
  | x4d => 77
  | x4e => 78
  | x4f => 79
  | x50 => 80
  | x51 => 81
  | x52 => 82
  | x53 => 83
  | x54 => 84
  | x55 => 85
  | x56 => 86
  | x57 => 87
  | x58 => 88
  | x59 => 89
  | x5a => 90
  | x5b => 91
  | x5c => 92
  | x5d => 93
  | x5e => 94
  | x5f => 95
  | x60 => 96
  | x61 => 97
  | x62 => 98
  | x63 => 99
  | x64 => 100
  | x65 => 101
  | x66 => 102
  | x67 => 103
  | x68 => 104
  | x69 => 105
  | x6a => 106
  | x6b => 107
  | x6c => 108
  | x6d => 109
  | x6e => 110
  | x6f => 111
  | x70 => 112
  | x71 => 113
  | x72 => 114
  | x73 => 115
  | x74 => 116
  | x75 => 117
  | x76 => 118
  | x77 => 119
  | x78 => 120
  | x79 => 121
  | x7a => 122
  | x7b => 123
  | x7c => 124
  | x7d => 125
  | x7e => 126
  | x7f => 127
  | x80 => 128
  | x81 => 129
  | x82 => 130
  | x83 => 131
  | x84 => 132
  | x85 => 133
  | x86 => 134
  | x87 => 135
  | x88 => 136
  | x89 => 137
  | x8a => 138
  | x8b => 139
  | x8c => 140
  | x8d => 141
  | x8e => 142
  | x8f => 143
  | x90 => 144
  | x91 => 145
  | x92 => 146
  | x93 => 147
  | x94 => 148
  | x95 => 149
  | x96 => 150
  | x97 => 151
  | x98 => 152
  | x99 => 153
  | x9a => 154
  | x9b => 155
  | x9c => 156
  | x9d => 157
  | x9e => 158
  | x9f => 159
  | xa0 => 160
  | xa1 => 161
  | xa2 => 162
  | xa3 => 163
  | xa4 => 164
  | xa5 => 165
  | xa6 => 166
  | xa7 => 167
  | xa8 => 168
  | xa9 => 169
  | xaa => 170
  | xab => 171
  | xac => 172
  | xad => 173
  | xae => 174
  | xaf => 175
  | xb0 => 176
  | xb1 => 177
  | xb2 => 178
  | xb3 => 179
  | xb4 => 180
  | xb5 => 181
  | xb6 => 182
  | xb7 => 183
  | xb8 => 184
  | xb9 => 185
  | xba => 186
  | xbb => 187
  | xbc => 188
  | xbd => 189
  | xbe => 190
  | xbf => 191
  | xc0 => 192
  | xc1 => 193
  | xc2 => 194
  | xc3 => 195
  | xc4 => 196
  | xc5 => 197
  | xc6 => 198
  | xc7 => 199
  | xc8 => 200
  | xc9 => 201
  | xca => 202
  | xcb => 203
  | xcc => 204
  | xcd => 205
  | xce => 206
  | xcf => 207
  | xd0 => 208
  | xd1 => 209
  | xd2 => 210
  | xd3 => 211
  | xd4 => 212
  | xd5 => 213
  | xd6 => 214
  | xd7 => 215
  | xd8 => 216
  | xd9 => 217
  | xda => 218
  | xdb => 219
  | xdc => 220
  | xdd => 221
  | xde => 222
  | xdf => 223
  | xe0 => 224
  | xe1 => 225
  | xe2 => 226
  | xe3 => 227
  | xe4 => 228
  | xe5 => 229
  | xe6 => 230
  | xe7 => 231
  | xe8 => 232
  | xe9 => 233
  | xea => 234
  | xeb => 235
  | xec => 236
  | xed => 237
  | xee => 238
  | xef => 239
  | xf0 => 240
  | xf1 => 241
  | xf2 => 242
  | xf3 => 243
  | xf4 => 244
  | xf5 => 245
  | xf6 => 246
  | xf7 => 247
  | xf8 => 248
  | xf9 => 249
  | xfa => 250
  | xfb => 251
  | xfc => 252
  | xfd => 253
  | xfe => 254
  | xff => 255
  end.
Definition bit (i : int) (k : int) : bool := negb (is_zero (iand (ishr i k) 1)).
Definition i2b (i : int) : byte := Byte.of_bits (bit i 0, (bit i 1, (bit i 2, (bit i 3, (bit i 4, (bit i 5, (bit i 6, bit i 7))))))).

Definition mask32 : int := 4294967295.
Definition add32 a b := iand (a + b) mask32.
Definition rotr (x n : int) := iand (ior (ishr x n) (ishl x (32 - n))) mask32.
Definition Ch x y z := ixor (iand x y) (iand (ixor x mask32) z).
Definition Maj x y z := ixor (ixor (iand x y) (iand x z)) (iand y z).
Definition S0 x := ixor (ixor (rotr x 2) (rotr x 13)) (rotr x 22).
Definition S1 x := ixor (ixor (rotr x 6) (rotr x 11)) (rotr x 25).
Definition s0 x := ixor (ixor (rotr x 7) (rotr x 18)) (ishr x 3).
Definition s1 x := ixor (ixor (rotr x 17) (rotr x 19)) (ishr x 10).
Definition K : list int := [0x428a2f98;0x71374491;0xb5c0fbcf;0xe9b5dba5;0x3956c25b;0x59f111f1;0x923f82a4;0xab1c5ed5;0xd807aa98;0x12835b01;0x243185be;0x550c7dc3;0x72be5d74;0x80deb1fe;0x9bdc06a7;0xc19bf174;0xe49b69c1;0xefbe4786;0x0fc19dc6;0x240ca1cc;0x2de92c6f;0x4a7484aa;0x5cb0a9dc;0x76f988da;0x983e5152;0xa831c66d;0xb00327c8;0xbf597fc7;0xc6e00bf3;0xd5a79147;0x06ca6351;0x14292967;0x27b70a85;0x2e1b2138;0x4d2c6dfc;0x53380d13;0x650a7354;0x766a0abb;0x81c2c92e;0x92722c85;0xa2bfe8a1;0xa81a664b;0xc24b8b70;0xc76c51a3;0xd192e819;0xd6990624;0xf40e3585;0x106aa070;0x19a4c116;0x1e376c08;0x2748774c;0x34b0bcb5;0x391c0cb3;0x4ed8aa4a;0x5b9cca4f;0x682e6ff3;0x748f82ee;0x78a5636f;0x84c87814;0x8cc70208;0x90befffa;0xa4506ceb;0xbef9a3f7;0xc67178f2].
Fixpoint sched (n:nat) (w:list int) : list int := (* most-recent-first *)
  match n with O => w | S n' =>
    match w with
    | w1::w2::_ => sched n' (add32 (add32 (s1 w2) (nth 6 w 0)) (add32 (s0 (nth 14 w 0)) (nth 15 w 0)) :: w)
    | _ => w end end.
Definition state := (int*int*int*int*int*int*int*int)%type.
Definition round (st: state) (kw: int*int) : state :=
  let '(a,b,c,d,e,f,g,h) := st in let '(k,w) := kw in
  let t1 := add32 (add32 (add32 h (S1 e)) (add32 (Ch e f g) k)) w in
  let t2 := add32 (S0 a) (Maj a b c) in
  (add32 t1 t2, a,b,c, add32 d t1, e,f,g).
Definition compress (st: state) (blk: list int) : state :=
  let w := rev (sched 48 (rev blk)) in
  let '(a,b,c,d,e,f,g,h) := fold_left round (combine K w) st in
  let '(a0,b0,c0,d0,e0,f0,g0,h0) := st in
  (add32 a a0, add32 b b0, add32 c c0, add32 d d0, add32 e e0, add32 f f0, add32 g g0, add32 h h0).
Definition IV : state := (0x6a09e667,0xbb67ae85,0x3c6ef372,0xa54ff53a,0x510e527f,0x9b05688c,0x1f83d9ab,0x5be0cd19).

(* bytes -> big-endian 32-bit words (a tail shorter than 4 bytes is dropped; callers pass multiples of 64) *)
Fixpoint words_of_bytes (bs : bytes) : list int :=
  match bs with a :: b :: c :: d :: r => ior (ior (ishl (b2i a) 24) (ishl (b2i b) 16)) (ior (ishl (b2i c) 8) (b2i d)) :: words_of_bytes r | _ => [] end.
Definition bytes_of_word (w : int) : bytes := [i2b (ishr w 24); i2b (ishr w 16); i2b (ishr w 8); i2b w].
Definition bytes_of_state (st : state) : bytes :=
  let '(a,b,c,d,e,f,g,h) := st in flat_map bytes_of_word [a;b;c;d;e;f;g;h].

Fixpoint blocks (fuel : nat) (st : state) (bs : bytes) : state :=
  match fuel with O => st | S f =>
    match bs with [] => st | _ => blocks f (compress st (words_of_bytes (firstn 64 bs))) (skipn 64 bs) end end.
Definition pad (bs : bytes) : bytes :=
  let l := length bs in
  let z := (Nat.modulo (64 + 55 - Nat.modulo l 64) 64)%nat in
  bs ++ [x80] ++ repeat x00 z ++ be_enc 8 (8 * N.of_nat l)%N.
Definition sha256 (bs : bytes) : bytes :=
  let p := pad bs in bytes_of_state (blocks (S (Nat.div (length p) 64)) IV p).
Definition sha256d (bs : bytes) : bytes := sha256 (sha256 bs).
(* one compression of a 64-byte block from the initial state, no padding: the "midstate" of fast_merkle_root *)
Definition midstate64 (blk : bytes) : bytes := bytes_of_state (compress IV (words_of_bytes blk)).
Definition cmp256 (l r : bytes) : bytes := midstate64 (l ++ r).
Definition tagged (tag msg : bytes) : bytes := let t := sha256 tag in sha256 (t ++ t ++ msg).

Example sha256_abc : hex_of_bytes (sha256 "abc"%lb) = "ba7816bf8f01cfea414140de5dae2223b00361a396177a9cb410ff61f20015ad"%lb.
Proof. vm_compute. reflexivity. Qed.
Example sha256_empty : hex_of_bytes (sha256 []) = "e3b0c44298fc1c149afbf4c8996fb92427ae41e4649b934ca495991b7852b855"%lb.
Proof. vm_compute. reflexivity. Qed.
Example sha256_two_blocks : hex_of_bytes (sha256 "abcdbcdecdefdefgefghfghighijhijkijkljklmklmnlmnomnopnopq"%lb) = "248d6a61d20638b8e5c026930c3e6039a33ce45964ff2167f6ecedd419db06c1"%lb.
Proof. vm_compute. reflexivity. Qed.
Example i2b_b2i_all : forallb (fun n => byte_eqb (i2b (b2i (n2b (N.of_nat n)))) (n2b (N.of_nat n))) (seq 0 256) = true.
Proof. vm_compute. reflexivity. Qed.

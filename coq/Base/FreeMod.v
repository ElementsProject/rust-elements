(* The ideal commitment group (C04, C05, C09): formal Z/qn-linear combinations over the basis {G} ∪ {H_a | a : asset tag}.
   An element is a list of (basis element, coefficient) terms; its meaning is its coefficient function `coeff`
   (always canonical, in [0,qn)). Two elements are THE SAME group element iff their coefficient functions agree (`geq`),
   which is decidable (`geqb`, over the finitely many basis elements that occur). All operations respect `geq`.
   "Ideal" = the basis elements are linearly independent BY CONSTRUCTION: nobody knows a discrete-log relation between G
   and the asset generators H_a (in libsecp256k1-zkp: hash-to-curve of the asset tag). *)
From Coq Require Import ZArith NArith Lia List Bool Setoid Morphisms.
From EV Require Import Base.Zn.
Import ListNotations.
Open Scope Z_scope.

Definition bkey := N.                       (* 0 = G ; N.succ a = H_a for the asset tag a (a 256-bit number) *)
Definition kG : bkey := 0%N.
Definition kH (a : N) : bkey := N.succ a.
Definition gel := list (bkey * Z).

Fixpoint coeff (x : gel) (k : bkey) : Z :=
  match x with
  | [] => 0
  | (k', c) :: r => if N.eqb k k' then zadd c (coeff r k) else coeff r k
  end.
Definition gzero : gel := [].
Definition gadd (x y : gel) : gel := x ++ y.
Definition gscale (c : Z) (x : gel) : gel := map (fun t => (fst t, c * snd t)) x.
Definition gneg (x : gel) : gel := gscale (-1) x.
Definition gsum (l : list gel) : gel := concat l.
Definition gG : gel := [(kG, 1)].
Definition gH (a : N) : gel := [(kH a, 1)].

Definition geq (x y : gel) : Prop := forall k, coeff x k = coeff y k.
Definition geqb (x y : gel) : bool := forallb (fun k => coeff x k =? coeff y k) (map fst x ++ map fst y).

(* Generator::new_blinded(tag, abf) = H_tag + abf·G ; new_unblinded = H_tag *)
Definition asset_gen (a : N) (abf : Z) : gel := gadd (gH a) (gscale abf gG).
(* PedersenCommitment::new(value, vbf, gen) = value·gen + vbf·G ; new_unblinded has vbf = 0 *)
Definition commit (v : Z) (gen : gel) (vbf : Z) : gel := gadd (gscale v gen) (gscale vbf gG).

Lemma coeff_range x k : in_zn (coeff x k).
Proof.
  induction x as [|[k' c] r IH]; cbn [coeff].
  - pose proof qn_pos. unfold in_zn. lia.
  - destruct (N.eqb k k'). + apply zadd_range. + exact IH.
Qed.
Lemma coeff_mod x k : (coeff x k) mod qn = coeff x k.
Proof. apply zn_small, coeff_range. Qed.
Lemma coeff_add x y k : coeff (gadd x y) k = zadd (coeff x k) (coeff y k).
Proof.
  unfold gadd. induction x as [|[k' c] r IH]; cbn [app coeff].
  - rewrite zadd_0_l, coeff_mod. reflexivity.
  - destruct (N.eqb k k'). + rewrite IH. apply zadd_assoc. + exact IH.
Qed.
Lemma coeff_scale c x k : coeff (gscale c x) k = zmul c (coeff x k).
Proof.
  unfold gscale. induction x as [|[k' c'] r IH]; cbn [map coeff fst snd].
  - unfold zmul. rewrite Z.mul_0_r. reflexivity.
  - destruct (N.eqb k k'). + rewrite IH. zn_ring. + exact IH.
Qed.
Lemma coeff_zero k : coeff gzero k = 0. Proof. reflexivity. Qed.
Lemma coeff_gsum l k : coeff (gsum l) k = zsum (map (fun x => coeff x k) l).
Proof.
  unfold gsum. induction l as [|x l IH]; cbn [concat map zsum fold_right]. - reflexivity.
  - fold (zsum (map (fun x => coeff x k) l)). rewrite <- IH. apply coeff_add.
Qed.
Lemma coeff_G k : coeff gG k = if N.eqb k kG then 1 else 0.
Proof. unfold gG. cbn [coeff]. destruct (N.eqb k kG); reflexivity. Qed.
Lemma coeff_H a k : coeff (gH a) k = if N.eqb k (kH a) then 1 else 0.
Proof. unfold gH. cbn [coeff]. destruct (N.eqb k (kH a)); reflexivity. Qed.
Lemma kH_not_G a : N.eqb (kH a) kG = false.
Proof. unfold kH, kG. apply N.eqb_neq. lia. Qed.
Lemma kG_not_H a : N.eqb kG (kH a) = false.
Proof. unfold kH, kG. apply N.eqb_neq. lia. Qed.
Lemma kH_inj a b : N.eqb (kH a) (kH b) = N.eqb a b.
Proof. unfold kH. destruct (N.eqb_spec a b) as [->|N]. - apply N.eqb_refl. - apply N.eqb_neq. lia. Qed.

Lemma coeff_notin x k : ~ In k (map fst x) -> coeff x k = 0.
Proof.
  induction x as [|[k' c] r IH]; cbn [map fst In coeff]; intro NI. - reflexivity.
  - destruct (N.eqb_spec k k') as [->|_]. + exfalso. apply NI. now left. + apply IH. intro. apply NI. now right.
Qed.
Lemma geqb_spec x y : geqb x y = true <-> geq x y.
Proof.
  unfold geqb, geq. rewrite forallb_forall. split.
  - intros F k. destruct (in_dec N.eq_dec k (map fst x ++ map fst y)) as [I|NI].
    + apply Z.eqb_eq, F, I.
    + rewrite in_app_iff in NI. rewrite !coeff_notin; tauto.
  - intros E k _. apply Z.eqb_eq, E.
Qed.
Lemma geqb_false x y : geqb x y = false <-> ~ geq x y.
Proof. rewrite <- geqb_spec. destruct (geqb x y); split; congruence. Qed.

Global Instance geq_equiv : Equivalence geq.
Proof. split; red; unfold geq; intros; congruence. Qed.
Global Instance gadd_geq : Proper (geq ==> geq ==> geq) gadd.
Proof. intros x x' Ex y y' Ey k. rewrite !coeff_add, Ex, Ey. reflexivity. Qed.
Global Instance gscale_geq : Proper (eq ==> geq ==> geq) gscale.
Proof. intros c c' -> x x' Ex k. rewrite !coeff_scale, Ex. reflexivity. Qed.
Global Instance coeff_geq : Proper (geq ==> eq ==> eq) coeff.
Proof. intros x x' Ex k k' ->. apply Ex. Qed.
Lemma gsum_cancel A X Y B : geq (gsum (A ++ X ++ B)) (gsum (A ++ Y ++ B)) -> geq (gsum X) (gsum Y).
Proof.
  intros H k. specialize (H k). rewrite !coeff_gsum, !map_app, !zsum_app in H.
  apply zadd_cancel in H. rewrite !(zn_small _ (zadd_range _ _)), !(zadd_comm _ (zsum (map _ B))) in H.
  apply zadd_cancel in H. now rewrite !zsum_mod, <- !coeff_gsum in H.
Qed.
Lemma gsum_single c : geq (gsum [c]) c.
Proof. unfold gsum. cbn [concat]. now rewrite app_nil_r. Qed.
Lemma geqb_refl x : geqb x x = true. Proof. apply geqb_spec. reflexivity. Qed.
Lemma geqb_sym x y : geqb x y = geqb y x.
Proof.
  destruct (geqb y x) eqn:E.
  - apply geqb_spec. symmetry. now apply geqb_spec.
  - apply geqb_false. intro G. apply geqb_false in E. apply E. now symmetry.
Qed.
Lemma geqb_proper x x' y y' : geq x x' -> geq y y' -> geqb x y = geqb x' y'.
Proof.
  intros Ex Ey. destruct (geqb x' y') eqn:E.
  - apply geqb_spec. apply geqb_spec in E. now rewrite Ex, Ey.
  - apply geqb_false. apply geqb_false in E. intro G. apply E. now rewrite <- Ex, <- Ey.
Qed.

(* list-wise equality of group elements (surjection-proof domains) *)
Fixpoint geqb_list (l l' : list gel) : bool :=
  match l, l' with
  | [], [] => true
  | x :: r, y :: r' => geqb x y && geqb_list r r'
  | _, _ => false
  end.
Lemma geqb_list_spec l : forall l', geqb_list l l' = true <-> Forall2 geq l l'.
Proof.
  induction l as [|x r IH]; intros [|y r']; cbn [geqb_list]; split; intro H; try discriminate; try constructor; try inversion H; subst.
  - apply andb_true_iff in H as [A B]. now apply geqb_spec.
  - apply andb_true_iff in H as [A B]. now apply IH.
  - apply andb_true_iff. split. + now apply geqb_spec. + now apply IH.
Qed.
Lemma geqb_list_refl l : geqb_list l l = true.
Proof. induction l; cbn [geqb_list]; [reflexivity|]. now rewrite geqb_refl. Qed.

Lemma coeff_asset_gen_G a abf : coeff (asset_gen a abf) kG = abf mod qn.
Proof.
  unfold asset_gen. rewrite coeff_add, coeff_scale, coeff_H, coeff_G, kG_not_H, N.eqb_refl.
  unfold zadd, zmul. rewrite Z.mul_1_r, Z.add_0_l. apply zn_idem.
Qed.
Lemma coeff_asset_gen_H a abf b : coeff (asset_gen a abf) (kH b) = if N.eqb b a then 1 else 0.
Proof.
  unfold asset_gen. rewrite coeff_add, coeff_scale, coeff_H, coeff_G, kH_not_G, kH_inj.
  unfold zadd, zmul. rewrite Z.mul_0_r, Z.add_0_r. destruct (N.eqb b a); reflexivity.
Qed.
Lemma coeff_commit v gen vbf k :
  coeff (commit v gen vbf) k = zadd (zmul v (coeff gen k)) (if N.eqb k kG then vbf mod qn else 0).
Proof.
  unfold commit. rewrite coeff_add, !coeff_scale, coeff_G. f_equal.
  destruct (N.eqb k kG); unfold zmul. - now rewrite Z.mul_1_r. - now rewrite Z.mul_0_r.
Qed.
Lemma bkey_cases (k : bkey) : k = kG \/ exists a, k = kH a.
Proof. unfold kG, kH. destruct (N.eq_dec k 0) as [->|NZ]. - now left. - right. exists (N.pred k). lia. Qed.

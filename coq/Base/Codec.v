(* Codec combinators with the three laws every consensus codec of C01 must satisfy, plus the reported length.
   A decoder consumes a prefix and returns the unconsumed rest: bytes -> option (A * bytes). *)
From Coq Require Import List NArith ZArith Lia Bool ZifyN ZifyBool ZifyNat.
From Coq.Strings Require Import Byte.
From EV Require Import Base.Bytes.
Import ListNotations.
Ltac Zify.zify_post_hook ::= Z.div_mod_to_equations.
Open Scope N_scope.
Set Default Timeout 30.

Record codec (A : Type) := {
  enc : A -> bytes;
  dec : bytes -> option (A * bytes);
  wf : A -> bool;           (* canonical in-memory values: exactly what the decoder can return *)
  elen : A -> N             (* the length the encoder reports (the usize returned by consensus_encode) *)
}.
Arguments enc {A}. Arguments dec {A}. Arguments wf {A}. Arguments elen {A}.

Definition Exact {A} (c : codec A) := forall bs v rest, dec c bs = Some (v, rest) -> bs = enc c v ++ rest.
Definition DecWf {A} (c : codec A) := forall bs v rest, dec c bs = Some (v, rest) -> wf c v = true.
Definition Complete {A} (c : codec A) := forall v rest, wf c v = true -> dec c (enc c v ++ rest) = Some (v, rest).
Definition LenOk {A} (c : codec A) := forall v, wf c v = true -> elen c v = N.of_nat (length (enc c v)).
Record Lawful {A} (c : codec A) := { l_exact : Exact c; l_wf : DecWf c; l_complete : Complete c; l_len : LenOk c }.
Arguments l_exact {A c}. Arguments l_wf {A c}. Arguments l_complete {A c}. Arguments l_len {A c}.

(* whole-buffer decoding: `deserialize` demands that everything was consumed *)
Definition deserialize {A} (c : codec A) (bs : bytes) : option A :=
  match dec c bs with Some (v, []) => Some v | _ => None end.

Lemma deserialize_exact {A} (c : codec A) : Lawful c -> forall bs v, deserialize c bs = Some v -> bs = enc c v /\ wf c v = true.
Proof. intros L bs v H. unfold deserialize in H. destruct (dec c bs) as [[v' [|x r]]|] eqn:D; try discriminate.
  inversion H; subst. split; [|eapply l_wf; eauto]. apply (l_exact L) in D. now rewrite app_nil_r in D. Qed.
Lemma deserialize_complete {A} (c : codec A) : Lawful c -> forall v, wf c v = true -> deserialize c (enc c v) = Some v.
Proof. intros L v H. unfold deserialize. pose proof (l_complete L v [] H) as D. rewrite app_nil_r in D. now rewrite D. Qed.
Lemma deserialize_inj {A} (c : codec A) : Lawful c -> forall b1 b2 v, deserialize c b1 = Some v -> deserialize c b2 = Some v -> b1 = b2.
Proof. intros L b1 b2 v H1 H2. apply (deserialize_exact c L) in H1 as [-> _]. apply (deserialize_exact c L) in H2 as [-> _]. reflexivity. Qed.
Lemma enc_inj {A} (c : codec A) : Lawful c -> forall v v', wf c v = true -> wf c v' = true -> enc c v = enc c v' -> v = v'.
Proof. intros L v v' H H' E. pose proof (l_complete L v [] H) as D. pose proof (l_complete L v' [] H') as D'.
  rewrite E in D. rewrite D in D'. now inversion D'. Qed.
Lemma enc_prefix_inj {A} (c : codec A) : Lawful c -> forall v v' r r', wf c v = true -> wf c v' = true ->
  enc c v ++ r = enc c v' ++ r' -> v = v' /\ r = r'.
Proof. intros L v v' r r' H H' E. pose proof (l_complete L v r H) as D. pose proof (l_complete L v' r' H') as D'.
  rewrite E in D. rewrite D in D'. inversion D'. auto. Qed.

(* the decoder's two laws are one fact about what it returns, and are proved as one *)
Lemma lawful_intro {A} (c : codec A) :
  (forall bs v rest, dec c bs = Some (v, rest) -> bs = enc c v ++ rest /\ wf c v = true) -> Complete c -> LenOk c -> Lawful c.
Proof. intros D C L. split; [intros bs v rest H; exact (proj1 (D _ _ _ H))|intros bs v rest H; exact (proj2 (D _ _ _ H))|exact C|exact L]. Qed.

Lemma l_dec {A} {c : codec A} (L : Lawful c) bs v rest : dec c bs = Some (v, rest) -> bs = enc c v ++ rest /\ wf c v = true.
Proof. intros H. split; [exact (l_exact L _ _ _ H)|exact (l_wf L _ _ _ H)]. Qed.

Definition c_unit : codec unit := {| enc := fun _ => []; dec := fun bs => Some (tt, bs); wf := fun _ => true; elen := fun _ => 0 |}.
Lemma c_unit_lawful : Lawful c_unit.
Proof. apply lawful_intro; unfold Complete, LenOk; cbn.
  - intros bs [] rest [= <-]. now split.
  - now intros [] rest _.
  - reflexivity. Qed.

Definition c_u8 : codec N :=
  {| enc := fun n => [n2b n]; dec := fun bs => match bs with b :: r => Some (b2n b, r) | [] => None end; wf := fun n => n <? 256; elen := fun _ => 1 |}.
Lemma c_u8_lawful : Lawful c_u8.
Proof. apply lawful_intro; unfold Complete, LenOk; cbn [c_u8 enc dec wf elen app].
  - intros [|b r] v rest H; inversion H; subst. rewrite n2b_b2n. split; [reflexivity|apply N.ltb_lt, b2n_lt].
  - intros v rest H. apply N.ltb_lt in H. now rewrite b2n_n2b_small.
  - reflexivity. Qed.

Fixpoint le_dec (k : nat) (bs : bytes) : option (N * bytes) :=
  match k with O => Some (0, bs) | S k' => match bs with [] => None | b :: r => match le_dec k' r with Some (n, r') => Some (b2n b + 256 * n, r') | None => None end end end.
Lemma le_dec_exact k : forall bs v rest, le_dec k bs = Some (v, rest) -> bs = le_enc k v ++ rest /\ v < 256 ^ N.of_nat k.
Proof. induction k as [|k IH]; intros bs v rest H; cbn [le_dec le_enc] in *.
  - inversion H; subst. split; [reflexivity|cbn; lia].
  - destruct bs as [|b r]; [discriminate|]. destruct (le_dec k r) as [[n r']|] eqn:E; [|discriminate]. inversion H; subst.
    destruct (IH _ _ _ E) as [-> Hn]. rewrite le_cons_div, le_cons_n2b. split; [reflexivity|].
    pose proof (b2n_lt b). rewrite Nnat.Nat2N.inj_succ, N.pow_succ_r'. lia. Qed.
Lemma le_dec_complete k : forall v rest, v < 256 ^ N.of_nat k -> le_dec k (le_enc k v ++ rest) = Some (v, rest).
Proof. induction k as [|k IH]; intros v rest H; cbn [le_dec le_enc].
  - cbn in H. now replace v with 0 by lia.
  - cbn [app]. rewrite Nnat.Nat2N.inj_succ, N.pow_succ_r' in H.
    assert (Hq : v / 256 < 256 ^ N.of_nat k) by (apply N.div_lt_upper_bound; lia).
    rewrite IH by exact Hq. rewrite b2n_n2b. f_equal. f_equal. lia. Qed.
Definition c_le (k : nat) : codec N := {| enc := le_enc k; dec := le_dec k; wf := fun n => n <? 256 ^ N.of_nat k; elen := fun _ => N.of_nat k |}.
Lemma c_le_lawful k : Lawful (c_le k).
Proof. apply lawful_intro; unfold Complete, LenOk; cbn.
  - intros bs v rest H. apply le_dec_exact in H as [-> H]. split; [reflexivity|now apply N.ltb_lt].
  - intros v rest H. apply le_dec_complete. now apply N.ltb_lt.
  - intros v _. now rewrite le_enc_length. Qed.
Definition c_u16 := c_le 2. Definition c_u32 := c_le 4. Definition c_u64 := c_le 8.

(* big endian k bytes (explicit confidential values are byte-swapped u64) *)
Definition be_dec (k : nat) (bs : bytes) : option (N * bytes) :=
  match take k bs with Some (a, r) => Some (be_val a, r) | None => None end.
Definition c_be (k : nat) : codec N := {| enc := be_enc k; dec := be_dec k; wf := fun n => n <? 256 ^ N.of_nat k; elen := fun _ => N.of_nat k |}.
Lemma c_be_lawful k : Lawful (c_be k).
Proof. apply lawful_intro; unfold Complete, LenOk; cbn; unfold be_dec.
  - intros bs v rest H. destruct (take k bs) as [[a r]|] eqn:T; [|discriminate]. inversion H; subst.
    apply take_spec in T as [-> <-]. rewrite be_enc_val. split; [reflexivity|apply N.ltb_lt, be_val_lt].
  - intros v rest H. apply N.ltb_lt in H. rewrite <- (be_enc_length k v) at 1. rewrite take_app. now rewrite be_val_enc.
  - intros. now rewrite be_enc_length. Qed.

Definition c_fixed (k : nat) : codec bytes :=
  {| enc := fun b => b; dec := take k; wf := fun b => Nat.eqb (length b) k; elen := fun b => N.of_nat (length b) |}.
Lemma c_fixed_lawful k : Lawful (c_fixed k).
Proof. apply lawful_intro; unfold Complete, LenOk; cbn.
  - intros bs v rest H. apply take_spec in H as [-> <-]. split; [reflexivity|apply Nat.eqb_refl].
  - intros v rest H. apply Nat.eqb_eq in H. subst k. apply take_app.
  - reflexivity. Qed.

(* minimal varint (read_varint / emit_varint) *)
Definition vi_enc (n : N) : bytes :=
  if n <? 0xFD then [n2b n] else if n <? 0x10000 then n2b 0xFD :: le_enc 2 n else if n <? 0x100000000 then n2b 0xFE :: le_enc 4 n else n2b 0xFF :: le_enc 8 n.
Definition vi_dec (bs : bytes) : option (N * bytes) :=
  match bs with [] => None | b :: r =>
    let t := b2n b in
    if t =? 0xFF then match le_dec 8 r with Some (x, r') => if x <? 0x100000000 then None else Some (x, r') | None => None end
    else if t =? 0xFE then match le_dec 4 r with Some (x, r') => if x <? 0x10000 then None else Some (x, r') | None => None end
    else if t =? 0xFD then match le_dec 2 r with Some (x, r') => if x <? 0xFD then None else Some (x, r') | None => None end
    else Some (t, r) end.
Definition vi_size (n : N) : N := if n <? 0xFD then 1 else if n <? 0x10000 then 3 else if n <? 0x100000000 then 5 else 9.
Definition c_varint : codec N := {| enc := vi_enc; dec := vi_dec; wf := fun n => n <? 2 ^ 64; elen := vi_size |}.
(* a tagged form: k little-endian bytes holding a value not below lo (a smaller value has a shorter form) *)
Definition vi_tail (k : nat) (lo : N) (r : bytes) : option (N * bytes) :=
  match le_dec k r with Some (x, r') => if x <? lo then None else Some (x, r') | None => None end.
Lemma vi_tail_exact k lo r v rest : vi_tail k lo r = Some (v, rest) -> r = le_enc k v ++ rest /\ lo <= v < 256 ^ N.of_nat k.
Proof. unfold vi_tail. intros H. destruct (le_dec k r) as [[x r']|] eqn:D; [|discriminate]. destruct (N.ltb_spec x lo); [discriminate|].
  inversion H; subst. apply le_dec_exact in D as [-> Hv]. auto. Qed.
Lemma vi_tail_complete k lo v rest : lo <= v < 256 ^ N.of_nat k -> vi_tail k lo (le_enc k v ++ rest) = Some (v, rest).
Proof. intros [Hlo Hhi]. unfold vi_tail. rewrite le_dec_complete by exact Hhi. destruct (N.ltb_spec v lo); [lia|reflexivity]. Qed.

Lemma vi_dec_exact bs v rest : vi_dec bs = Some (v, rest) -> bs = vi_enc v ++ rest /\ v < 2 ^ 64.
Proof. destruct bs as [|b r]; [discriminate|]. pose proof (b2n_lt b) as Hb. unfold vi_enc. cbn [vi_dec].
  destruct (N.eqb_spec (b2n b) 0xFF) as [E|N1].
  { intros H. apply (vi_tail_exact 8) in H as [-> [Hlo Hhi]]. apply n2b_lit in E. subst b.
    destruct (N.ltb_spec v 0xFD); [lia|]. destruct (N.ltb_spec v 0x10000); [lia|]. destruct (N.ltb_spec v 0x100000000); [lia|]. split; [reflexivity|exact Hhi]. }
  destruct (N.eqb_spec (b2n b) 0xFE) as [E|N2].
  { intros H. apply (vi_tail_exact 4) in H as [-> [Hlo Hhi]]. apply n2b_lit in E. subst b. cbn in Hhi.
    destruct (N.ltb_spec v 0xFD); [lia|]. destruct (N.ltb_spec v 0x10000); [lia|]. destruct (N.ltb_spec v 0x100000000); [|lia]. split; [reflexivity|lia]. }
  destruct (N.eqb_spec (b2n b) 0xFD) as [E|N3].
  { intros H. apply (vi_tail_exact 2) in H as [-> [Hlo Hhi]]. apply n2b_lit in E. subst b. cbn in Hhi.
    destruct (N.ltb_spec v 0xFD); [lia|]. destruct (N.ltb_spec v 0x10000); [|lia]. split; [reflexivity|lia]. }
  intros H. inversion H; subst. destruct (N.ltb_spec (b2n b) 0xFD); [|lia]. cbn [app]. rewrite n2b_b2n. split; [reflexivity|lia]. Qed.
Lemma vi_dec_complete v rest : v < 2 ^ 64 -> vi_dec (vi_enc v ++ rest) = Some (v, rest).
Proof. intros H. unfold vi_enc.
  destruct (N.ltb_spec v 0xFD).
  { cbn [app vi_dec]. rewrite b2n_n2b_small by lia. destruct (N.eqb_spec v 0xFF); [lia|]. destruct (N.eqb_spec v 0xFE); [lia|]. destruct (N.eqb_spec v 0xFD); [lia|]. reflexivity. }
  destruct (N.ltb_spec v 0x10000); [apply (vi_tail_complete 2 0xFD); cbn; lia|].
  destruct (N.ltb_spec v 0x100000000); [apply (vi_tail_complete 4 0x10000); cbn; lia|].
  apply (vi_tail_complete 8 0x100000000); cbn; lia. Qed.
Lemma vi_size_length v : vi_size v = N.of_nat (length (vi_enc v)).
Proof. unfold vi_size, vi_enc. destruct (v <? 0xFD); [reflexivity|]. destruct (v <? 0x10000); [reflexivity|]. destruct (v <? 0x100000000); reflexivity. Qed.
Lemma c_varint_lawful : Lawful c_varint.
Proof. apply lawful_intro; unfold Complete, LenOk; cbn [c_varint enc dec wf elen].
  - intros bs v rest H. apply vi_dec_exact in H as [-> H]. now apply N.ltb_lt in H.
  - intros v rest H. apply vi_dec_complete. now apply N.ltb_lt.
  - intros v _. apply vi_size_length. Qed.

Definition c_pair {A B} (ca : codec A) (cb : codec B) : codec (A * B) :=
  {| enc := fun '(a, b) => enc ca a ++ enc cb b;
     dec := fun bs => match dec ca bs with Some (a, r) => match dec cb r with Some (b, r') => Some ((a, b), r') | None => None end | None => None end;
     wf := fun '(a, b) => wf ca a && wf cb b;
     elen := fun '(a, b) => elen ca a + elen cb b |}.
Definition c_dep {A B} (ca : codec A) (cb : A -> codec B) : codec (A * B) :=
  {| enc := fun '(a, b) => enc ca a ++ enc (cb a) b;
     dec := fun bs => match dec ca bs with Some (a, r) => match dec (cb a) r with Some (b, r') => Some ((a, b), r') | None => None end | None => None end;
     wf := fun '(a, b) => wf ca a && wf (cb a) b;
     elen := fun '(a, b) => elen ca a + elen (cb a) b |}.
Lemma c_dep_lawful {A B} (ca : codec A) (cb : A -> codec B) : Lawful ca -> (forall a, Lawful (cb a)) -> Lawful (c_dep ca cb).
Proof. intros La Lb. apply lawful_intro; unfold Complete, LenOk; cbn.
  - intros bs [a b] rest H. destruct (dec ca bs) as [[a' r]|] eqn:Da; [|discriminate]. destruct (dec (cb a') r) as [[b' r']|] eqn:Db; [|discriminate]. inversion H; subst.
    apply (l_dec La) in Da as [-> Wa]. apply (l_dec (Lb a)) in Db as [-> Wb]. now rewrite app_assoc, Wa, Wb.
  - intros [a b] rest H. apply andb_true_iff in H as [Ha Hb]. rewrite <- app_assoc, (l_complete La) by assumption. now rewrite (l_complete (Lb a)).
  - intros [a b] H. apply andb_true_iff in H as [Ha Hb]. rewrite app_length, Nnat.Nat2N.inj_add, (l_len La), (l_len (Lb a)) by assumption. reflexivity. Qed.

Lemma c_pair_lawful {A B} (ca : codec A) (cb : codec B) : Lawful ca -> Lawful cb -> Lawful (c_pair ca cb).
Proof. intros La Lb. exact (c_dep_lawful ca (fun _ => cb) La (fun _ => Lb)). Qed.
Lemma wf_dep {A B} (ca : codec A) (cb : A -> codec B) a b : wf (c_dep ca cb) (a, b) = true <-> wf ca a = true /\ wf (cb a) b = true.
Proof. apply andb_true_iff. Qed.
Lemma wf_pair {A B} (ca : codec A) (cb : codec B) a b : wf (c_pair ca cb) (a, b) = true <-> wf ca a = true /\ wf cb b = true.
Proof. apply andb_true_iff. Qed.

(* conversion through a partial view: B is the in-memory type, A the wire tuple *)
Definition c_conv {A B} (c : codec A) (to : A -> option B) (from : B -> A) (wfB : B -> bool) : codec B :=
  {| enc := fun b => enc c (from b);
     dec := fun bs => match dec c bs with Some (a, r) => match to a with Some b => Some (b, r) | None => None end | None => None end;
     wf := fun b => wfB b && wf c (from b);
     elen := fun b => elen c (from b) |}.
Lemma c_conv_lawful {A B} (c : codec A) (to : A -> option B) (from : B -> A) (wfB : B -> bool) :
  Lawful c ->
  (forall a b, wf c a = true -> to a = Some b -> from b = a /\ wfB b = true) ->
  (forall b, wfB b = true -> wf c (from b) = true -> to (from b) = Some b) ->
  Lawful (c_conv c to from wfB).
Proof. intros L H1 H2. apply lawful_intro; unfold Complete, LenOk; cbn.
  - intros bs b rest H. destruct (dec c bs) as [[a r]|] eqn:D; [|discriminate]. destruct (to a) as [b'|] eqn:T; [|discriminate]. inversion H; subst.
    apply (l_dec L) in D as [-> Wa]. destruct (H1 _ _ Wa T) as [-> ->]. now rewrite Wa.
  - intros b rest H. apply andb_true_iff in H as [Hb Hc]. rewrite (l_complete L) by assumption. now rewrite H2.
  - intros b H. apply andb_true_iff in H as [_ H]. now apply (l_len L). Qed.
Lemma wf_conv {A B} (c : codec A) (to : A -> option B) from wfB b : wf (c_conv c to from wfB) b = true <-> wfB b = true /\ wf c (from b) = true.
Proof. apply andb_true_iff. Qed.

Fixpoint vn_dec {A} (c : codec A) (n : nat) (bs : bytes) : option (list A * bytes) :=
  match n with O => Some ([], bs) | S n' => match dec c bs with Some (a, r) => match vn_dec c n' r with Some (l, r') => Some (a :: l, r') | None => None end | None => None end end.
Definition vn_enc {A} (c : codec A) (l : list A) : bytes := concat (map (enc c) l).
Definition vn_len {A} (c : codec A) (l : list A) : N := fold_right (fun a s => elen c a + s) 0 l.
Lemma vn_exact {A} (c : codec A) : Lawful c -> forall n bs l rest, vn_dec c n bs = Some (l, rest) -> bs = vn_enc c l ++ rest /\ length l = n /\ forallb (wf c) l = true.
Proof. intros L. induction n as [|n IH]; cbn; intros bs l rest H.
  - inversion H; subst. auto.
  - destruct (dec c bs) as [[a r]|] eqn:Da; [|discriminate]. destruct (vn_dec c n r) as [[l' r']|] eqn:Dl; [|discriminate]. inversion H; subst.
    apply IH in Dl as (-> & <- & F). apply (l_dec L) in Da as [-> W]. unfold vn_enc. cbn. rewrite <- app_assoc, W. auto. Qed.
Lemma vn_complete {A} (c : codec A) : Lawful c -> forall l rest, forallb (wf c) l = true -> vn_dec c (length l) (vn_enc c l ++ rest) = Some (l, rest).
Proof. intros L. induction l as [|a l IH]; cbn; intros rest H; [reflexivity|].
  apply andb_true_iff in H as [Ha Hl]. unfold vn_enc. cbn. rewrite <- app_assoc, (l_complete L) by assumption. fold (vn_enc c l). now rewrite IH. Qed.
Lemma vn_len_ok {A} (c : codec A) : Lawful c -> forall l, forallb (wf c) l = true -> vn_len c l = N.of_nat (length (vn_enc c l)).
Proof. intros L. induction l as [|a l IH]; intros F; [reflexivity|]. cbn [forallb] in F. apply andb_true_iff in F as [Fa Fl].
  unfold vn_enc in *. cbn [map concat vn_len fold_right]. rewrite app_length, Nnat.Nat2N.inj_add, <- IH, (l_len L) by assumption. reflexivity. Qed.
(* exactly n elements, n fixed from outside (the witnesses of a transaction: one per input / output) *)
Definition c_vecn {A} (c : codec A) (n : nat) : codec (list A) :=
  {| enc := vn_enc c; dec := vn_dec c n; wf := fun l => Nat.eqb (length l) n && forallb (wf c) l; elen := vn_len c |}.
Lemma c_vecn_lawful {A} (c : codec A) n : Lawful c -> Lawful (c_vecn c n).
Proof. intros L. apply lawful_intro; unfold Complete, LenOk; cbn.
  - intros bs l rest H. apply (vn_exact c L) in H as (-> & <- & F). now rewrite Nat.eqb_refl.
  - intros l rest H. apply andb_true_iff in H as [H F]. apply Nat.eqb_eq in H. subst n. now apply vn_complete.
  - intros l H. apply andb_true_iff in H as [_ F]. now apply vn_len_ok. Qed.
Lemma wf_vecn {A} (c : codec A) n l : wf (c_vecn c n) l = true <-> length l = n /\ forallb (wf c) l = true.
Proof. cbn [c_vecn wf]. now rewrite andb_true_iff, Nat.eqb_eq. Qed.

(* length-prefixed vector with an element-count cap (Vec<T>: len * size_of::<T>() <= MAX_VEC_SIZE) *)
Definition c_vec {A} (c : codec A) (maxn : N) : codec (list A) :=
  {| enc := fun l => vi_enc (N.of_nat (length l)) ++ vn_enc c l;
     dec := fun bs => match vi_dec bs with Some (n, r) => if maxn <? n then None else vn_dec c (N.to_nat n) r | None => None end;
     wf := fun l => (N.of_nat (length l) <=? maxn) && (N.of_nat (length l) <? 2 ^ 64) && forallb (wf c) l;
     elen := fun l => vi_size (N.of_nat (length l)) + vn_len c l |}.
Lemma c_vec_lawful {A} (c : codec A) maxn : Lawful c -> Lawful (c_vec c maxn).
Proof. intros L. apply lawful_intro; unfold Complete, LenOk; cbn [c_vec enc dec wf elen].
  - intros bs l rest H. destruct (vi_dec bs) as [[n r]|] eqn:Dv; [|discriminate]. destruct (N.ltb_spec maxn n); [discriminate|].
    apply vi_dec_exact in Dv as [-> Hn]. apply (vn_exact c L) in H as (-> & Hl & F). rewrite Hl, Nnat.N2Nat.id, F, app_assoc.
    destruct (N.leb_spec n maxn); [|lia]. destruct (N.ltb_spec n (2 ^ 64)); [auto|lia].
  - intros l rest H. apply andb_true_iff in H as [H F]. apply andb_true_iff in H as [H1 H2]. apply N.leb_le in H1. apply N.ltb_lt in H2.
    rewrite <- app_assoc, vi_dec_complete by exact H2.
    destruct (N.ltb_spec maxn (N.of_nat (length l))); [lia|]. rewrite Nnat.Nat2N.id. now apply vn_complete.
  - intros l H. apply andb_true_iff in H as [_ F]. rewrite app_length, Nnat.Nat2N.inj_add, <- (vn_len_ok c L), <- vi_size_length by assumption. reflexivity. Qed.
Lemma wf_vec {A} (c : codec A) maxn l : wf (c_vec c maxn) l = true <-> N.of_nat (length l) <= maxn /\ N.of_nat (length l) < 2 ^ 64 /\ forallb (wf c) l = true.
Proof. cbn [c_vec wf]. now rewrite !andb_true_iff, N.leb_le, N.ltb_lt, and_assoc. Qed.

(* length-prefixed byte string with a byte cap (Vec<u8>: len <= MAX_VEC_SIZE) *)
Definition c_varbytes (maxn : N) : codec bytes :=
  {| enc := fun b => vi_enc (N.of_nat (length b)) ++ b;
     dec := fun bs => match vi_dec bs with Some (n, r) => if maxn <? n then None else take (N.to_nat n) r | None => None end;
     wf := fun b => (N.of_nat (length b) <=? maxn) && (N.of_nat (length b) <? 2 ^ 64);
     elen := fun b => vi_size (N.of_nat (length b)) + N.of_nat (length b) |}.
Lemma c_varbytes_lawful maxn : Lawful (c_varbytes maxn).
Proof. apply lawful_intro; unfold Complete, LenOk; cbn [c_varbytes enc dec wf elen].
  - intros bs b rest H. destruct (vi_dec bs) as [[n r]|] eqn:Dv; [|discriminate]. destruct (N.ltb_spec maxn n); [discriminate|].
    apply vi_dec_exact in Dv as [-> Hn]. apply take_spec in H as [-> Hl]. rewrite Hl, Nnat.N2Nat.id, app_assoc.
    destruct (N.leb_spec n maxn); [|lia]. destruct (N.ltb_spec n (2 ^ 64)); [auto|lia].
  - intros b rest H. apply andb_true_iff in H as [H1 H2]. apply N.leb_le in H1. apply N.ltb_lt in H2.
    rewrite <- app_assoc, vi_dec_complete by exact H2.
    destruct (N.ltb_spec maxn (N.of_nat (length b))); [lia|]. rewrite Nnat.Nat2N.id. apply take_app.
  - intros b _. rewrite app_length, Nnat.Nat2N.inj_add, <- vi_size_length. reflexivity. Qed.

(* restriction by a predicate on the decoded value (e.g. point validity, proof header rules) *)
Definition c_guard {A} (c : codec A) (p : A -> bool) : codec A :=
  {| enc := enc c; dec := fun bs => match dec c bs with Some (a, r) => if p a then Some (a, r) else None | None => None end;
     wf := fun a => wf c a && p a; elen := elen c |}.
Lemma c_guard_lawful {A} (c : codec A) p : Lawful c -> Lawful (c_guard c p).
Proof. intros L. apply lawful_intro; unfold Complete, LenOk; cbn.
  - intros bs v rest H. destruct (dec c bs) as [[a r]|] eqn:D; [|discriminate]. destruct (p a) eqn:P; [|discriminate]. inversion H; subst.
    apply (l_dec L) in D as [-> W]. now rewrite W.
  - intros v rest H. apply andb_true_iff in H as [H P]. now rewrite (l_complete L), P.
  - intros v H. apply andb_true_iff in H as [H _]. now apply (l_len L). Qed.
Lemma wf_guard {A} (c : codec A) p a : wf (c_guard c p) a = true <-> wf c a = true /\ p a = true.
Proof. apply andb_true_iff. Qed.

(* Scalars modulo the secp256k1 group order (C04, C05, C09).
   A scalar is a `Z`; every operation returns the canonical representative in [0, qn). Blinding factors (`Tweak`s) are
   32-byte big-endian numbers < qn, amounts are u64 — both embed as themselves.
   Ring identities are proved through the congruence `eqn` (setoid rewriting with Z's ring operations), tactic `zn_ring`. *)
From Coq Require Import ZArith Lia List Zdiv Setoid Morphisms Permutation.
Import ListNotations.
Open Scope Z_scope.

(* group order n of secp256k1 (libsecp256k1 scalar_impl.h, constants SECP256K1_N_0..7) *)
Definition qn : Z := 0xFFFFFFFFFFFFFFFFFFFFFFFFFFFFFFFEBAAEDCE6AF48A03BBFD25E8CD0364141.
Lemma qn_pos : 0 < qn. Proof. reflexivity. Qed.
Lemma qn_big : 2 ^ 255 < qn. Proof. reflexivity. Qed.
Lemma qn_lt : qn < 2 ^ 256. Proof. reflexivity. Qed.

Definition zn (a : Z) : Z := a mod qn.
Definition zadd (a b : Z) : Z := (a + b) mod qn.
Definition zsub (a b : Z) : Z := (a - b) mod qn.
Definition zmul (a b : Z) : Z := (a * b) mod qn.
Definition zneg (a : Z) : Z := (- a) mod qn.
Definition zsum (l : list Z) : Z := fold_right zadd 0 l.
Definition in_zn (a : Z) : Prop := 0 <= a < qn.
Definition in_znb (a : Z) : bool := (0 <=? a) && (a <? qn).

Global Opaque qn.

Definition eqn (a b : Z) : Prop := a mod qn = b mod qn.
Global Instance eqn_equiv : Equivalence eqn.
Proof. split; red; unfold eqn; intros; congruence. Qed.
Global Instance add_eqn : Proper (eqn ==> eqn ==> eqn) Z.add. Proof. exact (Zplus_eqm qn). Qed.
Global Instance sub_eqn : Proper (eqn ==> eqn ==> eqn) Z.sub. Proof. exact (Zminus_eqm qn). Qed.
Global Instance mul_eqn : Proper (eqn ==> eqn ==> eqn) Z.mul. Proof. exact (Zmult_eqm qn). Qed.
Global Instance opp_eqn : Proper (eqn ==> eqn) Z.opp. Proof. exact (Zopp_eqm qn). Qed.
Lemma mod_eqn a : eqn (a mod qn) a. Proof. apply Zmod_eqm. Qed.
Lemma zadd_eqn a b : eqn (zadd a b) (a + b). Proof. apply mod_eqn. Qed.
Lemma zsub_eqn a b : eqn (zsub a b) (a - b). Proof. apply mod_eqn. Qed.
Lemma zmul_eqn a b : eqn (zmul a b) (a * b). Proof. apply mod_eqn. Qed.
Lemma zneg_eqn a : eqn (zneg a) (- a). Proof. apply mod_eqn. Qed.
Lemma eqn_sub_0 a b : eqn 0 (a - b) -> eqn a b.
Proof. intro E. replace a with (a - b + b) by ring. now rewrite <- E. Qed.

(* closes goals `e1 = e2` where both sides are built from zadd/zsub/zmul/zneg/zn (outermost one of them) and equal as
   integer polynomials *)
Ltac zn_unfold := unfold zadd, zsub, zmul, zneg, zn in *.
Ltac zn_ring :=
  zn_unfold;
  match goal with |- ?a mod qn = ?b mod qn => change (eqn a b) end;
  repeat match goal with |- context [(?a mod qn)%Z] => rewrite (mod_eqn a) end;
  unfold eqn; f_equal; ring.

Lemma zn_range a : in_zn (a mod qn).
Proof. unfold in_zn. pose proof qn_pos. apply Z.mod_pos_bound. lia. Qed.
Lemma zadd_range a b : in_zn (zadd a b). Proof. apply zn_range. Qed.
Lemma zsub_range a b : in_zn (zsub a b). Proof. apply zn_range. Qed.
Lemma zmul_range a b : in_zn (zmul a b). Proof. apply zn_range. Qed.
Lemma zneg_range a : in_zn (zneg a). Proof. apply zn_range. Qed.
Lemma zn_small a : in_zn a -> a mod qn = a.
Proof. unfold in_zn. intros. apply Z.mod_small. lia. Qed.
Lemma zn_idem a : (a mod qn) mod qn = a mod qn.
Proof. pose proof qn_pos. apply Z.mod_mod. lia. Qed.
Lemma in_znb_spec a : in_znb a = true <-> in_zn a.
Proof. unfold in_znb, in_zn. rewrite Bool.andb_true_iff, Z.leb_le, Z.ltb_lt. tauto. Qed.

Lemma zadd_comm a b : zadd a b = zadd b a. Proof. zn_ring. Qed.
Lemma zadd_assoc a b c : zadd a (zadd b c) = zadd (zadd a b) c. Proof. zn_ring. Qed.
Lemma zadd_0_l a : zadd 0 a = a mod qn. Proof. unfold zadd. f_equal. Qed.
Lemma zadd_0_r a : zadd a 0 = a mod qn. Proof. unfold zadd. f_equal. lia. Qed.
Lemma zmul_comm a b : zmul a b = zmul b a. Proof. zn_ring. Qed.
Lemma zsub_diag a : zsub a a = 0. Proof. unfold zsub. rewrite Z.sub_diag. reflexivity. Qed.
Lemma zadd_mod_l a b : zadd (a mod qn) b = zadd a b. Proof. zn_ring. Qed.
Lemma zadd_mod_r a b : zadd a (b mod qn) = zadd a b. Proof. zn_ring. Qed.

Lemma zsum_range l : in_zn (zsum l).
Proof. destruct l; cbn [zsum fold_right]. - pose proof qn_pos. unfold in_zn. lia. - apply zadd_range. Qed.
Lemma zsum_mod l : (zsum l) mod qn = zsum l.
Proof. apply zn_small, zsum_range. Qed.
Lemma zsum_app l1 l2 : zsum (l1 ++ l2) = zadd (zsum l1) (zsum l2).
Proof.
  induction l1 as [|a l1 IH]; cbn [app zsum fold_right].
  - fold (zsum l2). rewrite zadd_0_l, zsum_mod. reflexivity.
  - fold (zsum (l1 ++ l2)) (zsum l1). rewrite IH. apply zadd_assoc.
Qed.
Lemma zsum_cons a l : zsum (a :: l) = zadd a (zsum l). Proof. reflexivity. Qed.
Lemma zsum_perm l l' : Permutation l l' -> zsum l = zsum l'.
Proof.
  induction 1; cbn [zsum fold_right]; try congruence.
  - fold (zsum l) (zsum l'). congruence.
  - fold (zsum l). rewrite !zadd_assoc. f_equal. apply zadd_comm.
Qed.
Lemma zadd_cancel s a b : zadd s a = zadd s b -> a mod qn = b mod qn.
Proof.
  unfold zadd. intro H. change (eqn a b). change (eqn (s + a) (s + b)) in H.
  assert (E : eqn a ((s + a) - s)) by (unfold eqn; f_equal; ring). rewrite E, H. unfold eqn. f_equal. ring.
Qed.
Definition isum (l : list Z) : Z := fold_right Z.add 0 l.
Lemma zsum_eqn l : eqn (zsum l) (isum l).
Proof. induction l as [|a l IH]; cbn [zsum isum fold_right]; [reflexivity|]. fold (zsum l) (isum l). unfold zadd. now rewrite mod_eqn, IH. Qed.
Lemma eqn_zsum a b : eqn (zsum a) (zsum b) -> zsum a = zsum b.
Proof. unfold eqn. now rewrite !zsum_mod. Qed.
Lemma isum_app l1 l2 : isum (l1 ++ l2) = isum l1 + isum l2.
Proof. induction l1 as [|a l1 IH]; cbn [app isum fold_right]. - reflexivity. - fold (isum (l1 ++ l2)) (isum l1). rewrite IH. ring. Qed.

(* secp256k1_pedersen_blind_generator_blind_sum as called by compute_adaptive_blinding_factor / ValueBlindingFactor::last:
   entries are (value, generator blind = abf, value blind = vbf); the first |ins| addends are negated, the last entry is
   (value, abf, placeholder 0); result = 0 - sum. *)
Definition vb (x : Z * Z * Z) : Z := let '(v, abf, vbf) := x in zadd (zmul v abf) vbf.
Definition blind_sum_addend (negate : bool) (x : Z * Z * Z) : Z := if negate then zneg (vb x) else vb x.
Definition last_vbf (value abf : Z) (ins outs : list (Z * Z * Z)) : Z :=
  let addends := map (blind_sum_addend true) ins ++ map (blind_sum_addend false) (outs ++ [(value, abf, 0)]) in
  let sum := fold_left zadd addends 0 in
  zadd 0 (zneg sum).

Lemma eqn_mod a b : eqn a b -> a mod qn = b mod qn. Proof. exact (fun H => H). Qed.
Lemma fold_left_zadd l : forall acc, eqn (fold_left zadd l acc) (acc + isum l).
Proof.
  induction l as [|a l IH]; intro acc; cbn [fold_left isum fold_right].
  - rewrite Z.add_0_r. reflexivity.
  - fold (isum l). rewrite IH. unfold zadd. rewrite mod_eqn. unfold eqn. f_equal. ring.
Qed.
Lemma isum_addend_neg l : eqn (isum (map (blind_sum_addend true) l)) (- isum (map vb l)).
Proof.
  induction l as [|a l IH]; cbn [map isum fold_right]. - reflexivity.
  - fold (isum (map (blind_sum_addend true) l)) (isum (map vb l)). rewrite IH. cbn [blind_sum_addend]. unfold zneg.
    rewrite mod_eqn. unfold eqn. f_equal. ring.
Qed.
Lemma isum_addend_pos l : isum (map (blind_sum_addend false) l) = isum (map vb l).
Proof. induction l as [|a l IH]; cbn [map isum fold_right]. - reflexivity. - fold (isum (map (blind_sum_addend false) l)) (isum (map vb l)). rewrite IH. reflexivity. Qed.

(* the explicit formula of DESIGN section 6 (C04):  Σ_in (v·abf+vbf) − Σ_out (v·abf+vbf) − v_last·abf_last *)
Lemma last_vbf_formula value abf ins outs :
  last_vbf value abf ins outs = zsub (zsub (zsum (map vb ins)) (zsum (map vb outs))) (zmul value abf).
Proof.
  unfold last_vbf. unfold zadd at 1, zneg, zsub, zmul.
  match goal with |- ?a mod qn = ?b mod qn => enough (E : eqn a b) by exact E end.
  rewrite ?mod_eqn. rewrite fold_left_zadd. rewrite isum_app. rewrite isum_addend_pos. rewrite isum_addend_neg.
  rewrite map_app, isum_app. rewrite !zsum_eqn.
  cbn [map isum fold_right vb]. unfold zadd, zmul. rewrite ?mod_eqn. unfold eqn. f_equal. ring.
Qed.
Lemma last_balances_scalar ins outs v abf :
  zsum (map vb ins) = zsum (map vb (outs ++ [(v, abf, last_vbf v abf ins outs)])).
Proof.
  rewrite map_app, zsum_app. cbn [map zsum fold_right vb]. rewrite last_vbf_formula, <- (zsum_mod (map vb ins)) at 1.
  apply eqn_mod. rewrite !zadd_eqn, !zsub_eqn, !zmul_eqn. unfold eqn. f_equal. ring.
Qed.
(* the scalar blind_non_last appends: what the party took in minus all it blinded, the output popped last included *)
Lemma scalar_formula inp others v abf vbf :
  zadd (last_vbf v abf inp others) (zneg vbf) = zsub (zsum (map vb inp)) (zsum (map vb (others ++ [(v, abf, vbf)]))).
Proof.
  rewrite last_vbf_formula, map_app, zsum_app. cbn [map zsum fold_right vb].
  apply eqn_mod. rewrite !zadd_eqn, !zsub_eqn, zmul_eqn, zneg_eqn. unfold eqn. f_equal. ring.
Qed.
Lemma last_vbf_range value abf ins outs : in_zn (last_vbf value abf ins outs).
Proof. apply zadd_range. Qed.

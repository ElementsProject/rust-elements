(* Standard base64 with canonical padding (the `base64` crate's STANDARD engine: alphabet A-Za-z0-9+/, '=' padding written
   and required, trailing bits must be zero).  Model and round-trip proof. *)
From Coq Require Import List Arith NArith ZArith Lia Bool ZifyN ZifyBool ZifyNat.
From Coq.Strings Require Import Byte.
From EV Require Import Base.Bytes.
Import ListNotations.
Ltac Zify.zify_post_hook ::= Z.div_mod_to_equations.
Open Scope N_scope.
Set Default Timeout 60.

Definition sx_char (n : N) : byte :=
  if n <? 26 then n2b (65 + n) else if n <? 52 then n2b (97 + (n - 26)) else if n <? 62 then n2b (48 + (n - 52)) else if n =? 62 then x2b else x2f.
Definition char_sx (c : byte) : option N :=
  let v := b2n c in
  if (65 <=? v) && (v <=? 90) then Some (v - 65)
  else if (97 <=? v) && (v <=? 122) then Some (v - 97 + 26)
  else if (48 <=? v) && (v <=? 57) then Some (v - 48 + 52)
  else if v =? 43 then Some 62 else if v =? 47 then Some 63 else None.
Definition pad : byte := x3d.

Fixpoint b64_enc (bs : bytes) : bytes :=
  match bs with
  | [] => []
  | [a] => let a := b2n a in [sx_char (a / 4); sx_char ((a mod 4) * 16); pad; pad]
  | [a; b] => let a := b2n a in let b := b2n b in [sx_char (a / 4); sx_char ((a mod 4) * 16 + b / 16); sx_char ((b mod 16) * 4); pad]
  | a :: b :: c :: r =>
      let a := b2n a in let b := b2n b in let c := b2n c in
      sx_char (a / 4) :: sx_char ((a mod 4) * 16 + b / 16) :: sx_char ((b mod 16) * 4 + c / 64) :: sx_char (c mod 64) :: b64_enc r
  end.

Fixpoint b64_dec_aux (fuel : nat) (s : bytes) : option bytes :=
  match fuel with O => None | S f =>
  match s with
  | [] => Some []
  | c0 :: c1 :: c2 :: c3 :: r =>
      match char_sx c0, char_sx c1 with
      | Some s0, Some s1 =>
          if byte_eqb c2 pad then
            (* "xx==" : one byte, only as the last group, low 4 bits of s1 zero *)
            if byte_eqb c3 pad then match r with [] => if s1 mod 16 =? 0 then Some [n2b (s0 * 4 + s1 / 16)] else None | _ => None end else None
          else match char_sx c2 with
               | None => None
               | Some s2 =>
                   if byte_eqb c3 pad then
                     match r with [] => if s2 mod 4 =? 0 then Some [n2b (s0 * 4 + s1 / 16); n2b ((s1 mod 16) * 16 + s2 / 4)] else None | _ => None end
                   else match char_sx c3 with
                        | None => None
                        | Some s3 => match b64_dec_aux f r with
                                     | Some t => Some (n2b (s0 * 4 + s1 / 16) :: n2b ((s1 mod 16) * 16 + s2 / 4) :: n2b ((s2 mod 4) * 64 + s3) :: t)
                                     | None => None end
                        end
               end
      | _, _ => None end
  | _ => None
  end end.
Definition b64_dec (s : bytes) : option bytes := b64_dec_aux (S (length s)) s.

Lemma char_sx_char n : n < 64 -> char_sx (sx_char n) = Some n.
Proof. intros H. assert (E : forallb (fun k => match char_sx (sx_char (N.of_nat k)) with Some m => m =? N.of_nat k | None => false end) (seq 0 64) = true) by (vm_compute; reflexivity).
  rewrite forallb_forall in E. specialize (E (N.to_nat n)). rewrite N2Nat.id in E.
  assert (I : In (N.to_nat n) (seq 0 64)) by (apply in_seq; lia). specialize (E I).
  destruct (char_sx (sx_char n)) as [m|]; [|discriminate]. apply N.eqb_eq in E. now subst. Qed.
Lemma sx_char_not_pad n : n < 64 -> byte_eqb (sx_char n) pad = false.
Proof. intros H. destruct (byte_eqb_spec (sx_char n) pad) as [E|]; [|reflexivity]. apply char_sx_char in H. rewrite E in H. discriminate H. Qed.

Lemma byte_eqb_refl_pad : byte_eqb pad pad = true. Proof. reflexivity. Qed.

Lemma b64_enc_length bs : (length (b64_enc bs) <= 4 + 2 * length bs)%nat.
Proof. remember (length bs) as n eqn:L. revert bs L. induction n as [n IH] using lt_wf_ind. intros bs L.
  destruct bs as [|a [|b [|c r]]]; cbn [b64_enc length] in *; try lia. specialize (IH (length r)). assert (length r < n)%nat by lia.
  specialize (IH H r eq_refl). lia. Qed.

Lemma div_mul_add x y m : y < m -> (x * m + y) / m = x.
Proof. intros H. rewrite N.div_add_l, (N.div_small y m H) by lia. apply N.add_0_r. Qed.
Lemma mod_mul_add x y m : y < m -> (x * m + y) mod m = y.
Proof. intros H. rewrite N.add_comm, N.mod_add by lia. now apply N.mod_small. Qed.
Lemma div_mod_join x m : m <> 0 -> x / m * m + x mod m = x.
Proof. intros H. rewrite N.mul_comm. symmetry. now apply N.div_mod. Qed.
(* the bytes a, b, c read back from the sextets of a group; y, z stand for the bits the next byte contributes (none in a short group) *)
Lemma group_byte0 a y : y < 16 -> a / 4 * 4 + (a mod 4 * 16 + y) / 16 = a.
Proof. intros Hy. rewrite div_mul_add by exact Hy. now apply div_mod_join. Qed.
Lemma group_byte1 x b z : b < 256 -> z < 4 -> (x * 16 + b / 16) mod 16 * 16 + (b mod 16 * 4 + z) / 4 = b.
Proof. intros Hb Hz. rewrite mod_mul_add by (apply N.div_lt_upper_bound; lia). rewrite div_mul_add by exact Hz. now apply div_mod_join. Qed.
Lemma group_byte2 y c : c < 256 -> (y * 4 + c / 64) mod 4 * 64 + c mod 64 = c.
Proof. intros Hc. rewrite mod_mul_add by (apply N.div_lt_upper_bound; lia). now apply div_mod_join. Qed.

Lemma b64_dec_aux_enc : forall n bs fuel, length bs = n -> (length (b64_enc bs) < fuel)%nat -> b64_dec_aux fuel (b64_enc bs) = Some bs.
Proof. induction n as [n IH] using lt_wf_ind. intros bs fuel L F.
  destruct fuel as [|f]; [lia|]. destruct bs as [|a [|b [|c r]]]; cbn [b64_enc] in *.
  - reflexivity.
  - pose proof (b2n_lt a) as Ha. cbn [b64_dec_aux].
    rewrite !char_sx_char by lia. rewrite !byte_eqb_refl_pad.
    rewrite N.mod_mul by discriminate. cbn [N.eqb]. rewrite <- (N.add_0_r (_ * 16)), group_byte0, n2b_b2n by reflexivity. reflexivity.
  - pose proof (b2n_lt a) as Ha. pose proof (b2n_lt b) as Hb. cbn [b64_dec_aux].
    rewrite !char_sx_char by lia. rewrite sx_char_not_pad by lia. rewrite byte_eqb_refl_pad.
    rewrite N.mod_mul by discriminate. cbn [N.eqb]. rewrite group_byte0 by lia.
    rewrite <- (N.add_0_r (_ mod 16 * 4)), group_byte1, !n2b_b2n by (exact Hb || reflexivity). reflexivity.
  - pose proof (b2n_lt a) as Ha. pose proof (b2n_lt b) as Hb. pose proof (b2n_lt c) as Hc. cbn [b64_dec_aux].
    rewrite !char_sx_char by lia. rewrite !sx_char_not_pad by lia.
    cbn [length] in L, F. rewrite (IH (length r)); [|lia|reflexivity|lia].
    rewrite group_byte0, group_byte1, group_byte2, !n2b_b2n by lia. reflexivity. Qed.

Theorem b64_roundtrip bs : b64_dec (b64_enc bs) = Some bs.
Proof. unfold b64_dec. eapply b64_dec_aux_enc; [reflexivity|lia]. Qed.

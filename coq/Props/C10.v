(* C10 — fallible public APIs are total: errors, never panics or allocation out of proportion to the input.
   Statements only; proofs in Proofs/Alloc.v, Proofs/Totality.v (and Proofs/Script.v, Proofs/Taproot.v for the imported ones).

   Shape.  Model/Totality.v writes every indexing, slicing, unchecked subtraction, `expect`, `unreachable!`, out-of-range shift and
   overflowing addition of the modelled functions as an operation that yields `Panic why`; a read through a slice pointer behind
   the end of the slice is `Panic WOobRead`.  `C10_total_<f>` says no argument produces a Panic.  Where the code does panic the
   full statement would be kept restricted to `~ Known` (a decidable input class) next to a `_refuted` witness — at present no such
   restriction is left: the model follows the repaired library, F1 (a4bc64e), F2 (4b01389), F12 (8d5600e), F16 (c723f02), F18 (838e50c),
   F17 (7b7cbe8, saturating fee sums) and F19 (6050d64, read_uint size bound) are fixed and every `C10_total_*` statement is unconditional.
   The allocation clause: `rsv` counts the bytes the decoders' own `vec![0; s]` / `Vec::with_capacity(len)` reserve; the bound is
   K + k * |input| with K = one MAX_VEC_SIZE per nesting level of length-prefixed vectors (3 for a block): the reservation is NOT
   proportional to the input — a 5-byte input can reserve MAX_VEC_SIZE bytes — it is bounded by that constant plus a linear term. *)
From Coq Require Import List Arith NArith ZArith Bool.
From Coq.Strings Require Import Byte.
From EV Require Gen.SrcScript Proofs.SrcScript Gen.SrcAddr Proofs.SrcAddr.
From EV Require Import Base.Bytes Base.Codec Gen.Tables Model.Script Model.Taproot Model.Bech32 Model.Tx Model.Block Model.Alloc Model.Totality
  Proofs.Script Proofs.ScriptTemplates Proofs.Taproot Proofs.Alloc Proofs.Totality.
Import ListNotations.
Open Scope N_scope.

Section ALLOC.
Variable pt_ok : bytes -> bool.
Variables maxvec sz_txin sz_txout sz_vecu8 sz_tx : N.
Notation A_TX := (a_tx pt_ok maxvec sz_txin sz_txout sz_vecu8).
Notation A_BLOCK := (a_block pt_ok maxvec sz_txin sz_txout sz_vecu8 sz_tx).

(* the instrumented decoders are the decoders of C01, not a second model *)
Theorem C10_decoders_are_C01 :
  ac A_TX = c_tx pt_ok maxvec (maxvec / sz_txin) (maxvec / sz_txout) (maxvec / sz_vecu8) /\
  ac (a_header maxvec sz_vecu8) = c_header maxvec (maxvec / sz_vecu8) /\
  ac A_BLOCK = c_block pt_ok maxvec (maxvec / sz_txin) (maxvec / sz_txout) (maxvec / sz_vecu8) (maxvec / sz_tx) /\
  ac (a_txin_nowit pt_ok maxvec) = c_txin pt_ok maxvec /\ ac (a_txout_nowit pt_ok maxvec) = c_txout pt_ok maxvec /\
  ac (a_params maxvec sz_vecu8) = c_params maxvec (maxvec / sz_vecu8).
Proof. exact (conj (a_tx_is_c_tx _ _ _ _ _) (conj (a_header_is_c_header _ _) (conj (a_block_is_c_block _ _ _ _ _ _)
  (conj (a_txin_is_c_txin _ _) (conj (a_txout_is_c_txout _ _) (a_params_is_c_params _ _)))))). Qed.

(* whatever the input — accepted or rejected — the reservations of a Transaction decode stay below 2 MAX_VEC_SIZE + k_tx * |input| *)
Theorem C10_alloc_bound_tx : forall bs, rsv A_TX bs <= 2 * maxvec + k_tx sz_txin sz_txout sz_vecu8 * len bs.
Proof. exact (alaw_bound _ _ _ _ (al_tx pt_ok maxvec sz_txin sz_txout sz_vecu8 _ _ (N.le_refl _) (N.le_refl _))). Qed.
Theorem C10_alloc_bound_block : forall bs, rsv A_BLOCK bs <= 3 * maxvec + k_block sz_txin sz_txout sz_vecu8 sz_tx * len bs.
Proof. exact (alaw_bound _ _ _ _ (al_block pt_ok maxvec sz_txin sz_txout sz_vecu8 sz_tx)). Qed.
Theorem C10_alloc_bound_header : forall bs, rsv (a_header maxvec sz_vecu8) bs <= 2 * maxvec + k_stack sz_vecu8 * len bs.
Proof. exact (alaw_bound _ _ _ _ (al_header pt_ok maxvec sz_vecu8 _ _ (N.le_refl _) (N.le_refl _))). Qed.
Theorem C10_alloc_bound_params : forall bs, rsv (a_params maxvec sz_vecu8) bs <= 2 * maxvec + k_stack sz_vecu8 * len bs.
Proof. exact (alaw_bound _ _ _ _ (al_params pt_ok maxvec sz_vecu8 _ _ (N.le_refl _) (N.le_refl _))). Qed.
Theorem C10_alloc_bound_txin_txout : forall bs,
  rsv (a_txin_nowit pt_ok maxvec) bs <= maxvec + 1 * len bs /\ rsv (a_txout_nowit pt_ok maxvec) bs <= maxvec + 1 * len bs.
Proof. intros bs. split; [exact (alaw_bound _ _ _ _ (al_txin pt_ok maxvec 1 maxvec (N.le_refl _) (N.le_refl _)) bs)|exact (alaw_bound _ _ _ _ (al_txout pt_ok maxvec 1 maxvec (N.le_refl _) (N.le_refl _)) bs)]. Qed.
(* a decode that SUCCEEDS has paid for everything it reserved with consumed input: nothing is left of the constant *)
Theorem C10_alloc_paid_tx : forall bs t rest, dec (ac A_TX) bs = Some (t, rest) -> rsv A_TX bs <= k_tx sz_txin sz_txout sz_vecu8 * len bs.
Proof. intros bs t rest D. pose proof (al_paid (al_tx pt_ok maxvec sz_txin sz_txout sz_vecu8 _ _ (N.le_refl _) (N.le_refl _)) bs t rest D). Lia.lia. Qed.
(* Vec<u8>, Vec<Vec<u8>> and pset::raw::Key on their own *)
Theorem C10_alloc_bound_low : forall bs,
  rsv (a_varbytes maxvec) bs <= maxvec + 1 * len bs /\
  rsv (a_vecvec sz_vecu8 maxvec) bs <= 2 * maxvec + k_stack sz_vecu8 * len bs /\
  snd (key_dec maxvec bs) <= maxvec.
Proof. intros bs. split; [exact (alaw_bound _ _ _ _ (alaw_varbytes maxvec) bs)|split].
  - exact (alaw_bound _ _ _ _ (al_stack maxvec sz_vecu8 _ _ (N.le_refl _) (N.le_refl _)) bs).
  - exact (proj2 (key_dec_total maxvec bs)). Qed.
End ALLOC.
(* the constant part is real: a 5-byte input makes the Vec<u8> decoder reserve 4 000 000 bytes before it fails *)
Example C10_alloc_not_proportional : rsv (a_varbytes 4000000) [xfe; x00; x09; x3d; x00] = 4000000 /\ dec (ac (a_varbytes 4000000)) [xfe; x00; x09; x3d; x00] = None.
Proof. split; reflexivity. Qed.

(* PSET: inputs and outputs are reserved at once behind the 10 000 caps — 10 000 * size_of::<Input>() (13.8 MB on the reference build)
   from a 30-byte PSET; bounded by a constant, not by the input *)
Theorem C10_alloc_bound_pset_counts : forall sz count, snd (pset_reserve sz count) <= 10000 * sz /\ is_panic (fst (pset_reserve sz count)) = false.
Proof. exact pset_reserve_bound. Qed.

Theorem C10_total_key : forall maxvec bs w, fst (key_dec maxvec bs) <> Panic w.
Proof. intros maxvec bs w H. pose proof (proj1 (key_dec_total maxvec bs)) as T. rewrite H in T. discriminate. Qed.

(* Instructions::next / Script::instructions(_minimal), all four push forms: no item is a panic (imported, C16) *)
Theorem C10_total_instructions : forall (minimal : bool) (s : bytes) (i : Script.item),
  In i (instructions minimal s) -> match i with IPanic _ | IFuel => False | _ => True end.
Proof. exact instructions_clean. Qed.
(* read_uint (F19, repaired by 6050d64): total for every size in both profiles; up to 8 bytes it is the function of Model/Script.v
   (Instructions::next uses 1, 2, 4), beyond that the error NumericOverflow *)
Theorem C10_total_read_uint : forall p data size w, read_uint_p p data size <> Panic w.
Proof. exact read_uint_p_total. Qed.
Theorem C10_read_uint_is_model : forall p data size, (size <= 8)%nat ->
  read_uint_p p data size = match Script.read_uint data size with SOk n => Val n | SErr _ => Fail (E "early") end.
Proof. exact read_uint_p_small. Qed.
Theorem C10_read_uint_oversize : forall p data size, (8 < size)%nat -> (size <= length data)%nat -> read_uint_p p data size = Fail (E "overflow").
Proof. exact read_uint_p_oversize. Qed.
(* the template predicates index self.0[..] only behind their length tests: they are the total predicates of Model/Script.v *)
Theorem C10_total_templates : forall s,
  is_p2sh_p s = Val (is_p2sh s) /\ is_p2pkh_p s = Val (is_p2pkh s) /\ is_p2pk_p s = Val (is_p2pk s) /\
  is_witness_program_p s = Val (is_witness_program s) /\ is_v0_p2wsh_p s = Val (is_v0_p2wsh s) /\ is_v0_p2wpkh_p s = Val (is_v0_p2wpkh s) /\
  is_v1_p2tr_p s = Val (is_v1_p2tr s) /\ is_v1plus_p2witprog_p s = Val (is_v1plus_p2witprog s) /\ is_op_return_p s = Val (is_op_return s).
Proof. intros s. repeat split; [apply is_p2sh_p_eq|apply is_p2pkh_p_eq|apply is_p2pk_p_eq|apply is_witness_program_p_eq|apply is_v0_p2wsh_p_eq
  |apply is_v0_p2wpkh_p_eq|apply is_v1_p2tr_p_eq|apply is_v1plus_p2witprog_p_eq|apply is_op_return_p_eq]. Qed.
(* the same from the source text: the no-panic conditions GENERATED by the translator from the bodies of the template predicates in src/script.rs
   (every `self.0[i]` within bounds, `self.0.len() - 2` not below zero, with && / || short-circuiting left to right) hold for every script *)
Theorem C10_templates_no_panic_from_source : forall s : bytes,
  SrcScript.src_Script_is_p2sh_safe s = true /\ SrcScript.src_Script_is_p2pkh_safe s = true /\ SrcScript.src_Script_is_p2pk_safe s = true
  /\ SrcScript.src_Script_is_witness_program_safe s = true /\ SrcScript.src_Script_is_v0_p2wsh_safe s = true /\ SrcScript.src_Script_is_v1_p2tr_safe s = true
  /\ SrcScript.src_Script_is_v1plus_p2witprog_safe s = true /\ SrcScript.src_Script_is_v0_p2wpkh_safe s = true /\ SrcScript.src_Script_is_op_return_safe s = true
  /\ SrcScript.src_Script_is_provably_unspendable_safe s = true.
Proof. intros s. repeat split; auto using SrcScript.src_is_p2sh_safe, SrcScript.src_is_p2pkh_safe, SrcScript.src_is_p2pk_safe, SrcScript.src_is_witness_program_safe,
  SrcScript.src_is_v0_p2wsh_safe, SrcScript.src_is_v1_p2tr_safe, SrcScript.src_is_v1plus_p2witprog_safe, SrcScript.src_is_v0_p2wpkh_safe,
  SrcScript.src_is_op_return_safe, SrcScript.src_is_provably_unspendable_safe. Qed.
(* Address::from_script from the source text: the no-panic condition GENERATED from its arms in src/address.rs (every `script.as_bytes()[a..b]` inside
   the script, every `try_into().unwrap()` to [u8; 20] given exactly 20 bytes, `script.as_bytes()[0] - 0x50` not below zero and the value handed to
   `Fe32::try_from(..).expect(..)` below 32) holds for every script *)
Theorem C10_from_script_no_panic_from_source : forall s : bytes, SrcAddr.src_from_script_safe s = true.
Proof. exact SrcAddr.src_from_script_safe_all. Qed.
(* Address::from_script (imported, C16) *)
Theorem C10_total_from_script : forall s : bytes, exists r, from_script s = Script.Val r.
Proof. exact from_script_total. Qed.

(* blech32: UncheckedHrpstring::new, CheckedHrpstring::new::<Ck> (validate_checksum, remove_checksum), SegwitHrpstring::new *)
Theorem C10_total_unchecked_new : forall s, unchecked_new_p s = of_res (Bech32.unchecked_new s).
Proof. exact unchecked_new_p_spec. Qed.
Theorem C10_total_checked_new : forall c s, hpanic (checked_new_p c s) = false.
Proof. exact checked_no_panic. Qed.
Theorem C10_total_validate_padding : forall d, forallb validc d = true -> hpanic (validate_padding_p d) = false.
Proof. exact validate_padding_no_panic. Qed.
Theorem C10_total_segwit_new : forall s, hpanic (segwit_new_p s) = false.
Proof. exact segwit_new_no_panic. Qed.
(* and SegwitHrpstring::new written with its indexing, subtraction, expect and unreachable! IS Bech32.segwit_decode under the blech32
   configuration — the function C06 / C17 are about *)
Theorem C10_segwit_new_is_model : forall s,
  match segwit_new_p s with
  | HOk (h, ver, d) => segwit_decode cfg_blech s = Bech32.Ok (ver, data_bytes d)
  | HErr e => segwit_decode cfg_blech s = Bech32.Err e
  | HPanic _ => False end.
Proof. exact segwit_new_p_spec. Qed.
(* new_bech32 (F1, repaired by a4bc64e): total for every string; an empty data part is the error MissingWitnessVersion *)
Theorem C10_total_segwit_new_bech32 : forall s, hpanic (segwit_new_bech32_p s) = false.
Proof. exact segwit_new_bech32_no_panic. Qed.
Example C10_segwit_new_bech32_empty_data : segwit_new_bech32_p [x61; x31] = HErr ENoData.
Proof. reflexivity. Qed.

(* taproot and schnorr slice parsers *)
Theorem C10_total_control_block : forall xonly_valid sl w, cb_from_slice_p xonly_valid sl <> Panic w.
Proof. exact cb_from_slice_p_total. Qed.
(* and they are the total functions of Model/Taproot.v that C15 proves round trips about *)
Theorem C10_control_block_is_model : forall xonly_valid sl,
  cb_from_slice_p xonly_valid sl = of_tres (cb_from_slice xonly_valid sl) /\ branch_from_slice_p sl = of_tres (branch_from_slice sl).
Proof. intros. split; [apply cb_from_slice_p_spec|apply branch_from_slice_p_spec]. Qed.
Theorem C10_total_merkle_branch : forall sl w, branch_from_slice_p sl <> Panic w.
Proof. exact branch_from_slice_p_total. Qed.
Theorem C10_total_schnorr_sig : forall sig_ok sl w, schnorr_from_slice sig_ok sl <> Panic w /\ schnorr_pset sig_ok sl <> Panic w.
Proof. intros. split; [apply schnorr_from_slice_total|apply schnorr_pset_total]. Qed.

(* PSET value decoders that slice by fixed offsets *)
Theorem C10_total_pset_values : forall (Hleaf Hbranch : bytes -> bytes) (xonly_valid : bytes -> bool) (maxvec : N) (bs : bytes) (w : why),
  scriptver_p bs <> Panic w /\ xonlyleaf_p xonly_valid bs <> Panic w /\ keysource_p bs <> Panic w /\ leafks_p maxvec bs <> Panic w /\
  taptree_p Hleaf Hbranch maxvec bs <> Panic w.
Proof. intros. repeat split; [apply scriptver_p_total|apply xonlyleaf_p_total|apply keysource_p_total|apply leafks_p_total|apply taptree_p_total]. Qed.

(* Global::merge, xpub branch (F2, repaired by 4b01389): both length subtractions are guarded; equal paths with different
   fingerprints are a conflict *)
Theorem C10_total_merge_xpub : forall f2 d2 f1 d1 w, merge_xpub f2 d2 f1 d1 <> Panic w.
Proof. exact merge_xpub_total. Qed.
Theorem C10_merge_xpub_equal_paths_conflict : forall f2 f1 d, f1 <> f2 -> merge_xpub f2 d f1 d = Fail (E "conflict").
Proof. exact merge_xpub_conflict_equal_paths. Qed.

(* Transaction::blind, output selection (F12, repaired by 8d5600e): no output marked is the error TooFewBlindingOutputs *)
Theorem C10_total_blind_select : forall outs w, blind_select outs <> Panic w.
Proof. exact blind_select_total. Qed.
Example C10_blind_select_nothing_marked : blind_select [ {| bo_fee := true; bo_marked := false; bo_addr := false |} ] = Fail (E "toofew").
Proof. reflexivity. Qed.

(* Pset::locktime: the two `unreachable!` arms are unreachable *)
Theorem C10_total_locktime : forall fallback inputs w, locktime_p fallback inputs <> Panic w.
Proof. exact locktime_p_total. Qed.

(* TaprootBuilder (F16, repaired by c723f02): finalize (Model/Taproot.finalize) never panics for ANY builder state, serde-built ones
   included; API-built states moreover have their last slot filled (C15's invariant) *)
Theorem C10_total_finalize : forall b s, finalize_p b <> Taproot.Panic s.
Proof. exact finalize_p_total. Qed.
Theorem C10_builder_inv : forall items b, api_builder items = Taproot.Ok b -> b = [] \/ exists n r, b = Some n :: r.
Proof. intros items b R. exact (run_head_some triv triv items b R). Qed.
Example C10_finalize_serde_state : finalize_p [None] = Taproot.Fail IncompleteTree.
Proof. reflexivity. Qed.

(* pegin witness, pegout script, minimum value *)
Theorem C10_total_pegin : forall w x, from_pegin_witness w <> Panic x.
Proof. exact from_pegin_witness_total. Qed.
Theorem C10_total_pegout : forall v s x, is_null_data s <> Panic x /\ pegout_data v s <> Panic x.
Proof. intros. split; [apply is_null_data_total|apply pegout_data_total]. Qed.
(* total only because every constructor of a RangeProof admits proofs of >= 65 bytes (rangeproof_ok, transcribed from the C parser) *)
Theorem C10_total_minimum_value : forall v opret prf x, (forall p, prf = Some p -> rangeproof_ok p = true) -> minimum_value_p v opret prf <> Panic x.
Proof. exact minimum_value_p_total. Qed.
Example C10_minimum_value_needs_the_library_bound : minimum_value_conf false (x60 :: repeat x00 8) = Panic WSlice.
Proof. reflexivity. Qed.

(* fee_in / all_fees (F17, repaired by 7b7cbe8): never a panic, in either profile; the result is the true sum of the asset's fee outputs
   capped at u64::MAX — exact for every sum below 2^64 *)
Theorem C10_total_fee_in : forall outs asset, fee_in outs asset = Val (N.min (fold_right N.add 0 (map snd (filter (fun o => fst o =? asset) outs))) U64_MAX).
Proof. exact fee_in_spec. Qed.
Example C10_fee_in_saturates : fee_in [(3, 18446744073709551615); (3, 1)] 3 = Val 18446744073709551615 /\ fee_in [(3, 5); (4, 9); (3, 7)] 3 = Val 12.
Proof. split; reflexivity. Qed.

(* commitments from slices (F18, repaired by 838e50c): the four entry points test the length before the slice reaches the C parser;
   without that test every other length is an out-of-bounds read (read33_oob) *)
Theorem C10_total_from_commitment : forall pt_ok sl w, from_commitment_p pt_ok sl <> Panic w.
Proof. exact from_commitment_p_total. Qed.
Theorem C10_from_commitment_needs_the_guard : forall pt_ok sl, (exists w, read33 pt_ok sl = Panic w) <-> length sl <> 33%nat.
Proof. exact read33_oob. Qed.

(* the small fallible integer constructors (u32 arguments range over all of N here: the statements hold a fortiori below 2^32):
   Sequence::from_seconds_floor / from_seconds_ceil return Err exactly beyond the last representable interval and otherwise the exact
   quotient / ceiling or-ed with LOCK_TYPE_MASK; nothing in them can overflow *)
Theorem C10_seq_from_seconds_floor : forall s v, seq_from_seconds_floor s = Val v <-> s < 65536 * 512 /\ v = N.lor (s / 512) C10_SEQ_LOCK_TYPE_MASK.
Proof. exact seq_floor_spec. Qed.
Theorem C10_seq_from_seconds_floor_err : forall s, (exists e, seq_from_seconds_floor s = Fail e) <-> 65536 * 512 <= s.
Proof. exact seq_floor_err. Qed.
Theorem C10_seq_from_seconds_ceil : forall s v, seq_from_seconds_ceil s = Val v <-> s <= 65535 * 512 /\ v = N.lor ((s + 511) / 512) C10_SEQ_LOCK_TYPE_MASK.
Proof. exact seq_ceil_spec. Qed.
Theorem C10_seq_from_seconds_ceil_err : forall s, (exists e, seq_from_seconds_ceil s = Fail e) <-> 65535 * 512 < s.
Proof. exact seq_ceil_err. Qed.
Theorem C10_div_ceil_is_ceiling : forall s, let i := u32_div_ceil s 512 in s <= 512 * i /\ (i = 0 \/ 512 * (i - 1) < s).
Proof. exact u32_div_ceil_spec. Qed.
(* LockTime::from_height / from_time (and Height / Time::from_consensus): Ok n exactly on their side of LOCK_TIME_THRESHOLD *)
Theorem C10_locktime_constructors : forall n, (lt_from_height n = Val n <-> n < 500000000) /\ (lt_from_time n = Val n <-> 500000000 <= n)
  /\ ((exists e, lt_from_height n = Fail e) <-> 500000000 <= n) /\ ((exists e, lt_from_time n = Fail e) <-> n < 500000000).
Proof. exact lt_height_time_spec. Qed.
Example C10_ctor_examples :
  seq_from_seconds_ceil 4294967295 = Fail (E "overflow") /\ seq_from_seconds_ceil 33553920 = Val (N.lor 65535 4194304) /\ seq_from_seconds_ceil 33553921 = Fail (E "overflow")
  /\ seq_from_seconds_ceil 1 = Val (N.lor 1 4194304) /\ seq_from_seconds_floor 33554431 = Val (N.lor 65535 4194304) /\ seq_from_seconds_floor 33554432 = Fail (E "overflow")
  /\ ecdsa_from_standard 0x81 = Val 0x81 /\ ecdsa_from_standard 0 = Fail (E "nonstandard") /\ psbt_schnorr_hash_ty 0x100 = None /\ psbt_schnorr_hash_ty 0x83 = Some 0x83.
Proof. repeat split; reflexivity. Qed.

Example C10_nonvacuous :
  (* xpub reconciliation: other a proper suffix of self -> keep; self a proper suffix of other -> replace; the former F2 witness -> conflict *)
  merge_xpub [x00] [1; 2; 3] [x00] [2; 3] = Val XKeep /\ merge_xpub [x00] [3] [x00] [2; 3] = Val XReplace /\ merge_xpub [x00] [1; 2; 3] [x00] [9] = Fail (E "conflict") /\
  (* an output selection that succeeds: fee, marked, unmarked, marked -> both marked outputs, the second one last *)
  blind_select [ {| bo_fee := true; bo_marked := false; bo_addr := false |}; {| bo_fee := false; bo_marked := true; bo_addr := true |};
                 {| bo_fee := false; bo_marked := false; bo_addr := false |}; {| bo_fee := false; bo_marked := true; bo_addr := true |} ] = Val [1; 3]%nat /\
  (* lock times: both kinds required by every input -> the HEIGHT is returned (BIP370; since d70d58d), conflict when they exclude each other *)
  locktime_p None [(Some 600000000, Some 100)] = Val 100 /\ locktime_p None [(Some 600000000, None); (None, Some 100)] = Fail (E "conflict") /\
  (* a control block of one node parses *)
  (exists c, cb_from_slice_p (fun _ => true) (xc4 :: repeat x07 64) = Val c /\ length (cb_branch c) = 1%nat) /\
  (* a pegout script: OP_RETURN, 32-byte genesis hash, 1-byte script *)
  (exists p, pegout_data (Some 5) (x6a :: x20 :: repeat x09 32 ++ [x01; x51]) = Val (Some p) /\ po_spk p = [x51]).
Proof. repeat split; try reflexivity; eexists; split; vm_compute; reflexivity. Qed.

Check (C10_alloc_bound_tx : forall pt_ok maxvec sz_txin sz_txout sz_vecu8 bs,
  rsv (a_tx pt_ok maxvec sz_txin sz_txout sz_vecu8) bs <= 2 * maxvec + k_tx sz_txin sz_txout sz_vecu8 * len bs).
Check (C10_alloc_bound_block : forall pt_ok maxvec sz_txin sz_txout sz_vecu8 sz_tx bs,
  rsv (a_block pt_ok maxvec sz_txin sz_txout sz_vecu8 sz_tx) bs <= 3 * maxvec + k_block sz_txin sz_txout sz_vecu8 sz_tx * len bs).
Check (C10_total_segwit_new : forall s, hpanic (segwit_new_p s) = false).
Check (C10_total_segwit_new_bech32 : forall s, hpanic (segwit_new_bech32_p s) = false).
Check (C10_total_control_block : forall xonly_valid sl w, cb_from_slice_p xonly_valid sl <> Panic w).
Check (C10_total_merge_xpub : forall f2 d2 f1 d1 w, merge_xpub f2 d2 f1 d1 <> Panic w).
Check (C10_total_blind_select : forall outs w, blind_select outs <> Panic w).
Check (C10_total_locktime : forall fallback inputs w, locktime_p fallback inputs <> Panic w).
Check (C10_total_finalize : forall b s, finalize_p b <> Taproot.Panic s).
Check (C10_total_minimum_value : forall v opret prf x, (forall p, prf = Some p -> rangeproof_ok p = true) -> minimum_value_p v opret prf <> Panic x).
Check (C10_seq_from_seconds_ceil : forall s v, seq_from_seconds_ceil s = Val v <-> s <= 65535 * 512 /\ v = N.lor ((s + 511) / 512) C10_SEQ_LOCK_TYPE_MASK).
Check (C10_total_from_commitment : forall pt_ok sl w, from_commitment_p pt_ok sl <> Panic w).
Print Assumptions C10_alloc_bound_tx.
Print Assumptions C10_alloc_bound_block.
Print Assumptions C10_total_segwit_new.
Print Assumptions C10_segwit_new_is_model.
Print Assumptions C10_control_block_is_model.
Print Assumptions C10_total_segwit_new_bech32.
Print Assumptions C10_total_control_block.
Print Assumptions C10_total_merge_xpub.
Print Assumptions C10_total_blind_select.
Print Assumptions C10_builder_inv.
Print Assumptions C10_total_finalize.
Print Assumptions C10_total_pset_values.
Print Assumptions C10_total_templates.
Print Assumptions C10_seq_from_seconds_ceil.
Print Assumptions C10_from_script_no_panic_from_source.

(* C14 — merging PSETs never loses information, never panics, is order-insensitive.
   Only statements; proofs live in Proofs/PsetMerge.v and Proofs/PsetFamily.v.  The per-field merge policy tables (Gen.Tables.pset_*_merge), the field lists
   (pset_*_fields) and the shape of the xpub reconciliation (xpub_take_arm_guarded) are re-read from the Rust source on every run;
   `cur_tables` packs them.  Theorems are stated for every table where possible and instantiated with the current one. *)
From Coq Require Import List NArith Bool Permutation.
From Coq.Strings Require Import Byte.
From EV Require Import Base.Bytes Gen.Tables Model.PsetMap Model.PsetTx Model.PsetMerge Proofs.PsetMap Proofs.PsetMerge Proofs.PsetTx Proofs.PsetFamily.
Import ListNotations.

(* PSETs with different unique ids are refused (for every id type, id function and id comparison) *)
Theorem C14_gate : forall (id : Type) (id_eqb : id -> id -> bool) (uid : pset -> outcome id) a b,
  (forall x y, uid a = Val x -> uid b = Val y -> id_eqb x y = false -> merge id_eqb uid a b = Fail E_UniqueIdMismatch) /\
  (uid_res_eqb id_eqb (uid a) (uid b) = false -> forall c, merge id_eqb uid a b <> Val c).
Proof. intros. split; [intros x y A B E; now apply (gate_refuses id_eqb uid cur_tables a b x y)|apply gate_closed]. Qed.

(* for every field that the regenerated table merges with a keeping statement and that no statement clears: whatever is present in
   either operand (an optional value, or a key of a key-value field) is present in the result — in the global map and at every
   input and output position *)
Theorem C14_keeps_all : forall (id : Type) (id_eqb : id -> id -> bool) (uid : pset -> outcome id) a b c,
  merge id_eqb uid a b = Val c ->
    kept pset_global_merge (pglobal a) (pglobal b) (pglobal c) /\
    (forall i x y, nth_error (pinputs a) i = Some x -> nth_error (pinputs b) i = Some y ->
        exists z, nth_error (pinputs c) i = Some z /\ kept pset_input_merge x y z) /\
    (forall i x y, nth_error (poutputs a) i = Some x -> nth_error (poutputs b) i = Some y ->
        exists z, nth_error (poutputs c) i = Some z /\ kept pset_output_merge x y z).
Proof. intros id id_eqb uid a b c. apply (merge_keeps_all id_eqb uid cur_tables a b c cur_tables_ok). Qed.

(* the fields `kept` speaks about, and the ones it does not (computed from the regenerated tables).
   These three Examples pin the complement; they change when a `merge!` line is added or removed.  After the F3 repair (merge! for
   sighash_type, sequence, amount, asset) and the fallback repair (first-wins statement for tx_data.fallback_locktime) what is left is:
   nothing in Global; non_witness_utxo (cleared by an arriving witness_utxo: F3-witness-utxo-clears-non-witness-utxo, a recorded finding) and the two
   output commitments, which are part of the transaction and therefore equal in operands that pass the gate (C14_commitments_fixed_by_uid). *)
Example C14_known_lost_global : lost_optional pset_global_fields pset_global_merge = [].
Proof. vm_compute. reflexivity. Qed.
Example C14_known_lost_input : lost_optional pset_input_fields pset_input_merge = [fld "non_witness_utxo"].
Proof. vm_compute. reflexivity. Qed.
Example C14_known_lost_output : lost_optional pset_output_fields pset_output_merge = [fld "amount_comm"; fld "asset_comm"].
Proof. vm_compute. reflexivity. Qed.
(* mandatory fields that are not merged: always present, so nothing can be lost *)
Example C14_unmerged_mandatory :
  (unmerged_mandatory pset_global_fields pset_global_merge, unmerged_mandatory pset_input_fields pset_input_merge, unmerged_mandatory pset_output_fields pset_output_merge)
  = ([fld "tx_data.version"; fld "tx_data.input_count"; fld "tx_data.output_count"], [fld "previous_txid"; fld "previous_output_index"], [fld "script_pubkey"]).
Proof. vm_compute. reflexivity. Qed.
(* non-vacuity: 8 + 45 + 17 fields are covered by C14_keeps_all *)
Example C14_kept_counts : (length (kept_fields pset_global_fields pset_global_merge), length (kept_fields pset_input_fields pset_input_merge),
                           length (kept_fields pset_output_fields pset_output_merge)) = (8, 45, 17)%nat.
Proof. vm_compute. reflexivity. Qed.

(* the two output commitments have no statement, but they are part of the id pre-image: operands whose unique-id pre-images are equal
   (which is what passing the gate means, up to a hash collision) carry the same commitments at every output position *)
Theorem C14_commitments_fixed_by_uid : forall p q t, uid_preimage p = Val t -> uid_preimage q = Val t ->
  forall i x y, nth_error (poutputs p) i = Some x -> nth_error (poutputs q) i = Some y ->
    unk x (fld "amount_comm") = unk y (fld "amount_comm") /\ unk x (fld "asset_comm") = unk y (fld "asset_comm").
Proof. intros p q t. apply commitments_fixed_by_uid. Qed.

(* F3-witness-utxo-clears-non-witness-utxo: a witness_utxo arriving from `other` deletes self's non_witness_utxo *)
Theorem C14_utxo_clearing_refuted :
  exists a b c, merge_map_with xpub_take_arm_guarded pset_input_merge a b = Val c /\ unk a (fld "non_witness_utxo") <> None /\ unk c (fld "non_witness_utxo") = None.
Proof.
  destruct (clears_witness _ _ _ _ utxo_clears) as (c & _ & R & _ & N & _).
  exists (only (fld "non_witness_utxo") [x01]), (only (fld "witness_utxo") [x02]), c. split; [exact R|]. split; [discriminate|exact N].
Qed.

(* Operands in the property's domain: descendants of a common ancestor by disjoint-or-identical additions are `compat`
   (C14_descendants_compat).  `pset_pair_ok` asks, for the global maps and position-wise for inputs and outputs: key-sorted maps,
   compat, and the negations of the two Known classes —
     agree_unmerged : the operands do not differ in a field the table does not merge           (class F3-*-dropped)
     quiet          : no clearing statement fires (witness_utxo arriving next to none)         (class F3-witness-utxo-clears-non-witness-utxo)
   Then both merge orders succeed and give the same PSET (field-wise equal values and equal key-value lists). *)
Theorem C14_commutes : forall (id : Type) (id_eqb : id -> id -> bool) (uid : pset -> outcome id) a b x y,
  uid a = Val x -> uid b = Val y -> id_eqb x y = true -> id_eqb y x = true -> pset_pair_ok cur_tables a b ->
  exists c c', merge id_eqb uid a b = Val c /\ merge id_eqb uid b a = Val c' /\ pset_equiv c c'.
Proof. intros id id_eqb uid a b x y. apply merge_commutes; [exact cur_tables_ok|exact cur_tables_canonical]. Qed.
Theorem C14_descendants_compat : forall o a b, extends o a -> extends o b -> additions_agree o a b -> compat a b.
Proof. exact descendants_compat. Qed.
(* without the `quiet` restriction the statement is false: one descendant added a non_witness_utxo, the other a witness_utxo (disjoint
   additions); merging the second into the first deletes the non_witness_utxo, merging the first into the second keeps both *)
Theorem C14_commutes_refuted : exists a b c c',
  wf_map a /\ wf_map b /\ compat a b /\ agree_unmerged pset_input_merge a b /\
  merge_map_with xpub_take_arm_guarded pset_input_merge a b = Val c /\ merge_map_with xpub_take_arm_guarded pset_input_merge b a = Val c' /\
  unk c (fld "non_witness_utxo") <> unk c' (fld "non_witness_utxo").
Proof.
  destruct (clears_witness _ _ _ _ utxo_clears) as (c & c' & R & R' & N & S).
  destruct (only_pair pset_input_merge (fld "witness_utxo") (fld "non_witness_utxo") [x01] [x02]) as (Wa & Wb & C & A); try reflexivity.
  { now apply bytes_eqb_neq. }
  exists (only (fld "non_witness_utxo") [x01]), (only (fld "witness_utxo") [x02]), c, c'. rewrite N. repeat (split; [assumption|]). congruence.
Qed.
(* non-vacuity: two different descendants satisfying every hypothesis of C14_commutes at an input position *)
Example C14_pair_ok_nonvacuous :
  pair_ok pset_input_merge (set_unk empty_map (fld "redeem_script") (Some [x51])) (set_kyd empty_map (fld "partial_sigs") [([x02], [x30])]).
Proof.
  apply pair_ok_unk_kyd; [apply (tables_ok_parts _ cur_tables_ok)|reflexivity|reflexivity|reflexivity|intros cl; vm_compute; discriminate].
Qed.

(* A family (`pfam`): k >= 1 PSETs of the same shape such that every two members (and every member with itself) satisfy the hypotheses of
   C14_commutes (`pset_pair_ok`: key-sorted, disjoint-or-identical contents as for descendants of a common ancestor — C14_descendants_compat —,
   no difference in an unmerged field [today only mandatory fields and the two output commitments are unmerged], no clearing statement firing [class
   F3-witness-utxo-clears-non-witness-utxo]) and agree on the transaction-identifying fields (`pset_agree`: in particular nobody changed a required
   lock time [class C14-locktime-max-changes-unique-id]), all with unique id x.
   Then EVERY binary merge tree over EVERY permutation of the family succeeds, and any two of them give the same PSET.
   Proof (Proofs/PsetFamily.v): the result of a tree is characterised as the join of its leaves; merging joins gives the join of the
   concatenation; the join of a permuted leaf list is the same map; the join agrees with the leaves on the id fields, so every
   intermediate result passes the gate. *)
Theorem C14_family : forall (id : Type) (id_eqb : id -> id -> bool) (H : tx -> id) (t t' : mtree) (ni no : nat) (x : id),
  Permutation (leaves t) (leaves t') ->
  pfam cur_tables uid_cleared_txin_fields (leaves t) ni no ->
  (forall p, In p (leaves t) -> unique_id H p = Val x) -> id_eqb x x = true ->
  exists c c', eval_tree id_eqb (unique_id H) t = Val c /\ eval_tree id_eqb (unique_id H) t' = Val c' /\ pset_equiv c c'.
Proof.
  intros id id_eqb H t t' ni no x P PF UX XX.
  assert (forall p q, pset_agree uid_cleared_txin_fields p q -> unique_id H p = unique_id H q) as HU.
  { intros p q A. unfold unique_id, uid_preimage. now rewrite (uid_preimage_depends _ _ _ p q A). }
  exact (family_merge id_eqb (unique_id H) cur_tables uid_cleared_txin_fields (leaves t) ni no x cur_tables_ok cur_tables_canonical cur_tables_no_or HU PF UX XX t t' (incl_refl _) P).
Qed.

(* what `pset_agree` (the family hypothesis) constrains at an input: the outpoint, the required lock times and the issuance — NOT the sequence, the final
   script sig / witness, signatures, scripts, derivations or proofs, so descendants that independently added any of those are members of a family.
   (If unique_id() stops resetting the sequence or the script_sig, this list grows and the Example fails.) *)
Example C14_family_id_fields : uid_input_fields uid_cleared_txin_fields =
  [F_prev_txid; F_prev_index; F_req_time; F_req_height; F_iss_nonce; F_iss_entropy; F_iss_amount; F_iss_comm; F_iss_keys; F_iss_keys_comm].
Proof. vm_compute. reflexivity. Qed.
(* non-vacuity: three descendants of one ancestor (Proofs/PsetFamily.v: ex_a added a partial signature, ex_b another one, ex_c a key
   derivation; `ex_pfam` shows they form a family) *)
(* (a.b).c, a.(b.c) and (c.a).b all succeed and give the same PSET, for every hash and every reflexive id comparison *)
Example C14_family_three : forall (id : Type) (id_eqb : id -> id -> bool) (H : tx -> id), (forall x, id_eqb x x = true) ->
  exists r1 r2 r3,
    eval_tree id_eqb (unique_id H) (MNode (MNode (MLeaf ex_a) (MLeaf ex_b)) (MLeaf ex_c)) = Val r1 /\
    eval_tree id_eqb (unique_id H) (MNode (MLeaf ex_a) (MNode (MLeaf ex_b) (MLeaf ex_c))) = Val r2 /\
    eval_tree id_eqb (unique_id H) (MNode (MNode (MLeaf ex_c) (MLeaf ex_a)) (MLeaf ex_b)) = Val r3 /\
    pset_equiv r1 r2 /\ pset_equiv r1 r3.
Proof.
  intros id id_eqb H R.
  assert (exists t0, forall p, In p [ex_a; ex_b; ex_c] -> uid_preimage p = Val t0) as [t0 U].
  { eexists. intros p [<-|[<-|[<-|[]]]]; vm_compute; reflexivity. }
  assert (forall p, In p [ex_a; ex_b; ex_c] -> unique_id H p = Val (H t0)) as UX by (intros p Ip; unfold unique_id; now rewrite (U p Ip)).
  destruct (C14_family id id_eqb H (MNode (MNode (MLeaf ex_a) (MLeaf ex_b)) (MLeaf ex_c)) (MNode (MLeaf ex_a) (MNode (MLeaf ex_b) (MLeaf ex_c))) 1 1 (H t0))
    as [r1 [r2 [E1 [E2 Q12]]]]; [apply Permutation_refl|exact ex_pfam|exact UX|apply R|].
  destruct (C14_family id id_eqb H (MNode (MNode (MLeaf ex_a) (MLeaf ex_b)) (MLeaf ex_c)) (MNode (MNode (MLeaf ex_c) (MLeaf ex_a)) (MLeaf ex_b)) 1 1 (H t0))
    as [r1' [r3 [E1' [E3 Q13]]]]; [cbn [leaves app]; apply Permutation_sym, (Permutation_cons_append [ex_a; ex_b] ex_c) |exact ex_pfam|exact UX|apply R|].
  rewrite E1 in E1'. injection E1' as <-. exists r1, r2, r3. auto.
Qed.

(* Global::scalars is a Vec<Tweak>; its statements (extend / sort / dedup) are read from the source IN ORDER and executed exactly
   (Model.PsetMerge.vec_merge).  For ANY two scalar lists — unsorted, with repeats, sharing scalars in any positions — the merged list is
   strictly increasing (so no scalar occurs twice and the PSET serialises without a duplicate key), contains exactly the scalars of both,
   and is the same whichever operand is merged into which. *)
Definition scalar_ops : list vec_op := match policy_of pset_global_merge (fld "scalars") with MP_VecOps ops => ops | _ => [] end.
Theorem C14_scalars : forall a b, vals_nil a -> vals_nil b ->
  let r := vec_merge scalar_ops a b in
  al_sorted r = true /\ (forall k, al_mem k r = al_mem k a || al_mem k b) /\ r = vec_merge scalar_ops b a.
Proof. intros a b. apply scalars_merge. vm_compute. reflexivity. Qed.
Example C14_scalars_shared :     (* a = [s1; s2], b = [s2]: the shared scalar ends up non-adjacent when a is merged into b *)
  let s1 := [x01] in let s2 := [x02] in
  vec_merge scalar_ops [(s2, [])] [(s1, []); (s2, [])] = [(s1, []); (s2, [])] /\ vec_merge scalar_ops [(s1, []); (s2, [])] [(s2, [])] = [(s1, []); (s2, [])].
Proof. vm_compute. auto. Qed.

(* for every pair of key sources the code does what its comment documents (keep / take the longer / MergeConflict) and never panics;
   v1 is the source arriving from `other`, v2 the one in `self`.  (Before the F2+F4 repair this needed the exclusion of two classes; the
   third test now checks the length before slicing: Gen.Tables.xpub_take_arm_guarded = true.) *)
Theorem C14_xpub : forall v1 v2, reconcile v1 v2 = reconcile_doc v1 v2 /\ reconcile v1 v2 <> XPanic.
Proof.
  intros v1 v2. assert (reconcile v1 v2 = reconcile_doc v1 v2) as E by (apply reconcile_as_documented; reflexivity).
  rewrite E. split; [reflexivity|apply reconcile_doc_no_panic].
Qed.
(* hence merging the xpub maps can only fail with MergeConflict, never panic *)
Example C14_xpub_examples :
  reconcile (repeat x00 8) (repeat x00 12) = XKeep /\ reconcile (repeat x00 12) (repeat x00 8) = XTake
  /\ (* former F2 witness: self [1,2,3], other [9] *)
     reconcile (repeat x00 4 ++ [x09; x00; x00; x00]) (repeat x00 4 ++ [x01; x00; x00; x00; x02; x00; x00; x00; x03; x00; x00; x00]) = XConflict
  /\ (* former F4 witness: equal path, different fingerprint *)
     reconcile ([x01; x01; x01; x01] ++ [x01; x00; x00; x00]) ([x00; x00; x00; x00] ++ [x01; x00; x00; x00]) = XConflict.
Proof. vm_compute. auto. Qed.

Check (C14_gate : forall (id : Type) (id_eqb : id -> id -> bool) (uid : pset -> outcome id) a b,
  (forall x y, uid a = Val x -> uid b = Val y -> id_eqb x y = false -> merge id_eqb uid a b = Fail E_UniqueIdMismatch) /\
  (uid_res_eqb id_eqb (uid a) (uid b) = false -> forall c, merge id_eqb uid a b <> Val c)).
Check (C14_keeps_all : forall (id : Type) (id_eqb : id -> id -> bool) (uid : pset -> outcome id) a b c,
  merge id_eqb uid a b = Val c ->
    kept pset_global_merge (pglobal a) (pglobal b) (pglobal c) /\
    (forall i x y, nth_error (pinputs a) i = Some x -> nth_error (pinputs b) i = Some y ->
        exists z, nth_error (pinputs c) i = Some z /\ kept pset_input_merge x y z) /\
    (forall i x y, nth_error (poutputs a) i = Some x -> nth_error (poutputs b) i = Some y ->
        exists z, nth_error (poutputs c) i = Some z /\ kept pset_output_merge x y z)).
Check (C14_xpub : forall v1 v2, reconcile v1 v2 = reconcile_doc v1 v2 /\ reconcile v1 v2 <> XPanic).
Check (C14_commutes : forall (id : Type) (id_eqb : id -> id -> bool) (uid : pset -> outcome id) a b x y,
  uid a = Val x -> uid b = Val y -> id_eqb x y = true -> id_eqb y x = true -> pset_pair_ok cur_tables a b ->
  exists c c', merge id_eqb uid a b = Val c /\ merge id_eqb uid b a = Val c' /\ pset_equiv c c').
Check (C14_scalars : forall a b, vals_nil a -> vals_nil b ->
  let r := vec_merge scalar_ops a b in
  al_sorted r = true /\ (forall k, al_mem k r = al_mem k a || al_mem k b) /\ r = vec_merge scalar_ops b a).
Check (C14_family : forall (id : Type) (id_eqb : id -> id -> bool) (H : tx -> id) (t t' : mtree) (ni no : nat) (x : id),
  Permutation (leaves t) (leaves t') ->
  pfam cur_tables uid_cleared_txin_fields (leaves t) ni no ->
  (forall p, In p (leaves t) -> unique_id H p = Val x) -> id_eqb x x = true ->
  exists c c', eval_tree id_eqb (unique_id H) t = Val c /\ eval_tree id_eqb (unique_id H) t' = Val c' /\ pset_equiv c c').
Print Assumptions C14_gate.
Print Assumptions C14_family.
Print Assumptions C14_scalars.
Print Assumptions C14_commutes.
Print Assumptions C14_keeps_all.
Print Assumptions C14_xpub.

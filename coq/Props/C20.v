(* C20 — serde and textual forms round-trip.  Statements only; proofs in Proofs/Text.v (text forms) and Proofs/Serde.v, SerdeBridge.v, SerdePset.v (serde).

   Part A (text): for every type with both Display and FromStr, parsing the printed form returns the value:
     parse_T (print_T x) = Ok x     for every value x of the type (the hypotheses are exactly the type's invariants:
                                    array length, u32 range, Tweak below the group order, enum membership).
   The reversal flags, prefix / separator strings, lock-time threshold and every sighash string are the definitions that
   translator/tables_C20.py regenerates from the Rust source into Gen/Tables.v, so a changed string changes these theorems.
   The PSET base64 text form belongs to C07 and is not stated here.

   Part B (serde): for every hand-written Serialize / Deserialize pair (and the dependency / derived impls they bottom out in),
     swf x -> de_T true (json_view (ser_T true x)) = Ok x  /\  de_T false (cbor_view (ser_T false x)) = Ok x
   where `swf` is exactly the invariant of the Rust type (u32 / u64 ranges, array lengths, curve points and proofs the library
   accepts, Tweak range) — weaker than the consensus codec's canonicity `wf`, so these theorems also cover values that are not
   consensus-canonical (e.g. an input whose index carries flag bits).  `C20_serde_canonical_*` restate them under the codecs' `wf`.
   They hold for every curve-point oracle `pt_ok`.
   The serde_derive-generated impls of the PSET types (PartiallySignedTransaction, pset::Global, TxData, Input, Output, raw::Key, ProprietaryKey,
   SchnorrSig, ControlBlock) and the serde_utils helpers are codecs assembled from combinators over the field tables regenerated from the source
   (Model/SerdePset.v); `SLawful c` is: for both views, every well-formed value deserializes back from its own serialization.  Dependency leaves
   (bitcoin::PublicKey, XOnlyPublicKey, schnorr::Signature, KeySource, Xpub, bitcoin::Transaction) and pset::TapTree enter through a round-trip premise. *)
From Coq Require Import List NArith Bool.
From Coq.Strings Require Import Byte.
From EV Require Import Base.Bytes Base.Codec Gen.Tables Model.Tx Model.Block Model.Text Model.Serde Model.SerdePset Proofs.Text Proofs.Serde Proofs.SerdeBridge Proofs.SerdePset.
Import ListNotations.
Open Scope N_scope.

(* ---- hash newtypes: one theorem over the regenerated table (name, length, Display direction, FromStr direction) ... *)
Theorem C20_text_hash_newtypes : forall name len db pb b,
  In (name, (len, (db, pb))) hash_text_table -> N.of_nat (length b) = len -> parse_hash len pb (print_hash db b) = Ok b.
Proof. intros name len db pb b HIn L. rewrite <- (hash_table_dirs hash_text_table name len db pb eq_refl HIn). now apply parse_print_hash. Qed.
(* ... and spelled out for the types the property names *)
Theorem C20_text_Txid : forall b, length b = 32%nat -> parse_hash hashlen_Txid hash_parse_backward_Txid (print_hash hash_display_backward_Txid b) = Ok b.
Proof. intros b L. apply parse_print_hash. now rewrite L. Qed.
Theorem C20_text_BlockHash : forall b, length b = 32%nat -> parse_hash hashlen_BlockHash hash_parse_backward_BlockHash (print_hash hash_display_backward_BlockHash b) = Ok b.
Proof. intros b L. apply parse_print_hash. now rewrite L. Qed.
Theorem C20_text_AssetId : forall b, length b = 32%nat -> parse_hash hashlen_AssetId hash_parse_backward_AssetId (print_hash hash_display_backward_AssetId b) = Ok b.
Proof. intros b L. apply parse_print_hash. now rewrite L. Qed.
Theorem C20_text_ContractHash : forall b, length b = 32%nat -> parse_hash hashlen_ContractHash hash_parse_backward_ContractHash (print_hash hash_display_backward_ContractHash b) = Ok b.
Proof. intros b L. apply parse_print_hash. now rewrite L. Qed.
Theorem C20_text_AssetEntropy : forall b, length b = 32%nat -> parse_hash hashlen_AssetEntropy hash_parse_backward_AssetEntropy (print_hash hash_display_backward_AssetEntropy b) = Ok b.
Proof. intros b L. apply parse_print_hash. now rewrite L. Qed.
Theorem C20_text_ScriptHash : forall b, length b = 20%nat -> parse_hash hashlen_ScriptHash hash_parse_backward_ScriptHash (print_hash hash_display_backward_ScriptHash b) = Ok b.
Proof. intros b L. apply parse_print_hash. now rewrite L. Qed.

(* ---- blinding factors: 32 bytes that Tweak::from_inner accepts *)
Theorem C20_text_AssetBlindingFactor : forall b, length b = 32%nat -> tweak_ok b = true ->
  parse_bf hashlen_AssetBlindingFactor hash_parse_backward_AssetBlindingFactor (print_bf hash_display_backward_AssetBlindingFactor b) = Ok b.
Proof. intros b L T. apply parse_print_bf; [now rewrite L|exact T]. Qed.
Theorem C20_text_ValueBlindingFactor : forall b, length b = 32%nat -> tweak_ok b = true ->
  parse_bf hashlen_ValueBlindingFactor hash_parse_backward_ValueBlindingFactor (print_bf hash_display_backward_ValueBlindingFactor b) = Ok b.
Proof. intros b L T. apply parse_print_bf; [now rewrite L|exact T]. Qed.

Theorem C20_text_Sequence : forall n, n < 4294967296 -> parse_sequence (print_sequence n) = Ok n.
Proof. exact parse_print_u32. Qed.
Theorem C20_text_LockTime : forall l, locktime_wf l = true -> parse_locktime (print_locktime l) = Ok l.
Proof. exact parse_print_locktime. Qed.
(* F17 (repaired): Height / Time used to derive Deserialize, so serde handed out `Blocks(Height(500000000))`, whose printed form parses to the other
   variant.  Their Deserialize now ends in from_consensus; the model's de_locktime follows.  Every LockTime that Deserialize returns satisfies the
   type's invariant, hence survives Display -> FromStr; and that invariant is exactly the class on which the text round trip holds. *)
Theorem C20_serde_LockTime_validates : forall v l, de_locktime v = Ok l -> locktime_wf l = true.
Proof. exact de_locktime_wf. Qed.
Theorem C20_text_LockTime_deserialized : forall v l, de_locktime v = Ok l -> parse_locktime (print_locktime l) = Ok l.
Proof. intros v l H. apply parse_print_locktime. exact (de_locktime_wf v l H). Qed.
Theorem C20_text_LockTime_exact : forall l, locktime_to_consensus l < 4294967296 -> (parse_locktime (print_locktime l) = Ok l <-> locktime_wf l = true).
Proof. exact parse_print_locktime_iff. Qed.
Theorem C20_text_Height : forall h, h < C20_LOCK_TIME_THRESHOLD -> parse_height (print_height h) = Ok h.
Proof. exact parse_print_height. Qed.
Theorem C20_text_Time : forall t, C20_LOCK_TIME_THRESHOLD <= t -> t < 4294967296 -> parse_time (print_time t) = Ok t.
Proof. exact parse_print_time. Qed.
(* the integer printer / parser pair itself, for every radix the code uses and every unsigned width *)
Theorem C20_text_uint : forall radix bound n, 2 <= radix -> radix <= 16 -> n < bound -> parse_uint radix bound (print_radix radix n) = Ok n.
Proof. intros. now apply parse_print_radix. Qed.

Theorem C20_text_OutPoint : forall o, length (o_txid o) = 32%nat -> o_vout o < 4294967296 -> parse_outpoint (print_outpoint o) = Ok o.
Proof. exact parse_print_outpoint. Qed.

(* ---- sighash types: every variant of the enum declarations; every u32 for PsbtSighashType *)
Theorem C20_text_EcdsaSighashType : forall v, is_variant ecdsa_sighash_variants v = true -> parse_ecdsa_sighash (print_ecdsa_sighash v) = Ok v.
Proof. exact parse_print_ecdsa. Qed.
Theorem C20_text_SchnorrSighashType : forall v, is_variant schnorr_sighash_variants v = true -> parse_schnorr_sighash (print_schnorr_sighash v) = Ok v.
Proof. exact parse_print_schnorr. Qed.
Theorem C20_text_PsbtSighashType : forall v, v < 4294967296 -> parse_psbt_sighash (print_psbt_sighash v) = Ok v.
Proof. exact parse_print_psbt. Qed.
Theorem C20_text_reserved_sighash :
  print_psbt_sighash 255 = "0xff"%lb /\ parse_psbt_sighash "0xff"%lb = Ok 255 /\
  print_schnorr_sighash 255 = "SIGHASH_RESERVED"%lb /\ parse_schnorr_sighash "SIGHASH_RESERVED"%lb = Ok 255 /\
  parse_psbt_sighash "SIGHASH_RESERVED"%lb = Err "unrecognized"%lb.
Proof. vm_compute. repeat split; reflexivity. Qed.

Section C20_SERDE.
Variable pt_ok : bytes -> bool.
Local Notation RT ser de x := (de true (json_view (ser true x)) = Ok x /\ de false (cbor_view (ser false x)) = Ok x).

Theorem C20_serde_Value : forall v, swf_value pt_ok v = true -> RT ser_value (de_value pt_ok) v.
Proof. intros v W. exact (both_views _ _ v (fun hr => rt_value pt_ok hr v W)). Qed.
Theorem C20_serde_Asset : forall v, swf_asset pt_ok v = true -> RT ser_asset (de_asset pt_ok) v.
Proof. intros v W. exact (both_views _ _ v (fun hr => rt_asset pt_ok hr v W)). Qed.
Theorem C20_serde_Nonce : forall v, swf_nonce pt_ok v = true -> RT ser_nonce (de_nonce pt_ok) v.
Proof. intros v W. exact (both_views _ _ v (fun hr => rt_nonce pt_ok hr v W)). Qed.
Theorem C20_serde_OutPoint : forall o, swf_outpoint o = true -> RT ser_outpoint de_outpoint o.
Proof. intros o W. exact (both_views _ _ o (fun hr => rt_outpoint hr o W)). Qed.
Theorem C20_serde_AssetIssuance : forall i, swf_issuance pt_ok i = true -> RT ser_issuance (de_issuance pt_ok) i.
Proof. intros i W. exact (both_views _ _ i (fun hr => rt_issuance pt_ok hr i W)). Qed.
Theorem C20_serde_TxInWitness : forall w, swf_inwit w = true -> RT ser_inwit de_inwit w.
Proof. intros w W. exact (both_views _ _ w (fun hr => rt_inwit hr w W)). Qed.
Theorem C20_serde_TxOutWitness : forall w, swf_outwit w = true -> RT ser_outwit de_outwit w.
Proof. intros w W. exact (both_views _ _ w (fun hr => rt_outwit hr w W)). Qed.
Theorem C20_serde_TxIn : forall i, swf_txin pt_ok i = true -> RT ser_txin (de_txin pt_ok) i.
Proof. intros i W. exact (both_views _ _ i (fun hr => rt_txin pt_ok hr i W)). Qed.
Theorem C20_serde_TxOut : forall o, swf_txout pt_ok o = true -> RT ser_txout (de_txout pt_ok) o.
Proof. intros o W. exact (both_views _ _ o (fun hr => rt_txout pt_ok hr o W)). Qed.
Theorem C20_serde_Transaction : forall t, swf_tx pt_ok t = true -> RT ser_tx (de_tx pt_ok) t.
Proof. intros t W. exact (both_views _ _ t (fun hr => rt_tx pt_ok hr t W)). Qed.
Theorem C20_serde_Params : forall p, swf_params p = true -> RT ser_params de_params p.
Proof. intros p W. exact (both_views _ _ p (fun hr => rt_params hr p W)). Qed.
Theorem C20_serde_ExtData : forall e, swf_extdata e = true -> RT ser_extdata de_extdata e.
Proof. intros e W. exact (both_views _ _ e (fun hr => rt_extdata hr e W)). Qed.
Theorem C20_serde_BlockHeader : forall h, swf_header h = true -> RT ser_header de_header h.
Proof. intros h W. exact (both_views _ _ h (fun hr => rt_header hr h W)). Qed.
Theorem C20_serde_Block : forall b, swf_block pt_ok b = true -> RT ser_block (de_block pt_ok) b.
Proof. intros b W. exact (both_views _ _ b (fun hr => rt_block pt_ok hr b W)). Qed.
Theorem C20_serde_TxOutSecrets : forall s, swf_secrets s = true -> RT ser_secrets de_secrets s.
Proof. intros s W. exact (both_views _ _ s (fun hr => rt_secrets hr s W)). Qed.
(* LockTime: every value of the type (heights below, times at or above the threshold) *)
Theorem C20_serde_LockTime : forall l, locktime_wf l = true -> RT (fun _ : bool => ser_locktime) (fun _ : bool => de_locktime) l.
Proof. intros l W. exact (both_views _ _ l (fun hr => rt_locktime hr l W)). Qed.
(* leaves: hash newtypes (every entry of the regenerated table), Script, blinding factors *)
Theorem C20_serde_hash_newtypes : forall name len db pb b, In (name, (len, (db, pb))) hash_serde_table -> N.of_nat (length b) = len ->
  RT (fun hr => ser_hash hr db) (fun hr => de_hash hr len pb) b.
Proof. intros name len db pb b HIn L. rewrite <- (hash_table_dirs hash_serde_table name len db pb eq_refl HIn).
  exact (both_views (fun hr => ser_hash hr db) (fun hr => de_hash hr len db) b (fun hr => rt_hash hr len db b L)). Qed.
Theorem C20_serde_midstate_wrappers : forall b, length b = 32%nat -> RT ser_midstate de_midstate b.       (* AssetId, AssetEntropy, ParamsRoot, ElidedRoot, DynafedRoot *)
Proof. intros b L. exact (both_views _ _ b (fun hr => rt_midstate hr b L)). Qed.
Theorem C20_serde_Script : forall b, RT (fun _ : bool => ser_script) (fun _ : bool => de_script) b.
Proof. intros b. exact (both_views _ _ b (fun hr => rt_script hr b)). Qed.
Theorem C20_serde_AssetBlindingFactor : forall b, swf_bf b = true ->
  RT (fun hr => ser_bf hr hash_display_backward_AssetBlindingFactor) (fun hr => de_bf hr hash_parse_backward_AssetBlindingFactor) b.
Proof. intros b W. exact (both_views (fun hr => ser_bf hr _) (fun hr => de_bf hr _) b (fun hr => rt_bf hr _ b W)). Qed.
Theorem C20_serde_ValueBlindingFactor : forall b, swf_bf b = true ->
  RT (fun hr => ser_bf hr hash_display_backward_ValueBlindingFactor) (fun hr => de_bf hr hash_parse_backward_ValueBlindingFactor) b.
Proof. intros b W. exact (both_views (fun hr => ser_bf hr _) (fun hr => de_bf hr _) b (fun hr => rt_bf hr _ b W)). Qed.
(* types serialized as their Display string (Address, EcdsaSighashType, SchnorrSighashType, PsbtSighashType): the serde round trip is the
   text round trip; for Address that is property C06 (premise), for the sighash types it is Part A above *)
Theorem C20_serde_string_forms : forall (A : Type) (print : A -> bytes) (parse : bytes -> res A) a, parse (print a) = Ok a ->
  RT (fun _ : bool => ser_string print) (fun _ : bool => de_string parse) a.
Proof. intros A print parse a H. exact (both_views _ _ a (fun hr => rt_string hr print parse a H)). Qed.
Theorem C20_serde_PsbtSighashType : forall v, v < 4294967296 ->
  RT (fun _ : bool => ser_string print_psbt_sighash) (fun _ : bool => de_string parse_psbt_sighash) v.
Proof. intros v H. apply C20_serde_string_forms. now apply parse_print_psbt. Qed.
(* the same under the consensus codecs' canonicity predicate `wf` (the hypothesis of C01): wf implies swf (Proofs/SerdeBridge.v) *)
Variables maxvec cap_txin cap_txout cap_vecu8 cap_tx : N.
Theorem C20_wf_implies_swf :
  (forall t, wf (c_tx pt_ok maxvec cap_txin cap_txout cap_vecu8) t = true -> swf_tx pt_ok t = true) /\
  (forall i, wf (c_txin pt_ok maxvec) i = true -> swf_txin pt_ok i = true) /\ (forall o, wf (c_txout pt_ok maxvec) o = true -> swf_txout pt_ok o = true) /\
  (forall h, wf (c_header maxvec cap_vecu8) h = true -> swf_header h = true) /\
  (forall b, wf (c_block pt_ok maxvec cap_txin cap_txout cap_vecu8 cap_tx) b = true -> swf_block pt_ok b = true) /\
  (forall p, wf (c_params maxvec cap_vecu8) p = true -> swf_params p = true) /\
  (forall v, wf (c_value pt_ok) v = true -> swf_value pt_ok v = true) /\ (forall v, wf (c_asset pt_ok) v = true -> swf_asset pt_ok v = true) /\
  (forall v, wf (c_nonce pt_ok) v = true -> swf_nonce pt_ok v = true).
Proof. repeat split; intros x H; [eapply br_tx|eapply br_txin|eapply br_txout|eapply br_header|eapply br_block|eapply br_params|eapply br_value|eapply br_asset|eapply br_nonce]; exact H. Qed.
Theorem C20_serde_canonical_Transaction : forall t, wf (c_tx pt_ok maxvec cap_txin cap_txout cap_vecu8) t = true -> RT ser_tx (de_tx pt_ok) t.
Proof. intros t H. apply C20_serde_Transaction. eapply br_tx; exact H. Qed.
Theorem C20_serde_canonical_BlockHeader : forall h, wf (c_header maxvec cap_vecu8) h = true -> RT ser_header de_header h.
Proof using pt_ok maxvec cap_vecu8. intros h H. apply C20_serde_BlockHeader. eapply br_header; exact H. Qed.
Theorem C20_serde_canonical_Block : forall b, wf (c_block pt_ok maxvec cap_txin cap_txout cap_vecu8 cap_tx) b = true -> RT ser_block (de_block pt_ok) b.
Proof. intros b H. apply C20_serde_Block. eapply br_block; exact H. Qed.
End C20_SERDE.

(* the combinators: Option, Vec, tuples, plain maps, the three serde_utils map encodings, hex_bytes, and a serde_derive struct over ANY field list
   with distinct names whose field codecs are lawful (unknown keys skipped, repeated keys rejected, missing fields rejected unless Option) *)
Theorem C20_serde_derived_struct : forall name F, nodup_names (map fst F) = true -> Forall SLawful (map snd F) -> SLawful (sc_struct name F).
Proof. exact struct_lawful. Qed.
Theorem C20_serde_option : forall c, SLawful c -> SNonNull c -> SLawful (sc_option c).                  Proof. exact option_lawful. Qed.
Theorem C20_serde_vec : forall c, SLawful c -> SLawful (sc_vec c).                                        Proof. exact vec_lawful. Qed.
Theorem C20_serde_tuple : forall cs, Forall SLawful cs -> SLawful (sc_tuple cs).                          Proof. exact tuple_lawful. Qed.
Theorem C20_serde_btreemap : forall kc vc, SLawful kc -> SLawful vc -> SLawful (sc_map kc vc).            Proof. exact map_lawful. Qed.
Theorem C20_serde_btreemap_as_seq : forall kc vc, SLawful kc -> SLawful vc -> SLawful (sc_map_as_seq kc vc).  Proof. exact map_as_seq_lawful. Qed.
Theorem C20_serde_btreemap_byte_values : forall kc, SLawful kc -> SLawful (sc_map_byte_values kc).        Proof. exact map_byte_values_lawful. Qed.
Theorem C20_serde_btreemap_as_seq_byte_values : forall kc, SLawful kc -> SLawful (sc_map_as_seq_byte_values kc).  Proof. exact map_as_seq_byte_values_lawful. Qed.
Theorem C20_serde_hex_bytes : SLawful sc_hexbytes.                                                        Proof. exact hexbytes_lawful. Qed.

Section C20_PSET_SERDE.
Variable pt_ok : bytes -> bool.
Variables maxvec cap_txin cap_txout cap_vecu8 : N.
Variable leaf_ser : bytes -> bool -> bytes -> sval.
Variable leaf_de : bytes -> bool -> sval -> res bytes.
Variable leaf_ok : bytes -> bytes -> bool.
(* premise (trusted, checked on the real crate by every `ps` case): the dependency's own Serialize / Deserialize round-trip, and never write null *)
Hypothesis leaf_roundtrip : forall kind hr b, leaf_ok kind b = true -> leaf_de kind hr (view hr (leaf_ser kind hr b)) = Ok b.
Hypothesis leaf_not_null : forall kind hr b, leaf_ok kind b = true -> view hr (leaf_ser kind hr b) <> VUnit.
Local Notation PSET := (sc_pset pt_ok maxvec cap_txin cap_txout cap_vecu8 leaf_ser leaf_de leaf_ok).

(* every field of every derived struct has a codec (a field added to the Rust struct without a model counterpart makes this false) *)
Theorem C20_pset_fields_known :
  fields_known (table0 leaf_ser leaf_de leaf_ok) pset_serde_TxData = true /\ fields_known (table0 leaf_ser leaf_de leaf_ok) pset_serde_Key = true /\
  fields_known (table0 leaf_ser leaf_de leaf_ok) pset_serde_ProprietaryKey = true /\ fields_known (table0 leaf_ser leaf_de leaf_ok) pset_serde_SchnorrSig = true /\
  fields_known (table0 leaf_ser leaf_de leaf_ok) pset_serde_ControlBlock = true /\
  fields_known (table1 pt_ok maxvec cap_txin cap_txout cap_vecu8 leaf_ser leaf_de leaf_ok) pset_serde_Global = true /\
  fields_known (table1 pt_ok maxvec cap_txin cap_txout cap_vecu8 leaf_ser leaf_de leaf_ok) pset_serde_Input = true /\
  fields_known (table1 pt_ok maxvec cap_txin cap_txout cap_vecu8 leaf_ser leaf_de leaf_ok) pset_serde_Output = true /\
  fields_known (table2 pt_ok maxvec cap_txin cap_txout cap_vecu8 leaf_ser leaf_de leaf_ok) pset_serde_PartiallySignedTransaction = true.
Proof. vm_compute. repeat split; reflexivity. Qed.

Theorem C20_serde_pset_TxData : SLawful (sc_txdata leaf_ser leaf_de leaf_ok).                   Proof. apply txdata_lawful; assumption. Qed.
Theorem C20_serde_pset_raw_Key : SLawful (sc_rawkey leaf_ser leaf_de leaf_ok).                  Proof. apply rawkey_lawful; assumption. Qed.
Theorem C20_serde_pset_ProprietaryKey : SLawful (sc_propkey leaf_ser leaf_de leaf_ok).          Proof. apply propkey_lawful; assumption. Qed.
Theorem C20_serde_SchnorrSig : SLawful (sc_schnorrsig leaf_ser leaf_de leaf_ok).                Proof. apply schnorrsig_lawful; assumption. Qed.
Theorem C20_serde_ControlBlock : SLawful (sc_controlblock leaf_ser leaf_de leaf_ok).            Proof. apply controlblock_lawful; assumption. Qed.
Theorem C20_serde_pset_Global : SLawful (sc_global pt_ok maxvec cap_txin cap_txout cap_vecu8 leaf_ser leaf_de leaf_ok).
Proof. apply global_lawful; assumption. Qed.
Theorem C20_serde_pset_Input : SLawful (sc_input pt_ok maxvec cap_txin cap_txout cap_vecu8 leaf_ser leaf_de leaf_ok).
Proof. apply input_lawful; assumption. Qed.
Theorem C20_serde_pset_Output : SLawful (sc_output pt_ok maxvec cap_txin cap_txout cap_vecu8 leaf_ser leaf_de leaf_ok).
Proof. apply output_lawful; assumption. Qed.
(* the property's sentence for PSETs: any number of inputs and outputs, every subset of the fields, maps of any size *)
Theorem C20_serde_PartiallySignedTransaction : forall x, s_wf PSET x = true ->
  s_de PSET true (json_view (s_ser PSET true x)) = Ok x /\ s_de PSET false (cbor_view (s_ser PSET false x)) = Ok x.
Proof. intros x W. assert (L : SLawful PSET) by (apply pset_lawful; assumption). exact (both_views _ _ x (fun hr => L hr x W)). Qed.
End C20_PSET_SERDE.

(* non-vacuity: a PSET with one input and one output in which every optional field is absent and every map empty is well-formed for the codec,
   and this is its JSON key order (no dependency leaf occurs, so the leaf oracle can be anything) *)
Definition default_of (key : bytes) : fval :=
  if starts_with "Option<"%lb key then FOpt None else if starts_with "BTreeMap<"%lb key then FList [] else if starts_with "Vec<"%lb key then FList []
  else if starts_with "Txid|"%lb key then FB (repeat x00 32) else if starts_with "Script|"%lb key then FB [x51] else FN 2.
Definition default_fields (l : list (bytes * bytes)) : list fval := map (fun nk => default_of (snd nk)) l.
Definition no_leaf_ser (_ : bytes) (_ : bool) (_ : bytes) : sval := VUnit.
Definition no_leaf_de (_ : bytes) (_ : bool) (_ : sval) : res bytes := Err [].
Definition no_leaf_ok (_ _ : bytes) : bool := false.
Definition tiny_pset : fval :=
  FTup [ FTup (FTup (default_fields pset_serde_TxData) :: tl (default_fields pset_serde_Global));
         FList [FTup (default_fields pset_serde_Input)]; FList [FTup (default_fields pset_serde_Output)] ].
Example C20_serde_pset_example :
  let c := sc_pset (fun _ => true) 4000000 1000 1000 1000 no_leaf_ser no_leaf_de no_leaf_ok in
  s_wf c tiny_pset = true /\ s_de c true (json_view (s_ser c true tiny_pset)) = Ok tiny_pset /\
  match json_view (s_ser c true tiny_pset) with
  | VMap [(VStr g, VMap ((VStr td, VMap ((VStr v1, VU64 2) :: _)) :: (VStr v2, VU64 2) :: _)); (VStr i, VSeq [_]); (VStr o, VSeq [_])] =>
      bytes_eqb g "global"%lb && bytes_eqb td "tx_data"%lb && bytes_eqb v1 "version"%lb && bytes_eqb v2 "version"%lb && bytes_eqb i "inputs"%lb && bytes_eqb o "outputs"%lb
  | _ => false end = true.
Proof. vm_compute. repeat split; reflexivity. Qed.

(* what the views are, on a small transaction output; and that the byte swap is really there *)
Example C20_serde_examples :
  json_view (ser_value true (VExplicit 1)) = VSeq [VU64 1; VU64 72057594037927936] /\
  cbor_view (ser_asset false (AExplicit (repeat x07 32))) = VSeq [VU64 1; VBytes (repeat x07 32)] /\
  json_view (ser_asset true (AExplicit (repeat x00 31 ++ [x01]))) = VSeq [VU64 1; VStr "0100000000000000000000000000000000000000000000000000000000000000"%lb] /\
  json_view (ser_locktime (Blocks 5)) = VMap [(VStr "Blocks"%lb, VU64 5)] /\ de_locktime (VMap [(VStr "Blocks"%lb, VU64 500000000)]) = Err "notheight"%lb /\ cbor_view (ser_locktime (Seconds 600000000)) = VSeq [VStr "Seconds"%lb; VU64 600000000] /\
  de_params true (VMap [(VStr "signblockscript"%lb, VStr "51"%lb)]) = Ok PNull /\
  de_extdata true (VMap [(VStr "challenge"%lb, VStr "51"%lb)]) = Err "missing"%lb /\
  de_value (fun _ => true) true (VSeq [VU64 0; VU64 0]) = Err "trailing"%lb /\
  swf_txin (fun _ => true) {| in_prev := {| o_txid := repeat x11 32; o_vout := 3221225473 |}; in_pegin := true; in_script := []; in_seq := 0; in_iss := null_issuance; in_wit := empty_inwit |} = true.
Proof. vm_compute. repeat split; reflexivity. Qed.

(* non-vacuity and the shape of the printed forms *)
Example C20_text_examples :
  print_outpoint {| o_txid := repeat x00 31 ++ [x01]; o_vout := 7 |} = "[elements]0100000000000000000000000000000000000000000000000000000000000000:7"%lb /\
  parse_outpoint "0100000000000000000000000000000000000000000000000000000000000000:7"%lb = Ok {| o_txid := repeat x00 31 ++ [x01]; o_vout := 7 |} /\
  parse_outpoint "0100000000000000000000000000000000000000000000000000000000000000:07"%lb = Err "vout-noncanonical"%lb /\
  parse_sequence "+007"%lb = Ok 7 /\ parse_sequence "4294967296"%lb = Err "overflow"%lb /\ parse_sequence ""%lb = Err "empty"%lb /\
  print_locktime (Seconds 500000000) = "500000000"%lb /\ parse_locktime "499999999"%lb = Ok (Blocks 499999999) /\
  parse_height "500000000"%lb = Err "notheight"%lb /\
  print_psbt_sighash 4 = "0x4"%lb /\ parse_psbt_sighash "0x0x+0Ff"%lb = Ok 255 /\
  is_variant ecdsa_sighash_variants 129 = true /\ print_ecdsa_sighash 129 = "SIGHASH_ALL|SIGHASH_ANYONECANPAY"%lb /\
  locktime_wf (Blocks 5) = true /\ tweak_ok (repeat xff 32) = false /\ tweak_ok (repeat x00 31 ++ [x01]) = true.
Proof. vm_compute. repeat split; reflexivity. Qed.

Check (C20_text_hash_newtypes : forall name len db pb b,
  In (name, (len, (db, pb))) hash_text_table -> N.of_nat (length b) = len -> parse_hash len pb (print_hash db b) = Ok b).
Check (C20_text_AssetBlindingFactor : forall b, length b = 32%nat -> tweak_ok b = true ->
  parse_bf hashlen_AssetBlindingFactor hash_parse_backward_AssetBlindingFactor (print_bf hash_display_backward_AssetBlindingFactor b) = Ok b).
Check (C20_text_LockTime : forall l, locktime_wf l = true -> parse_locktime (print_locktime l) = Ok l).
Check (C20_text_LockTime_deserialized : forall v l, de_locktime v = Ok l -> parse_locktime (print_locktime l) = Ok l).
Check (C20_text_LockTime_exact : forall l, locktime_to_consensus l < 4294967296 -> (parse_locktime (print_locktime l) = Ok l <-> locktime_wf l = true)).
Check (C20_text_OutPoint : forall o, length (o_txid o) = 32%nat -> o_vout o < 4294967296 -> parse_outpoint (print_outpoint o) = Ok o).
Check (C20_text_EcdsaSighashType : forall v, is_variant ecdsa_sighash_variants v = true -> parse_ecdsa_sighash (print_ecdsa_sighash v) = Ok v).
Check (C20_text_SchnorrSighashType : forall v, is_variant schnorr_sighash_variants v = true -> parse_schnorr_sighash (print_schnorr_sighash v) = Ok v).
Check (C20_text_PsbtSighashType : forall v, v < 4294967296 -> parse_psbt_sighash (print_psbt_sighash v) = Ok v).
Check (C20_serde_Transaction : forall pt_ok t, swf_tx pt_ok t = true ->
  de_tx pt_ok true (json_view (ser_tx true t)) = Ok t /\ de_tx pt_ok false (cbor_view (ser_tx false t)) = Ok t).
Check (C20_serde_TxIn : forall pt_ok i, swf_txin pt_ok i = true ->
  de_txin pt_ok true (json_view (ser_txin true i)) = Ok i /\ de_txin pt_ok false (cbor_view (ser_txin false i)) = Ok i).
Check (C20_serde_TxOut : forall pt_ok o, swf_txout pt_ok o = true ->
  de_txout pt_ok true (json_view (ser_txout true o)) = Ok o /\ de_txout pt_ok false (cbor_view (ser_txout false o)) = Ok o).
Check (C20_serde_Value : forall pt_ok v, swf_value pt_ok v = true ->
  de_value pt_ok true (json_view (ser_value true v)) = Ok v /\ de_value pt_ok false (cbor_view (ser_value false v)) = Ok v).
Check (C20_serde_OutPoint : forall o, swf_outpoint o = true ->
  de_outpoint true (json_view (ser_outpoint true o)) = Ok o /\ de_outpoint false (cbor_view (ser_outpoint false o)) = Ok o).
Check (C20_serde_BlockHeader : forall h, swf_header h = true ->
  de_header true (json_view (ser_header true h)) = Ok h /\ de_header false (cbor_view (ser_header false h)) = Ok h).
Check (C20_serde_Block : forall pt_ok b, swf_block pt_ok b = true ->
  de_block pt_ok true (json_view (ser_block true b)) = Ok b /\ de_block pt_ok false (cbor_view (ser_block false b)) = Ok b).
Check (C20_serde_Params : forall p, swf_params p = true ->
  de_params true (json_view (ser_params true p)) = Ok p /\ de_params false (cbor_view (ser_params false p)) = Ok p).
Check (C20_serde_TxOutSecrets : forall s, swf_secrets s = true ->
  de_secrets true (json_view (ser_secrets true s)) = Ok s /\ de_secrets false (cbor_view (ser_secrets false s)) = Ok s).
Check (C20_serde_canonical_Transaction : forall pt_ok maxvec cap_txin cap_txout cap_vecu8 t, wf (c_tx pt_ok maxvec cap_txin cap_txout cap_vecu8) t = true ->
  de_tx pt_ok true (json_view (ser_tx true t)) = Ok t /\ de_tx pt_ok false (cbor_view (ser_tx false t)) = Ok t).
Check (C20_serde_PartiallySignedTransaction : forall pt_ok maxvec cap_txin cap_txout cap_vecu8 leaf_ser leaf_de leaf_ok,
  (forall kind hr b, leaf_ok kind b = true -> leaf_de kind hr (view hr (leaf_ser kind hr b)) = Ok b) ->
  (forall kind hr b, leaf_ok kind b = true -> view hr (leaf_ser kind hr b) <> VUnit) ->
  forall x, s_wf (sc_pset pt_ok maxvec cap_txin cap_txout cap_vecu8 leaf_ser leaf_de leaf_ok) x = true ->
  s_de (sc_pset pt_ok maxvec cap_txin cap_txout cap_vecu8 leaf_ser leaf_de leaf_ok) true (json_view (s_ser (sc_pset pt_ok maxvec cap_txin cap_txout cap_vecu8 leaf_ser leaf_de leaf_ok) true x)) = Ok x /\
  s_de (sc_pset pt_ok maxvec cap_txin cap_txout cap_vecu8 leaf_ser leaf_de leaf_ok) false (cbor_view (s_ser (sc_pset pt_ok maxvec cap_txin cap_txout cap_vecu8 leaf_ser leaf_de leaf_ok) false x)) = Ok x).
Check (C20_serde_derived_struct : forall name F, nodup_names (map fst F) = true -> Forall SLawful (map snd F) -> SLawful (sc_struct name F)).

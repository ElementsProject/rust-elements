(* C01 — consensus encoding is an exact bijection on canonical values.  Statements only; proofs in Proofs/Tx.v, Proofs/Block.v.
   `Lawful c` (Base/Codec.v) is the conjunction of, for all inputs:
     Exact    : dec c bs = Some (v, rest) -> bs = enc c v ++ rest          (the consumed prefix re-encodes to itself)
     DecWf    : dec c bs = Some (v, rest) -> wf c v = true                  (decoder outputs are canonical)
     Complete : wf c v = true -> dec c (enc c v ++ rest) = Some (v, rest)   (canonical values decode back, whatever follows)
     LenOk    : wf c v = true -> elen c v = N.of_nat (length (enc c v))     (the length the encoder reports)
   The theorems hold for every curve-point oracle `pt_ok`, every MAX_VEC_SIZE and every element cap. *)
From Coq Require Import List NArith Bool Lia.
From Coq.Strings Require Import Byte.
From EV Require Import Base.Bytes Base.Codec Model.Tx Model.Block Proofs.Tx Proofs.Block Proofs.Flags.
Import ListNotations.
Open Scope N_scope.

(* The constants of the model are those of the source now (Gen/Tables.v is regenerated from /repo/src on every run). *)
From EV Require Gen.Tables Proofs.TablesTie.
Theorem C01_constants_from_source :
  Tables.c01_pegin_bit_enc = bit30 /\ Tables.c01_pegin_bit_dec = bit30 /\ Tables.c01_issuance_bit_enc = Tx.bit31 /\ Tables.c01_issuance_bit_dec = Tx.bit31
  /\ Tables.c01_coinbase_vout = u32max /\ Tables.c01_header_dyna_bit_enc = Block.bit31 /\ Tables.c01_header_dyna_shift_dec = 31
  /\ params_tag PNull = Tables.c01_params_tag_null /\ (forall s l e, params_tag (PCompact s l e) = Tables.c01_params_tag_compact)
  /\ (forall f, params_tag (PFull f) = Tables.c01_params_tag_full).
Proof. repeat split; reflexivity. Qed.

(* The predicates the encoders and decoders branch on (the witness flag, the issuance flag bit, the three-way classification of the confidential
   types and their encoded lengths) are, function by function, the ones TRANSLATED from the source on every run (Gen/SrcPreds.v, rust2coq applied to
   Value/Asset/Nonce::{is_null, is_explicit, is_confidential, encoded_length}, AssetIssuance::is_null, TxInWitness::is_empty, TxOutWitness::is_empty,
   TxIn::has_issuance, Transaction::has_witness). A change of meaning of any of them stops Proofs/SrcPreds.v from compiling. *)
From EV Require Gen.SrcPreds Proofs.SrcPreds.
Theorem C01_predicates_from_source : forall (t : tx) (i : txin) (iw : inwit) (ow : outwit) (v : cvalue) (a : casset) (n : cnonce),
  SrcPreds.src_Transaction_has_witness t = has_witness t /\ SrcPreds.src_TxIn_has_issuance i = has_issuance i
  /\ SrcPreds.src_AssetIssuance_is_null (in_iss i) = issuance_is_null (in_iss i)
  /\ SrcPreds.src_TxInWitness_is_empty iw = inwit_is_empty iw /\ SrcPreds.src_TxOutWitness_is_empty ow = outwit_is_empty ow
  /\ SrcPreds.src_Value_encoded_length v = elen (c_value (fun _ => true)) v /\ SrcPreds.src_Asset_encoded_length a = elen (c_asset (fun _ => true)) a
  /\ SrcPreds.src_Nonce_encoded_length n = elen (c_nonce (fun _ => true)) n
  /\ (forall k, SrcPreds.src_VarInt_size k = elen c_varint k)
  /\ [SrcPreds.src_Value_is_null v; SrcPreds.src_Value_is_explicit v; SrcPreds.src_Value_is_confidential v]
      = match v with VNull => [true; false; false] | VExplicit _ => [false; true; false] | VConf _ => [false; false; true] end
  /\ [SrcPreds.src_Asset_is_null a; SrcPreds.src_Asset_is_explicit a; SrcPreds.src_Asset_is_confidential a]
      = match a with ANull => [true; false; false] | AExplicit _ => [false; true; false] | AConf _ => [false; false; true] end
  /\ [SrcPreds.src_Nonce_is_null n; SrcPreds.src_Nonce_is_explicit n; SrcPreds.src_Nonce_is_confidential n]
      = match n with NNull => [true; false; false] | NExplicit _ => [false; true; false] | NConf _ => [false; false; true] end.
Proof. intros. repeat split; auto using SrcPreds.src_has_witness, SrcPreds.src_has_issuance, SrcPreds.src_issuance_is_null, SrcPreds.src_inwit_is_empty,
  SrcPreds.src_outwit_is_empty, SrcPreds.src_varint_size, SrcPreds.src_value_len, SrcPreds.src_asset_len, SrcPreds.src_nonce_len, SrcPreds.src_value_kinds, SrcPreds.src_asset_kinds, SrcPreds.src_nonce_kinds. Qed.

Section C01.
Variable pt_ok : bytes -> bool.
Variables maxvec cap_txin cap_txout cap_vecu8 cap_tx : N.

Theorem C01_value  : Lawful (c_value pt_ok).   Proof. exact (c_value_lawful pt_ok). Qed.
Theorem C01_asset  : Lawful (c_asset pt_ok).   Proof. exact (c_asset_lawful pt_ok). Qed.
Theorem C01_nonce  : Lawful (c_nonce pt_ok).   Proof. exact (c_nonce_lawful pt_ok). Qed.
Theorem C01_txin   : Lawful (c_txin pt_ok maxvec).   Proof. exact (c_txin_nowit_lawful pt_ok maxvec). Qed.
Theorem C01_txout  : Lawful (c_txout pt_ok maxvec).  Proof. exact (c_txout_nowit_lawful pt_ok maxvec). Qed.
Theorem C01_tx     : Lawful (c_tx pt_ok maxvec cap_txin cap_txout cap_vecu8).  Proof. exact (c_tx_lawful pt_ok maxvec cap_txin cap_txout cap_vecu8). Qed.
Theorem C01_params : Lawful (c_params maxvec cap_vecu8).   Proof. exact (c_params_lawful maxvec cap_vecu8). Qed.
Theorem C01_fullparams : Lawful (c_fullparams maxvec cap_vecu8).   Proof. exact (c_fullparams_lawful maxvec cap_vecu8). Qed.
Theorem C01_header : Lawful (c_header maxvec cap_vecu8).   Proof using pt_ok maxvec cap_vecu8. exact (c_header_lawful maxvec cap_vecu8). Qed.
Theorem C01_block  : Lawful (c_block pt_ok maxvec cap_txin cap_txout cap_vecu8 cap_tx).  Proof. exact (c_block_lawful pt_ok maxvec cap_txin cap_txout cap_vecu8 cap_tx). Qed.

(* the property's sentences, spelled out for transactions (the same corollaries hold for every Lawful codec) *)
Notation TX := (c_tx pt_ok maxvec cap_txin cap_txout cap_vecu8).
Theorem C01_tx_decode_exact : forall bs t, deserialize TX bs = Some t -> bs = enc TX t /\ wf TX t = true.
Proof. exact (deserialize_exact TX C01_tx). Qed.
Theorem C01_tx_no_two_encodings : forall b1 b2 t, deserialize TX b1 = Some t -> deserialize TX b2 = Some t -> b1 = b2.
Proof. exact (deserialize_inj TX C01_tx). Qed.
Theorem C01_tx_encode_decode : forall t, wf TX t = true -> deserialize TX (enc TX t) = Some t.
Proof. exact (deserialize_complete TX C01_tx). Qed.
Theorem C01_tx_reported_length : forall t, wf TX t = true -> elen TX t = N.of_nat (length (enc TX t)).
Proof. exact (l_len C01_tx). Qed.
Notation HD := (c_header maxvec cap_vecu8).
Theorem C01_header_decode_exact : forall bs h, deserialize HD bs = Some h -> bs = enc HD h /\ wf HD h = true.
Proof. exact (deserialize_exact HD C01_header). Qed.
Theorem C01_header_encode_decode : forall h, wf HD h = true -> deserialize HD (enc HD h) = Some h.
Proof. exact (deserialize_complete HD C01_header). Qed.
End C01.

(* the constructor half: the values built by OutPoint::null / TxIn::default / AssetIssuance::null / TxOut::default / TxOut::new_fee
   are canonical (hence round-trip), for every parameter *)
Definition default_txin : txin := {| in_prev := {| o_txid := zero32; o_vout := 4294967295 |}; in_pegin := false; in_script := []; in_seq := 4294967295;
  in_iss := null_issuance; in_wit := empty_inwit |}.
Definition default_txout : txout := {| out_asset := ANull; out_value := VNull; out_nonce := NNull; out_script := []; out_wit := empty_outwit |}.
Definition new_fee (amount : N) (asset : bytes) : txout :=
  {| out_asset := AExplicit asset; out_value := VExplicit amount; out_nonce := NNull; out_script := []; out_wit := empty_outwit |}.
Theorem C01_constructors_canonical : forall pt_ok maxvec,
  wf (c_txin pt_ok maxvec) default_txin = true /\ wf (c_txout pt_ok maxvec) default_txout = true /\
  wf c_outpoint {| o_txid := zero32; o_vout := 4294967295 |} = true /\
  wf (c_issuance pt_ok) null_issuance = true /\
  (forall amount asset, amount < 2 ^ 64 -> length asset = 32%nat -> wf (c_txout pt_ok maxvec) (new_fee amount asset) = true).
Proof. intros pt_ok maxvec. repeat split.
  - destruct maxvec; vm_compute; reflexivity.
  - destruct maxvec; vm_compute; reflexivity.
  - intros amount asset Ha Hl. unfold new_fee. cbn [c_txout c_txout_nowit c_conv wf out_wit outwit_is_empty empty_outwit w_surj w_range andb].
    cbn [c_pair wf c_asset c_value c_nonce asset_wf value_wf nonce_wf out_asset out_value out_nonce out_script].
    rewrite Hl. cbn [Nat.eqb]. replace (wf (c_be 8) amount) with true.
    + destruct maxvec; vm_compute; reflexivity.
    + symmetry. cbn [c_be wf]. apply N.ltb_lt. replace (256 ^ N.of_nat 8) with (2 ^ 64) by (vm_compute; reflexivity). exact Ha. Qed.

(* why `wf` is needed: an input with index 0x3fffffff and both flags encodes to the coinbase index and does not come back *)
Definition odd_txin : txin := {| in_prev := {| o_txid := zero32; o_vout := 1073741823 |}; in_pegin := true; in_script := []; in_seq := 0;
  in_iss := {| i_nonce := zero32; i_entropy := zero32; i_amount := VExplicit 1; i_keys := VNull |}; in_wit := empty_inwit |}.
Example C01_noncanonical_example :
  wf (c_txin (fun _ => true) 4000000) odd_txin = false /\
  match deserialize (c_txin (fun _ => true) 4000000) (enc (c_txin (fun _ => true) 4000000) odd_txin) with Some i => negb (in_pegin i) | None => true end = true.
Proof. vm_compute. split; reflexivity. Qed.
(* non-vacuity: canonical values exist for the interesting shapes — a coinbase input, a pegin + issuance input, a transaction with witnesses *)
Definition coinbase_in : txin := {| in_prev := {| o_txid := zero32; o_vout := 4294967295 |}; in_pegin := false; in_script := [x51]; in_seq := 4294967295; in_iss := null_issuance; in_wit := empty_inwit |}.
Definition pegin_iss_in : txin := {| in_prev := {| o_txid := repeat x11 32; o_vout := 7 |}; in_pegin := true; in_script := []; in_seq := 5;
  in_iss := {| i_nonce := zero32; i_entropy := repeat x22 32; i_amount := VExplicit 1000; i_keys := VNull |}; in_wit := empty_inwit |}.
Definition sample_tx : tx := {| tx_version := 2; tx_lock := 0;
  tx_in := [ set_inwit pegin_iss_in {| w_amount_rp := None; w_keys_rp := None; w_script := [[x01; x02]]; w_pegin := [] |} ; coinbase_in ];
  tx_out := [ {| out_asset := AExplicit (repeat x33 32); out_value := VExplicit 5; out_nonce := NNull; out_script := []; out_wit := empty_outwit |} ] |}.
Example C01_canonical_examples :
  wf (c_txin (fun _ => true) 4000000) coinbase_in = true /\ wf (c_txin (fun _ => true) 4000000) pegin_iss_in = true /\
  wf (c_tx (fun _ => true) 4000000 1000 1000 1000) sample_tx = true /\
  deserialize (c_tx (fun _ => true) 4000000 1000 1000 1000) (enc (c_tx (fun _ => true) 4000000 1000 1000 1000) sample_tx) = Some sample_tx.
Proof. vm_compute. repeat split; reflexivity. Qed.

Check (C01_tx_decode_exact : forall pt_ok maxvec cap_txin cap_txout cap_vecu8 bs t,
  deserialize (c_tx pt_ok maxvec cap_txin cap_txout cap_vecu8) bs = Some t ->
  bs = enc (c_tx pt_ok maxvec cap_txin cap_txout cap_vecu8) t /\ wf (c_tx pt_ok maxvec cap_txin cap_txout cap_vecu8) t = true).
Check (C01_tx_encode_decode : forall pt_ok maxvec cap_txin cap_txout cap_vecu8 t,
  wf (c_tx pt_ok maxvec cap_txin cap_txout cap_vecu8) t = true ->
  deserialize (c_tx pt_ok maxvec cap_txin cap_txout cap_vecu8) (enc (c_tx pt_ok maxvec cap_txin cap_txout cap_vecu8) t) = Some t).
Check (C01_block : forall pt_ok maxvec cap_txin cap_txout cap_vecu8 cap_tx, Lawful (c_block pt_ok maxvec cap_txin cap_txout cap_vecu8 cap_tx)).

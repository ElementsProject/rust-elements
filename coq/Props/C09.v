(* C09 — multi-party PSET blinding balances for every split and order of blinders.
   LEVEL: proof IN THE IDEAL-COMMITMENT MODEL (Model/Ideal.v), partial with respect to cryptography exactly as C04/C05.
   What is proved is the protocol logic of PartiallySignedTransaction::{blind_non_last, blind_last} (src/pset/mod.rs): which
   outputs a party blinds, the scalar bookkeeping that carries the imbalance between parties, and that after the last blinder
   the extracted transaction verifies — for every number of parties, every assignment, every order, every randomness.
   The serialize/deserialize hop between parties is a parameter `hop` assumed to be the identity on the modelled fields
   (that is C07's property). Statements and an example; the proofs live in Proofs/PsetBlind.v (here at most a few lines of derivation). *)
From Coq Require Import List NArith ZArith Bool Lia Permutation.
From Coq.Strings Require Import Byte.
From EV Require Import Base.Bytes Base.Zn Base.FreeMod Gen.Tables Model.Script Model.Ideal Model.Verify Model.Blind Model.PsetBlind
  Proofs.Ideal Proofs.Verify Proofs.Blind Proofs.PsetBlind Props.C04.
Import ListNotations.
Open Scope Z_scope.

(* The surjection domain. Every output a party blinds gets a surjection proof (Asset::blind) over that party's surjection targets
   `party_tg ins sec` (surjection_inputs: one entry per input — the party's own secrets or the UTXO's asset — and one per
   non-null issuance / inflation-keys amount). For every party this list has as many entries as `all_ss ins SS` (the secrets of
   all inputs with the issuance pseudo-inputs), so the size limit of Asset::blind (SURJECTIONPROOF_MAX_N_INPUTS, C04) is one
   premise on the PSET, the same for all parties: `N.of_nat (length (all_ss ins SS)) <= CT_SURJECTIONPROOF_MAX_N_INPUTS`. *)
Theorem C09_party_domain_size : forall (ins : list pin) (SS : list secrets) (utxos : list txout),
  Forall3 in_ok ins SS utxos -> forall sec, sec_ok SS sec -> length (party_tg ins sec) = length (all_ss ins SS).
Proof. exact party_tg_length. Qed.

(* after a non-last blinder that blinded at least one output, the scalar appended to the PSET is
   Σ_{its inputs} (v·abf + vbf) − Σ_{the outputs it blinded} (v·abf + vbf)  (mod n), the output factors being the reported ones *)
Theorem C09_scalar_meaning : forall (pubk : Z -> Z) (ecdh : Z -> Z -> Z) (p : profile)
  (ins : list pin) (SS : list secrets) (utxos : list txout),
  Forall3 in_ok ins SS utxos -> issuances_unblinded ins ->
  (N.of_nat (length (all_ss ins SS)) <= CT_SURJECTIONPROOF_MAX_N_INPUTS)%N ->
  forall ps sec rnd, ps_in ps = ins -> sec_ok SS sec -> indices_ok (length ins) (ps_out ps) ->
  (forall i, In i (owned_idx sec (ps_out ps) 0) -> exists o, nth_error (ps_out ps) i = Some o /\ pgood (party_tg ins sec) o) ->
  (3 * length (owned_idx sec (ps_out ps) 0) <= length rnd)%nat -> Forall in_zn rnd -> owned_idx sec (ps_out ps) 0 <> [] ->
  exists outs' bl rnd',
    blind_non_last pubk ecdh p ps sec rnd =
      OVal (mkPset ins outs' (ps_scalars ps ++ [zsub (Isum sec) (Osum outs' (owned_idx sec (ps_out ps) 0))]), bl, rnd')
    /\ Forall2 (fun i r => fst r = i /\ exists o', nth_error outs' i = Some o' /\ fst (fst (snd r)) = s_abf (osec_of o') /\ snd (fst (snd r)) = s_vbf (osec_of o'))
         (owned_idx sec (ps_out ps) 0) bl.
Proof.
  intros pubk ecdh p ins SS utxos INS ISS DOM ps sec rnd EI OK IO G RL RZ NE.
  destruct (non_last_char pubk ecdh p ins SS utxos INS ISS DOM ps sec rnd EI OK IO G RL RZ) as (outs' & bl & rnd' & BN & _ & _ & _ & _ & _ & R).
  exists outs', bl, rnd'. split; [|exact R]. rewrite BN. destruct (owned_idx sec (ps_out ps) 0); [contradiction|reflexivity].
Qed.

(* beyond the limit a non-last blinder that has an output to blind (and three scalars to draw) is refused at its first output:
   the surjection targets are collected, then Asset::blind returns Upstream(CannotProveSurjection) — so the premise on the
   surjection domain in the two theorems around this one cannot be dropped *)
Theorem C09_domain_limit_non_last : forall (pubk : Z -> Z) (ecdh : Z -> Z -> Z) (p : profile)
  (ins : list pin) (SS : list secrets) (utxos : list txout),
  Forall3 in_ok ins SS utxos -> issuances_unblinded ins ->
  (CT_SURJECTIONPROOF_MAX_N_INPUTS < N.of_nat (length (all_ss ins SS)))%N ->
  forall ps sec rnd, ps_in ps = ins -> sec_ok SS sec -> indices_ok (length ins) (ps_out ps) ->
  (forall i, In i (owned_idx sec (ps_out ps) 0) -> exists o, nth_error (ps_out ps) i = Some o /\ pgood (party_tg ins sec) o) ->
  (3 <= length rnd)%nat ->
  forall i0 rest, owned_idx sec (ps_out ps) 0 = i0 :: rest ->
  blind_non_last pubk ecdh p ps sec rnd = OFail (PConfidentialTxOutError i0 BCannotProveSurjection).
Proof. exact non_last_over_limit. Qed.

(* a valid assignment (`flow_ok`: parties own disjoint inputs covering all inputs with their true secrets, every output is explicit
   or assigned to exactly one party that can blind it, every party has an output, amounts balance per asset, enough randomness)
   on a PSET whose surjection domain is within the limit of Asset::blind:
   for EVERY order sigma of the non-last parties, then the last one, with a hop between the steps — the flow succeeds, the scalar
   list ends empty, the extracted transaction verifies against the input UTXOs, and every marked output is fully blinded,
   unblinds with its receiver key to the original asset and amount with factors that reproduce its commitments, and carries
   verifying explicit-value and explicit-asset proofs *)
Theorem C09_any_order : forall (pubk : Z -> Z) (ecdh : Z -> Z -> Z) (p : profile)
  (ins : list pin) (SS : list secrets) (utxos : list txout),
  Forall3 in_ok ins SS utxos -> issuances_unblinded ins ->
  (N.of_nat (length (all_ss ins SS)) <= CT_SURJECTIONPROOF_MAX_N_INPUTS)%N ->
  forall outs0 : list pout, indices_ok (length ins) outs0 ->
  forall hop : pset -> pset, (forall ps, hop ps = ps) ->
  forall (l : list party) (L : party), flow_ok ins SS outs0 l L ->
  (forall a b, ecdh (pubk a) b = ecdh (pubk b) a) ->
  forall sigma, Permutation sigma l ->
  exists psf bl t,
    run_flow pubk ecdh hop p (mkPset ins outs0 []) sigma L = OVal (psf, bl)
    /\ ps_scalars psf = []
    /\ extract_tx psf = OVal t /\ verify_tx_amt_proofs t utxos = OVal tt
    /\ length (ps_out psf) = length outs0 /\ length (t_out t) = length outs0
    /\ forall j o0 rsk, nth_error outs0 j = Some o0 -> po_blinding_key o0 = Some (pubk rsk) ->
         exists o tj s, nth_error (ps_out psf) j = Some o /\ nth_error (t_out t) j = Some tj
           /\ is_fully_blinded o = true
           /\ unblind ecdh tj rsk = OVal s /\ po_asset o0 = Some (s_asset s) /\ po_amount o0 = Some (s_value s)
           /\ o_asset tj = AConf (sgen s) /\ o_value tj = VConf (scommit s)
           /\ (exists a v g c bvp bap, po_asset o = Some a /\ po_amount o = Some v /\ po_asset_comm o = Some g /\ po_amount_comm o = Some c
                 /\ po_bvp o = Some bvp /\ po_bap o = Some bap /\ blind_value_proof_verify bvp v g c = true /\ blind_asset_proof_verify bap a g = true).
Proof.
  intros pubk ecdh p ins SS utxos INS ISS DOM outs0 IDX hop HOP l L OK SYM sigma PM.
  exact (flow_verifies pubk ecdh p ins SS utxos INS ISS DOM outs0 IDX hop HOP sigma L (flow_ok_perm ins SS outs0 l sigma L PM OK) SYM).
Qed.

(* ------------------------------------------------------------------ non-vacuity: a concrete three-party flow
   inputs: 0 (explicit asset 1 / 100, party A), 1 (confidential asset 2 / 50, party B = last), 2 (confidential asset 3 / 7, party C);
   outputs: 0,1 asset 1 (A blinds both), 2 fee, 3 asset 2 (B), 4 asset 3 (C). *)
Definition x_s0 := mkSec 1 0 100 0.
Definition x_s1 := mkSec 2 5 50 7.
Definition x_s2 := mkSec 3 9 7 4.
Definition x_SS := [x_s0; x_s1; x_s2].
Definition x_utxos := [mkOut (AExp 1) (VExp 100) NNull [x51] None None;
                       mkOut (AConf (sgen x_s1)) (VConf (scommit x_s1)) NNull [x51] None None;
                       mkOut (AConf (sgen x_s2)) (VConf (scommit x_s2)) NNull [x51] None None].
Definition x_ins := map (fun u => mkPI (Some u) null_issuance None) x_utxos.
Definition x_out a v (sc : bytes) (k : option Z) (b : option nat) := mkPO (Some a) (Some v) sc k b None None None None None None None.
Definition x_outs := [x_out 1 60 (p2wpkh x01) (Some (ex_pubk 11)) (Some 0%nat); x_out 1 39 (p2wpkh x02) (Some (ex_pubk 12)) (Some 0%nat);
                      x_out 1 1 [] None None; x_out 2 50 (p2wpkh x03) (Some (ex_pubk 13)) (Some 1%nat);
                      x_out 3 7 (p2wpkh x04) (Some (ex_pubk 14)) (Some 2%nat)].
Definition x_A : party := ([(0%nat, x_s0)], [21; 22; 23; 24; 25; 26]).
Definition x_C : party := ([(2%nat, x_s2)], [31; 32; 33]).
Definition x_B : party := ([(1%nat, x_s1)], [41; 42]).
Definition x_result (sigma : list party) :=
  match run_flow ex_pubk ex_ecdh (fun ps => ps) Debug (mkPset x_ins x_outs []) sigma x_B with
  | OVal (psf, bl) => Some (ps_scalars psf, match extract_tx psf with OVal t => verify_tx_amt_proofs t x_utxos | _ => OFail BalanceCheckFailed end,
                            map (fun e => snd (fst (snd e))) bl)
  | _ => None end.
Example C09_example_hypotheses :
  Forall3 in_ok x_ins x_SS x_utxos /\ issuances_unblinded x_ins /\ indices_ok (length x_ins) x_outs /\ flow_ok x_ins x_SS x_outs [x_A; x_C] x_B
  /\ (N.of_nat (length (all_ss x_ins x_SS)) <= CT_SURJECTIONPROOF_MAX_N_INPUTS)%N.
Proof.
  assert (POK : forall (P : party) i a rk v sc b, nth_error x_outs i = Some (x_out a v sc (Some rk) b) -> 1 <= v <= I64_MAX ->
            (exists ad, from_script sc = Script.Val (Some ad)) -> holds_tg (party_tg x_ins (fst P)) a ->
            exists o, nth_error x_outs i = Some o /\ pgood (party_tg x_ins (fst P)) o).
  { intros P i a rk v sc b N R AD H. eexists. split; [exact N|]. exists a, v, rk. cbn. repeat split; try assumption; try apply R. }
  assert (PK : forall slack (P : party), In P [x_A; x_C; x_B] -> (3 * length (pidx x_outs P) <= length (snd P) + slack)%nat ->
            party_ok x_ins x_SS x_outs slack P).
  { intros slack P IP RL. split; [|split; [|split; [|split; [exact RL|]]]].
    - intros [|[|[|i]]] s H; destruct IP as [<-|[<-|[<-|[]]]]; cbn in H; try discriminate; injection H as <-; reflexivity.
    - destruct IP as [<-|[<-|[<-|[]]]]; vm_compute; discriminate.
    - intros i I. destruct IP as [<-|[<-|[<-|[]]]]; vm_compute in I; repeat destruct I as [<-|I]; try contradiction;
        (eapply POK; [reflexivity|vm_compute; split; congruence|apply p2wpkh_addressable|]);
        unfold holds_tg; eexists _, _; vm_compute; repeat first [left; reflexivity|right].
    - destruct IP as [<-|[<-|[<-|[]]]]; repeat (constructor; [apply in_znb_spec; vm_compute; reflexivity|]); constructor. }
  split; [|split; [|split; [|split]]]; [| | | |vm_compute; discriminate].
  - apply Forall3_cons; [|apply Forall3_cons; [|apply Forall3_cons; [|apply Forall3_nil]]];
      (split; [reflexivity|split; [|split; [|split; left; reflexivity]]]).
    + left. split; reflexivity. + left. repeat split; try reflexivity; apply qn_u64; split; reflexivity.
    + right. eexists. split; reflexivity. + right. eexists. split; reflexivity.
    + right. eexists. split; reflexivity. + right. eexists. split; reflexivity.
  - repeat constructor; intro H; discriminate H.
  - apply Forall_forall. intros o I b K B. cbn [x_outs In] in I.
    repeat destruct I as [<-|I]; try contradiction; cbn in B; try discriminate B; injection B as <-; unfold x_ins, x_utxos; cbn [length map]; lia.
  - split; [|split; [|split; [|split; [|split; [|split]]]]].
    + intros P IP. apply PK; [cbn [In] in *; tauto|destruct IP as [<-|[<-|[]]]; vm_compute; lia].
    + apply PK; [cbn [In]; tauto|vm_compute; lia].
    + repeat constructor; cbn [In]; intros H; repeat destruct H as [H|H]; try discriminate H; try contradiction.
    + intros P Q IP IQ NE o IO OP OQ. cbn [app In] in IP, IQ, IO.
      repeat destruct IP as [IP|IP]; try contradiction; repeat destruct IQ as [IQ|IQ]; try contradiction; subst; try congruence;
        repeat destruct IO as [IO|IO]; try contradiction; subst; vm_compute in OP, OQ; discriminate.
    + unfold outputs_assigned, x_outs.
      apply Forall_cons; [right; exists x_A; split; [cbn; tauto|reflexivity]|].
      apply Forall_cons; [right; exists x_A; split; [cbn; tauto|reflexivity]|].
      apply Forall_cons; [left; split; [reflexivity|]; exists 1%N, 1; repeat split; try reflexivity; apply qn_u64; split; reflexivity|].
      apply Forall_cons; [right; exists x_B; split; [cbn; tauto|reflexivity]|].
      apply Forall_cons; [right; exists x_C; split; [cbn; tauto|reflexivity]|]. apply Forall_nil.
    + cbn. apply perm_skip. apply perm_swap.
    + intro b. unfold asset_total, ptotal, x_SS, x_outs, x_out, x_ins, x_utxos. cbn [map all_ss iss_secrets mk_in pi_iss has_issuance in_iss is_amount is_keys null_issuance value_is_null andb negb app isum fold_right s_asset s_value x_s0 x_s1 x_s2 po_asset po_amount].
      destruct (N.eqb_spec b 1) as [->|N1]; [reflexivity|]. destruct (N.eqb_spec b 2) as [->|N2]; [reflexivity|]. destruct (N.eqb_spec b 3) as [->|N3]; reflexivity.
Qed.
(* both orders of the non-last parties: scalars empty, the extracted transaction verifies, and the last party solves the SAME value blinding factor *)
Example C09_example_run : exists vbf, x_result [x_A; x_C] = Some ([], OVal tt, [vbf]) /\ x_result [x_C; x_A] = Some ([], OVal tt, [vbf]).
Proof.
  pose (vbfs := fun sigma => match run_flow ex_pubk ex_ecdh (fun ps => ps) Debug (mkPset x_ins x_outs []) sigma x_B with
                             | OVal (_, bl) => map (fun e => snd (fst (snd e))) bl | _ => [] end).
  (* the factor is read off the two runs; that needs no commitment (evaluated with `vbfs` out of the evar's context) *)
  assert (V : exists vbf, vbfs [x_A; x_C] = [vbf] /\ vbfs [x_C; x_A] = [vbf]) by (subst vbfs; eexists; vm_compute; split; reflexivity).
  destruct V as (vbf & V1 & V2). exists vbf.
  (* the rest is C09_any_order on the hypotheses just checked *)
  destruct C09_example_hypotheses as (INS & ISS & IDX & OK & DOM).
  assert (R : forall sigma, Permutation sigma [x_A; x_C] -> x_result sigma = Some ([], OVal tt, vbfs sigma)).
  { intros sigma PM.
    destruct (C09_any_order ex_pubk ex_ecdh Debug _ _ _ INS ISS DOM _ IDX (fun ps => ps) (fun ps => eq_refl) _ _ OK
                (fun a b => zmul_comm a b) sigma PM) as (psf & bl & t & RF & SC & EX & VF & _).
    unfold x_result, vbfs. rewrite RF, SC, EX, VF. reflexivity. }
  rewrite (R _ (Permutation_refl _)), (R _ (perm_swap _ _ _)), V1, V2. split; reflexivity.
Qed.

Check (C09_any_order : forall (pubk : Z -> Z) (ecdh : Z -> Z -> Z) (p : profile)
  (ins : list pin) (SS : list secrets) (utxos : list txout),
  Forall3 in_ok ins SS utxos -> issuances_unblinded ins ->
  (N.of_nat (length (all_ss ins SS)) <= CT_SURJECTIONPROOF_MAX_N_INPUTS)%N ->
  forall outs0 : list pout, indices_ok (length ins) outs0 ->
  forall hop : pset -> pset, (forall ps, hop ps = ps) ->
  forall (l : list party) (L : party), flow_ok ins SS outs0 l L ->
  (forall a b, ecdh (pubk a) b = ecdh (pubk b) a) ->
  forall sigma, Permutation sigma l ->
  exists psf bl t,
    run_flow pubk ecdh hop p (mkPset ins outs0 []) sigma L = OVal (psf, bl)
    /\ ps_scalars psf = []
    /\ extract_tx psf = OVal t /\ verify_tx_amt_proofs t utxos = OVal tt
    /\ length (ps_out psf) = length outs0 /\ length (t_out t) = length outs0
    /\ forall j o0 rsk, nth_error outs0 j = Some o0 -> po_blinding_key o0 = Some (pubk rsk) ->
         exists o tj s, nth_error (ps_out psf) j = Some o /\ nth_error (t_out t) j = Some tj
           /\ is_fully_blinded o = true
           /\ unblind ecdh tj rsk = OVal s /\ po_asset o0 = Some (s_asset s) /\ po_amount o0 = Some (s_value s)
           /\ o_asset tj = AConf (sgen s) /\ o_value tj = VConf (scommit s)
           /\ (exists a v g c bvp bap, po_asset o = Some a /\ po_amount o = Some v /\ po_asset_comm o = Some g /\ po_amount_comm o = Some c
                 /\ po_bvp o = Some bvp /\ po_bap o = Some bap /\ blind_value_proof_verify bvp v g c = true /\ blind_asset_proof_verify bap a g = true)).
Print Assumptions C09_party_domain_size.
Print Assumptions C09_scalar_meaning.
Print Assumptions C09_domain_limit_non_last.
Print Assumptions C09_any_order.

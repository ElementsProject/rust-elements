(* C13 — a sighash cache answers every query as a fresh one would, in any order.  The statements, each closed from the lemmas of
   Proofs/SighashCache.v and Proofs/SighashWitness.v.
   Model: Model/SighashImpl.v (the cache object and the three query kinds, following src/sighash.rs) and Model/SighashCache.v
   (operations, `step`, `run`, the reference `fresh_answers`).  Everything is universally quantified over the two hash functions
   (`H` = SHA-256, `Htag` = the TapSighash tagged hash), the curve-point oracle and the vector caps: no property of them is used. *)
From Coq Require Import List Arith NArith Bool.
From Coq.Strings Require Import Byte.
From EV Require Import Base.Bytes Base.Codec Gen.Tables Model.Tx Model.SighashImpl Model.SighashCache Model.SighashQuery Proofs.SighashCache Proofs.SighashWitness.
Import ListNotations.
Open Scope N_scope.

Section C13.
Variable pt_ok : bytes -> bool.
Variable maxvec : N.
Variable H : bytes -> bytes.
Variable Htag : bytes -> bytes.
Notation run := (run pt_ok maxvec H Htag).
Notation step := (step pt_ok maxvec H Htag).
Notation fresh_answers := (fresh_answers pt_ok maxvec H Htag).
Notation Good := (Good pt_ok maxvec H).
Notation taproot_encode := (taproot_encode pt_ok maxvec H).
Notation taproot_sighash := (taproot_sighash pt_ok maxvec H Htag).

(* Every answer of every finite operation sequence (legacy / segwit / taproot queries of all kinds, repeated and interleaved,
   Prevouts::All or ::One, witness_mut updates in between) issued against ONE cache equals the answer of a cache created for
   that operation alone on the transaction with the witness updates made so far — provided every `All` carries the same
   list `spent` (the transaction's spent outputs; any list, even of the wrong length). *)
Theorem C13_coherent : forall spent t ops, Forall (consistent_prevouts spent) ops -> run (init t) ops = fresh_answers t ops.
Proof. intros spent t ops. apply (run_coherent_from pt_ok maxvec H Htag), Good_init. Qed.

(* the invariant behind it: started from ANY state whose filled caches equal the values recomputed from the current
   transaction and `spent`, the answers are the fresh ones and the final state satisfies the invariant again *)
Theorem C13_coherent_from_good_state : forall spent ops t s, Good t spent s -> Forall (consistent_prevouts spent) ops -> run s ops = fresh_answers t ops.
Proof. exact (run_coherent_from pt_ok maxvec H Htag). Qed.
Theorem C13_invariant : forall spent ops t s, Good t spent s -> Forall (consistent_prevouts spent) ops ->
  Good (fold_left apply_wit ops t) spent (final_state pt_ok maxvec H Htag s ops).
Proof. induction ops as [|o ops IH]; intros t s G F; cbn [final_state fold_left]; [exact G|].
  inversion F as [|? ? C F']; subst. apply IH; [|exact F']. apply (step_good pt_ok maxvec H Htag t spent s o G C). Qed.
(* one step: same answer as a fresh cache, invariant re-established (also when the query fails or panics) *)
Theorem C13_step : forall t spent s o, Good t spent s -> consistent_prevouts spent o ->
  snd (step s o) = snd (step (init t) o) /\ Good (apply_wit t o) spent (fst (step s o)).
Proof. exact (step_good pt_ok maxvec H Htag). Qed.

(* none of the cached hashes reads script_witness: witness_mut cannot invalidate a cache *)
Theorem C13_caches_ignore_script_witness : forall t spent i w,
  compute_common pt_ok maxvec H (set_script_witness t i w) = compute_common pt_ok maxvec H t /\
  compute_taproot pt_ok maxvec H (set_script_witness t i w) spent = compute_taproot pt_ok maxvec H t spent.
Proof. intros. split; [apply compute_common_witness|apply compute_taproot_witness]. Qed.

(* For EVERY taproot hash type that includes ANYONECANPAY (ALL|ACP, NONE|ACP, SINGLE|ACP), supplying only the spent output of the
   input being signed gives the same pre-image, the same digest and the same resulting cache state as supplying all of them —
   in every cache state.  (Finding F11 — ALL|ANYONECANPAY failed with PrevoutKind — was repaired by 539d5ee: the output-witness
   hash now lives in the common cache.) *)
Theorem C13_acp_one : forall s spent idx o annex leaf ty g,
  schnorr_acp ty = true ->
  length spent = length (tx_in (st_tx s)) -> nth_error spent idx = Some o ->
  taproot_encode idx (POne idx o) annex leaf ty g s = taproot_encode idx (PAll spent) annex leaf ty g s /\
  taproot_sighash idx (POne idx o) annex leaf ty g s = taproot_sighash idx (PAll spent) annex leaf ty g s.
Proof. intros s spent idx o annex leaf ty g A L N. assert (E := acp_one_eq_all pt_ok maxvec H s spent idx o annex leaf ty g A L N). split; [exact E|].
  unfold SighashImpl.taproot_sighash, mapM, bind. now rewrite E. Qed.

(* a single spent output for a type that needs all of them is reported as an error — in every cache state *)
Theorem C13_need_all : forall s idx j o annex leaf ty g, schnorr_acp ty = false ->
  snd (taproot_encode idx (POne j o) annex leaf ty g s) = SErr PrevoutKind.
Proof. intros s idx j o annex leaf ty g A. unfold SighashImpl.taproot_encode. rewrite !bind_get_tx, !bind_lift. cbn [check_all].
  unfold schnorr_acp in A. destruct (schnorr_split ty) as [b acp]. cbn [snd] in A. subst acp. reflexivity. Qed.

(* No answer depends on script_sig, script witness or pegin witness.  Two cache objects over transactions that differ at most in those
   fields of any inputs (`tx_sig_eq`, Model/SighashQuery.v), driven by the same operations — where corresponding witness_mut
   operations may even write DIFFERENT stacks (`op_sim`) — give equal answers operation by operation: digests, error results and
   panics included, for every operation sequence, with no hypothesis on the prevouts. In particular filling in witnesses through the
   cache never changes a later answer. *)
Theorem C13_witness_independent : forall ops ops' t t', tx_sig_eq t t' -> Forall2 op_sim ops ops' -> run (init t) ops = run (init t') ops'.
Proof. intros. apply (run_sim pt_ok maxvec H Htag); [now apply Rel_init|assumption]. Qed.
(* the simulation behind it, from any pair of related states: equal answers, related states again (equal cache contents) *)
Theorem C13_witness_independent_step : forall s s' o o', Rel s s' -> op_sim o o' ->
  snd (step s o) = snd (step s' o') /\ Rel (fst (step s o)) (fst (step s' o')).
Proof. exact (step_sim pt_ok maxvec H Htag). Qed.
End C13.

(* sample values for the non-vacuity examples *)
Definition f11_in : txin := {| in_prev := {| o_txid := repeat x11 32; o_vout := 0 |}; in_pegin := false; in_script := []; in_seq := 4294967295;
  in_iss := null_issuance; in_wit := empty_inwit |}.
Definition f11_tx : tx := {| tx_version := 2; tx_lock := 0; tx_in := [f11_in]; tx_out := [] |}.
Definition f11_spent : txout := {| out_asset := AExplicit (repeat x33 32); out_value := VExplicit 5; out_nonce := NNull; out_script := [x51]; out_wit := empty_outwit |}.
(* the former F11 witness: ALL|ANYONECANPAY with One now succeeds and equals All (an instance of C13_acp_one that is not an error) *)
Example C13_former_F11_witness : forall pt_ok maxvec H,
  exists m, snd (taproot_encode pt_ok maxvec H 0 (POne 0 f11_spent) None None SAllAcp (repeat x00 32) (init f11_tx)) = SOk m /\
            snd (taproot_encode pt_ok maxvec H 0 (PAll [f11_spent]) None None SAllAcp (repeat x00 32) (init f11_tx)) = SOk m.
Proof. intros. eexists. split; vm_compute; reflexivity. Qed.

(* non-vacuity: a sequence mixing all operation kinds satisfies the hypothesis, and a state with all three caches filled
   satisfies the invariant *)
Example C13_ops_example : Forall (consistent_prevouts [f11_spent])
  [ OTapKey 0 (PAll [f11_spent]) SDefault (repeat x00 32); OSegwit 0 [x51] (VExplicit 5) EAll; OWitnessMut 0 [[x01]];
    OTaproot 0 (POne 0 f11_spent) (Some [x50]) None SSingleAcp (repeat x00 32); OLegacy 0 [x51] ESingle;
    OTapScript 0 (PAll [f11_spent]) (repeat x22 32) SNone (repeat x00 32) ].
Proof. repeat constructor. Qed.
Example C13_good_filled_state : forall pt_ok maxvec H,
  Good pt_ok maxvec H f11_tx [f11_spent]
    {| st_tx := f11_tx; st_common := Some (compute_common pt_ok maxvec H f11_tx);
       st_segwit := Some (compute_segwit H (compute_common pt_ok maxvec H f11_tx));
       st_taproot := Some (compute_taproot pt_ok maxvec H f11_tx [f11_spent]) |}.
Proof. intros. unfold Good. cbn. auto. Qed.

(* non-vacuity of C13_witness_independent: transactions that differ in script_sig, script witness and pegin witness are related, and so
   are operation sequences that write different witness stacks *)
Definition f11_in_signed : txin := {| in_prev := in_prev f11_in; in_pegin := false; in_script := [x51; x52]; in_seq := in_seq f11_in; in_iss := null_issuance;
  in_wit := {| w_amount_rp := None; w_keys_rp := None; w_script := [[x01; x02]; []]; w_pegin := [[x09]] |} |}.
Example C13_witness_independent_example :
  tx_sig_eq f11_tx {| tx_version := 2; tx_lock := 0; tx_in := [f11_in_signed]; tx_out := [] |} /\ f11_in <> f11_in_signed /\
  Forall2 op_sim [OTapKey 0 (PAll [f11_spent]) SAllAcp (repeat x00 32); OWitnessMut 0 [[x01]]; OSegwit 0 [x51] (VExplicit 5) ESingle]
                 [OTapKey 0 (PAll [f11_spent]) SAllAcp (repeat x00 32); OWitnessMut 0 [[x07]; [x08]]; OSegwit 0 [x51] (VExplicit 5) ESingle].
Proof. split; [|split].
  - unfold tx_sig_eq, in_sig_eq. cbn. repeat split; repeat constructor.
  - discriminate.
  - constructor; [left; reflexivity|]. constructor; [right; repeat eexists|]. constructor; [left; reflexivity|constructor]. Qed.

Check (C13_coherent : forall pt_ok maxvec H Htag spent t ops,
  Forall (consistent_prevouts spent) ops ->
  run pt_ok maxvec H Htag (init t) ops = fresh_answers pt_ok maxvec H Htag t ops).
Check (C13_acp_one : forall pt_ok maxvec H Htag s spent idx o annex leaf ty g,
  schnorr_acp ty = true -> length spent = length (tx_in (st_tx s)) -> nth_error spent idx = Some o ->
  taproot_encode pt_ok maxvec H idx (POne idx o) annex leaf ty g s = taproot_encode pt_ok maxvec H idx (PAll spent) annex leaf ty g s /\
  taproot_sighash pt_ok maxvec H Htag idx (POne idx o) annex leaf ty g s = taproot_sighash pt_ok maxvec H Htag idx (PAll spent) annex leaf ty g s).
Check (C13_need_all : forall pt_ok maxvec H s idx j o annex leaf ty g, schnorr_acp ty = false ->
  snd (taproot_encode pt_ok maxvec H idx (POne j o) annex leaf ty g s) = SErr PrevoutKind).
Check (C13_caches_ignore_script_witness : forall pt_ok maxvec H t spent i w,
  compute_common pt_ok maxvec H (set_script_witness t i w) = compute_common pt_ok maxvec H t /\
  compute_taproot pt_ok maxvec H (set_script_witness t i w) spent = compute_taproot pt_ok maxvec H t spent).
Check (C13_witness_independent : forall pt_ok maxvec H Htag ops ops' t t', tx_sig_eq t t' -> Forall2 op_sim ops ops' ->
  run pt_ok maxvec H Htag (init t) ops = run pt_ok maxvec H Htag (init t') ops').
Print Assumptions C13_coherent.
Print Assumptions C13_witness_independent.
Print Assumptions C13_acp_one.
Print Assumptions C13_need_all.

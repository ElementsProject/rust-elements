(* C17 — segwit address checksums detect every one- and two-character corruption.
   Only statements; proofs live in Proofs/Bech32.v (engine, syndrome, distance), Proofs/Bech32Codes.v (the certificates evaluated
   for the four codes), Proofs/Address.v and Proofs/AddressB58.v (lifting to address strings, every network), Proofs/AddressCase.v
   (letter case) and Proofs/AddressHrp.v (replaced human-readable part). *)
From Coq Require Import List NArith Bool Lia.
From Coq.Strings Require Import Byte.
From EV Require Import Base.Bytes Model.Bech32 Model.Base58 Model.Address Proofs.Bech32 Proofs.Bech32Codes Proofs.Address Proofs.AddressB58 Proofs.AddressCase Proofs.AddressHrp.
Import ListNotations.
Open Scope N_scope.

(* the engine step is GF(2)-linear in (state, symbol) — for every generator table and shift *)
Theorem C17_linear : forall (gen : list N) (sh s s' v v' : N), v < 32 -> v' < 32 ->
  step gen sh (N.lxor s s') (N.lxor v v') = N.lxor (step gen sh s v) (step gen sh s' v').
Proof. exact step_linear. Qed.

(* the residue of a corrupted word is the residue of the word xor the syndrome of the error pattern; the syndrome is the xor
   over the positions of Z^(distance from the end) applied to the error value, Z = "feed a zero symbol" (Proofs.Bech32.syn) *)
Theorem C17_syndrome : forall (c : code) (s : N) (w e : list N), length w = length e -> sym_word w -> sym_word e ->
  feed c s (xorl w e) = N.lxor (feed c s w) (syn (c_gen c) (shift_of c) e).
Proof. intros c s w e. exact (feed_syndrome (c_gen c) (shift_of c) s w e). Qed.

(* for each of bech32, bech32m, blech32, blech32m the 31 * 1023 values Z^a(u), u = 1..31, a < 1023, are pairwise distinct and non-zero;
   derived from the evaluated certificate code_ok (Proofs.Bech32.table_ok_complete).  1023 is sharp: the same test is false for 1024. *)
Theorem C17_table : forallb (fun c => table_ok (c_gen c) (shift_of c) 1023) [bech32; bech32m; blech32; blech32m] = true.
Proof. exact tables_ok. Qed.

(* a word of total length <= 1023 (HRP expansion, data and checksum symbols) at Hamming distance 1 or 2 from a codeword is not
   a codeword — for each of the four codes *)
Theorem C17_two_errors : forall c, In c [bech32; bech32m; blech32; blech32m] ->
  forall w w', sym_word w -> sym_word w' -> length w = length w' -> (length w <= 1023)%nat -> (1 <= hamming w w' <= 2)%nat ->
  valid_codeword c w = true -> valid_codeword c w' = false.
Proof. exact two_errors_codes. Qed.

(* a corrupted witness-version character selects the other checksum variant; no word within distance 2 of a codeword of one
   variant is a codeword of the other (kernel sweep of T and D xor T, D = xor of the two target residues; lengths <= 175 for the
   bech32 pair — the sweep is false from 200 on — and <= 400 for the blech32 pair; accepted strings are shorter, see C17_addr_len) *)
Theorem C17_switch : forall c0 cm L, (c0, cm, L) = (bech32, bech32m, 175%nat) \/ (c0, cm, L) = (blech32, blech32m, 400%nat) ->
  forall w w', sym_word w -> sym_word w' -> length w = length w' -> (length w <= L)%nat -> (hamming w w' <= 2)%nat ->
  (valid_codeword c0 w = true -> valid_codeword cm w' = false) /\ (valid_codeword cm w = true -> valid_codeword c0 w' = false).
Proof. exact switch_codes. Qed.

(* every string either decoder accepts gives a checksummed word (2|hrp| + 1 + |data| symbols) within those bounds *)
Theorem C17_addr_len : forall s r h d, rsplit x31 s = Some (h, d) ->
  (segwit_decode cfg_bech s = Ok r -> (2 * length h + 1 + length d <= 175)%nat) /\
  (segwit_decode cfg_blech s = Ok r -> (2 * length h + 1 + length d <= 400)%nat).
Proof. intros s r h d R. split; intros E; [exact (bound_bech s r h d E R)|exact (bound_blech s r h d E R)]. Qed.

(* Address level.  `data_edit s s'`: s' keeps everything up to and including the last '1' of s and replaces the data part by an
   equally long string of bech32 characters whose symbols differ in one or two positions (the witness-version character is
   the first data symbol).  If s parses as a segwit address under a built-in network p, then s' is rejected by FromStr and by
   parse_with_params under p; under the other built-in networks it is rejected as well unless it is a valid base58check
   string for the (abstract) hash H — that residual disjunct cannot be excluded without properties of SHA-256 (partial). *)
Theorem C17_address : forall (H : bytes -> bytes) (pk_valid : bytes -> bool) p s a s',
  In p builtin -> parse_with_params H pk_valid s p = AOk a -> is_segwit a -> data_edit s s' ->
  (exists e, from_str H pk_valid s' = AErr e) /\ (exists e, parse_with_params H pk_valid s' p = AErr e).
Proof. intros H pkv p s a s' Ip E SW ED. destruct (address_corrupt H pkv p s a s' Ip E SW ED) as (e & A & B). eauto. Qed.
Theorem C17_address_other_network_partial : forall (H : bytes -> bytes) (pk_valid : bytes -> bool) p s a s',
  In p builtin -> parse_with_params H pk_valid s p = AOk a -> is_segwit a -> data_edit s s' ->
  forall p', In p' builtin -> (exists e, parse_with_params H pk_valid s' p' = AErr e) \/ (exists d, b58_decode_check H s' = Ok58 d).
Proof. intros H pkv p s a s' Ip E SW ED p' Ip'. left. exact (address_corrupt_every_network H pkv p s a s' Ip E SW ED p' Ip'). Qed.
(* ... and that residual disjunct is in fact impossible (by C06's first-character sweep, Proofs/AddressB58.v): the corrupted text keeps
   its HRP, and a text that base58check-decodes to a version byte of a built-in network with the length from_base58 demands never has a
   built-in HRP as its prefix.  So s' is rejected under EVERY built-in network, for every hash function. *)
Theorem C17_address_every_network : forall (H : bytes -> bytes) (pk_valid : bytes -> bool) p s a s',
  In p builtin -> parse_with_params H pk_valid s p = AOk a -> is_segwit a -> data_edit s s' ->
  forall p', In p' builtin -> exists e, parse_with_params H pk_valid s' p' = AErr e.
Proof. exact address_corrupt_every_network. Qed.
(* a segwit address accepted by FromStr is accepted by parse_with_params of one built-in network, so C17_address applies to it *)
Theorem C17_from_str_is_builtin : forall (H : bytes -> bytes) (pk_valid : bytes -> bool) s a,
  from_str H pk_valid s = AOk a -> is_segwit a -> exists p, In p builtin /\ parse_with_params H pk_valid s p = AOk a.
Proof. intros H pkv s a E _. exact (from_str_is_parse H pkv s a E). Qed.

(* HRP clause, case part (proved, unbounded).  mixed_case s: s has an upper-case and a lower-case ASCII letter anywhere, human-readable
   part included.  Such a string is rejected by check_characters of either decoder (upstream bech32 crate and src/blech32/decode.rs share the
   model function), so it never parses as a segwit address — under any parameters and through FromStr; where its prefix matches an HRP of the
   network it is an error outright.  In particular replacing letters of the human-readable part by their other-case forms (one, two or all
   of them: `EL1qq0umk...`, `Lq1...`, `eX1...`) while the data part keeps a letter of the original case never yields a string that parses. *)
Theorem C17_mixed_case : forall cfg s, mixed_case s = true ->
  segwit_decode cfg s = Err ETooLong \/ segwit_decode cfg s = Err EInvalidChar \/ segwit_decode cfg s = Err EMixedCase.
Proof. exact segwit_decode_mixed. Qed.
Theorem C17_mixed_case_address : forall (H : bytes -> bytes) (pk_valid : bytes -> bool) s p, mixed_case s = true ->
  (forall a, parse_with_params H pk_valid s p = AOk a -> ~ is_segwit a) /\
  (segwit_path s p = true -> exists e, parse_with_params H pk_valid s p = AErr e) /\
  (forall a, from_str H pk_valid s = AOk a -> ~ is_segwit a).
Proof. exact mixed_case_rejected. Qed.
Theorem C17_hrp_case : forall (H : bytes -> bytes) (pk_valid : bytes -> bool) h d p,
  (existsb is_upper h = true /\ existsb is_lower d = true) \/ (existsb is_lower h = true /\ existsb is_upper d = true) ->
  (forall a, parse_with_params H pk_valid (h ++ x31 :: d) p = AOk a -> ~ is_segwit a) /\ (forall a, from_str H pk_valid (h ++ x31 :: d) = AOk a -> ~ is_segwit a).
Proof. exact hrp_case_rejected. Qed.

(* HRP clause, replacements other than a change of letter case.  hrp_edit s s': s' is s with the human-readable part (everything before
   the last '1') replaced by an equally long string that is not a re-casing of it — any number of characters, the separator included.
   If s parses as a segwit address under a built-in network then s' is rejected by FromStr and by parse_with_params under EVERY built-in
   network, except in two residual situations that are stated explicitly because no proof over an abstract hash / over two unrelated
   generator polynomials can exclude them:
     hrp_residual_base58 H pk_valid s' — the new prefix matches no built-in HRP (then every parser takes the base58check branch) AND every
       character of s', the segwit data and checksum characters included, is a base58 character AND s' base58check-decodes (4-byte checksum
       of the hash H) to a payload that from_base58 accepts for a built-in network.  Impossible as soon as the data part contains a `0` or
       an `l` (upper-case form: a `0`), the bech32 characters outside the base58 alphabet: all but about (30/32)^n of the addresses;
     hrp_residual_cross pk_valid a s' — the new prefix is the HRP of the OTHER checksum family of a built-in network (ex <-> lq, el;
       tex <-> tlq) AND the unchanged symbols are also a valid address there (a bech32(m) codeword behind the old HRP and a blech32(m)
       codeword, 12 instead of 6 checksum symbols, behind the new one, or the reverse); the length rules of the two decoders leave only an
       unblinded 40-byte program re-read as blinding key + 3-byte program, or the reverse.
   Everything else is proved: a new prefix that is a built-in HRP of the SAME family (ert <-> tex, lq <-> el) is rejected for every data
   part (C17_hrp_swap: for each of the four codes and each of the 12 ordered pairs of different built-in HRPs of equal
   length, the difference D of the residues after the two HRP expansions is not zero, and Z^n(D) <> 0 for every n because feeding a
   zero is injective); other networks never read s' as base58check when its prefix is a built-in HRP (C06's
   first-character sweep). *)
Theorem C17_hrp : forall (H : bytes -> bytes) (pk_valid : bytes -> bool) p s a s',
  In p builtin -> parse_with_params H pk_valid s p = AOk a -> is_segwit a -> hrp_edit s s' ->
  ((exists e, from_str H pk_valid s' = AErr e) /\ forall p', In p' builtin -> exists e, parse_with_params H pk_valid s' p' = AErr e)
  \/ hrp_residual_base58 H pk_valid s' \/ hrp_residual_cross pk_valid a s'.
Proof. exact hrp_replaced. Qed.
(* no residual when the string has a character outside the base58 alphabet and the program is not 3 or 40 bytes long (every standard
   address: 20- and 32-byte programs whose text contains a `0` or an `l`) *)
Theorem C17_hrp_common : forall (H : bytes -> bytes) (pk_valid : bytes -> bool) p s a s',
  In p builtin -> parse_with_params H pk_valid s p = AOk a -> is_segwit a -> hrp_edit s s' ->
  (exists c, In c s' /\ b58_digit c = None) -> prog_len a <> 40%nat -> prog_len a <> 3%nat ->
  (exists e, from_str H pk_valid s' = AErr e) /\ forall p', In p' builtin -> exists e, parse_with_params H pk_valid s' p' = AErr e.
Proof. exact hrp_replaced_common. Qed.
(* the fact behind the same-family case, as a statement about codewords: the same symbols are never a codeword behind two
   different built-in HRPs of equal length — each of the four codes (the bound on the length is not used) *)
Theorem C17_hrp_swap : forall c h1 h2 w, In c [bech32; bech32m; blech32; blech32m] -> In (h1, h2) hrp_pairs -> sym_word w -> (length w <= 1023)%nat ->
  valid_codeword c (hrp_expand h1 ++ w) = true -> valid_codeword c (hrp_expand h2 ++ w) = false.
Proof. intros c h1 h2 w Ic Ip Sw _. exact (hrp_swap_invalid c h1 h2 w Ic Ip Sw). Qed.
(* the pairs: all ordered pairs of different built-in HRPs of equal length *)
Example C17_hrp_pairs : hrp_pairs =
  [(("ex"%lb : bytes), ("lq"%lb : bytes)); (("ex"%lb : bytes), ("el"%lb : bytes)); (("lq"%lb : bytes), ("ex"%lb : bytes)); (("lq"%lb : bytes), ("el"%lb : bytes)); (("ert"%lb : bytes), ("tex"%lb : bytes)); (("ert"%lb : bytes), ("tlq"%lb : bytes)); (("el"%lb : bytes), ("ex"%lb : bytes)); (("el"%lb : bytes), ("lq"%lb : bytes)); (("tex"%lb : bytes), ("ert"%lb : bytes)); (("tex"%lb : bytes), ("tlq"%lb : bytes)); (("tlq"%lb : bytes), ("ert"%lb : bytes)); (("tlq"%lb : bytes), ("tex"%lb : bytes))].
Proof. vm_compute. reflexivity. Qed.

(* non-vacuity: a real address, a one-symbol corruption of it, and the hypotheses of C17_address hold for them *)
Example C17_nonvacuous :
  let s := "ert1qwhh2n5qypypm0eufahm2pvj8raj9zq5c27cysu"%lb in let s' := "ert1qwhh2n5qypypm0eufahm2pvj8raj9zq5c27cysy"%lb in
  (exists a, parse_with_params (fun _ => []) (fun _ => true) s ELEMENTS = AOk a /\ is_segwit a) /\ In ELEMENTS builtin /\ data_edit s s'.
Proof. cbv zeta. split; [|split].
  - eexists. split; [vm_compute; reflexivity|]. eexists _, _. reflexivity.
  - cbn. tauto.
  - unfold data_edit. eexists _, _, _, _, _. split; [vm_compute; reflexivity|]. split; [reflexivity|].
    split; [vm_compute; reflexivity|]. split; [vm_compute; reflexivity|]. split; [reflexivity|]. vm_compute. lia. Qed.
(* non-vacuity of the case theorems: the witness of seeded change C17-2 — both letters of `el` in upper case, lower-case data part — is a
   mixed-case string whose prefix matches ELEMENTS' blinded HRP, and its lower-case form is a valid blinded address *)
Example C17_nonvacuous_mixed_case :
  let s := "EL1qq0umk3pez693jrrlxz9ndlkuwne93gdu9g83mhhzuyf46e3mdzfpva0w48gqgzgrklncnm0k5zeyw8my2ypfsmxh4xcjh2rse"%lb in
  mixed_case s = true /\ segwit_path s ELEMENTS = true /\
  (exists a, parse_with_params (fun _ => []) (fun _ => true) (lower s) ELEMENTS = AOk a /\ is_segwit a) /\
  (exists e, parse_with_params (fun _ => []) (fun _ => true) s ELEMENTS = AErr e).
Proof. cbv zeta. split; [vm_compute; reflexivity|]. split; [vm_compute; reflexivity|]. split.
  - eexists. split; [vm_compute; reflexivity|]. eexists _, _. reflexivity.
  - eexists. vm_compute. reflexivity. Qed.
(* non-vacuity of C17_hrp: `ert` replaced by `tex` (three characters, same family) and by `zzz` (no built-in HRP) on a real address *)
Example C17_nonvacuous_hrp :
  let s := "ert1qwhh2n5qypypm0eufahm2pvj8raj9zq5c27cysu"%lb in
  (exists a, parse_with_params (fun _ => []) (fun _ => true) s ELEMENTS = AOk a /\ is_segwit a) /\ In ELEMENTS builtin /\
  hrp_edit s "tex1qwhh2n5qypypm0eufahm2pvj8raj9zq5c27cysu"%lb /\ hrp_edit s "zzz1qwhh2n5qypypm0eufahm2pvj8raj9zq5c27cysu"%lb /\
  (exists c, In c "zzz1qwhh2n5qypypm0eufahm2pvj8raj9zq5c27cysu"%lb /\ b58_digit c = None).
Proof. cbv zeta. split; [|split; [|split; [|split]]].
  - eexists. split; [vm_compute; reflexivity|]. eexists _, _. reflexivity.
  - cbn. tauto.
  - exists ("ert"%lb : bytes), ("tex"%lb : bytes), ("qwhh2n5qypypm0eufahm2pvj8raj9zq5c27cysu"%lb : bytes). split; [vm_compute; reflexivity|]. split; [reflexivity|]. split; reflexivity.
  - exists ("ert"%lb : bytes), ("zzz"%lb : bytes), ("qwhh2n5qypypm0eufahm2pvj8raj9zq5c27cysu"%lb : bytes). split; [vm_compute; reflexivity|]. split; [reflexivity|]. split; reflexivity.
  - exists x30. split; [cbn; tauto|reflexivity]. Qed.
Example C17_nonvacuous_codeword : exists w, sym_word w /\ (length w <= 1023)%nat /\ valid_codeword blech32m w = true.
Proof. exists (hrp_expand "lq"%lb ++ [1; 2; 3] ++ checksum_syms blech32m (hrp_expand "lq"%lb ++ [1; 2; 3])). split; [|split].
  - vm_compute. repeat constructor. - vm_compute. lia. - vm_compute. reflexivity. Qed.

Check (C17_two_errors : forall c, In c [bech32; bech32m; blech32; blech32m] ->
  forall w w', sym_word w -> sym_word w' -> length w = length w' -> (length w <= 1023)%nat -> (1 <= hamming w w' <= 2)%nat ->
  valid_codeword c w = true -> valid_codeword c w' = false).
Check (C17_switch : forall c0 cm L, (c0, cm, L) = (bech32, bech32m, 175%nat) \/ (c0, cm, L) = (blech32, blech32m, 400%nat) ->
  forall w w', sym_word w -> sym_word w' -> length w = length w' -> (length w <= L)%nat -> (hamming w w' <= 2)%nat ->
  (valid_codeword c0 w = true -> valid_codeword cm w' = false) /\ (valid_codeword cm w = true -> valid_codeword c0 w' = false)).
Check (C17_address : forall (H : bytes -> bytes) (pk_valid : bytes -> bool) p s a s',
  In p builtin -> parse_with_params H pk_valid s p = AOk a -> is_segwit a -> data_edit s s' ->
  (exists e, from_str H pk_valid s' = AErr e) /\ (exists e, parse_with_params H pk_valid s' p = AErr e)).
Check (C17_hrp : forall (H : bytes -> bytes) (pk_valid : bytes -> bool) p s a s',
  In p builtin -> parse_with_params H pk_valid s p = AOk a -> is_segwit a -> hrp_edit s s' ->
  ((exists e, from_str H pk_valid s' = AErr e) /\ forall p', In p' builtin -> exists e, parse_with_params H pk_valid s' p' = AErr e)
  \/ hrp_residual_base58 H pk_valid s' \/ hrp_residual_cross pk_valid a s').
Print Assumptions C17_linear.
Print Assumptions C17_syndrome.
Print Assumptions C17_table.
Print Assumptions C17_two_errors.
Print Assumptions C17_switch.
Print Assumptions C17_addr_len.
Print Assumptions C17_address.
Print Assumptions C17_address_other_network_partial.
Print Assumptions C17_address_every_network.
Print Assumptions C17_from_str_is_builtin.
Print Assumptions C17_mixed_case.
Print Assumptions C17_mixed_case_address.
Print Assumptions C17_hrp_case.
Print Assumptions C17_hrp.
Print Assumptions C17_hrp_common.
Print Assumptions C17_hrp_swap.

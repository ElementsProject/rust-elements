(* C16 — scripts built by the builder parse back exactly; minimal pushes; script numbers; standard templates;
   Address::from_script agrees with the templates.  Only statements; proofs live in Proofs/Script.v,
   Proofs/ScriptTemplates.v, Proofs/SrcScript.v and Proofs/SrcAddr.v.  The model (Model/Script.v) is tied to src/script.rs, src/opcodes.rs, src/address.rs by
   the per-run correspondence check; opcode values come from Gen/Tables.v, while the statements below spell the byte
   forms as literals, so a changed opcode constant breaks a proof here.

   Quantifiers: every profile (overflow checks on/off), every finite list of builder operations (`bop`: push_int,
   push_scriptint, push_slice of any length, push_opcode, push_verify), every byte string. No bound anywhere. *)
From Coq Require Import List NArith ZArith Bool.
From Coq.Strings Require Import Byte.
From EV Require Import Base.Bytes Gen.Tables Model.Script Proofs.Script Proofs.ScriptTemplates.
From EV Require Gen.SrcScript Proofs.SrcScript Gen.SrcAddr Proofs.SrcAddr.
Import ListNotations.
Open Scope N_scope.

(* `op_ok`: integers are i64 values and raw opcodes are not the push opcodes 0x01..0x4e (whose operand would swallow
   what follows).  `expected` (Model/Script.v) lists the pushes and opcodes that were added, with the push_int special
   cases and VERIFY folding written out over literal bytes. *)
Theorem C16_readback : forall (p : profile) (ops : list bop) (s : bytes),
  forallb op_ok ops = true -> build p ops = Val s -> instructions false s = expected p ops.
Proof. exact readback. Qed.

(* the builder returns a script unless an operation panics: a slice of 2^32 bytes or more, or i64::MIN with overflow
   checks on (`-n` in build_scriptint) *)
Theorem C16_build_total : forall (p : profile) (ops : list bop), forallb op_ok ops = true ->
  ((exists w, build p ops = Panic w) <-> exists op, In op ops /\ op_panics p op).
Proof. exact build_panic_iff. Qed.

(* iteration never reports the model's fuel bound or classify's unwrap panic, on any byte string *)
Theorem C16_iter_total : forall (minimal : bool) (s : bytes) (i : item),
  In i (instructions minimal s) -> match i with IPanic _ | IFuel => False | _ => True end.
Proof. exact instructions_clean. Qed.

(* all four header forms decode to the same push ... *)
Theorem C16_push_forms_decode : forall (h d rest : bytes), valid_header h (lenN d) ->
  next false (h ++ d ++ rest) = Some (IPush d, rest).
Proof. intros h d rest V. rewrite (next_valid false h d rest V). reflexivity. Qed.
(* ... and push_slice writes the shortest one *)
Theorem C16_min_push : forall (n : N) (h : bytes), push_header n = Val h ->
  valid_header h n /\ forall h', valid_header h' n -> (length h <= length h')%nat.
Proof. exact push_header_shortest. Qed.
(* instructions_minimal on a built script: stops with NonMinimalPush at the first pushed one-byte slice in {1..16, 0x81},
   succeeds iff there is none (`bad_op`: such a push_slice, or push_scriptint of -1 / 1..16), and then equals instructions *)
Theorem C16_min_iter : forall (p : profile) (ops : list bop) (s : bytes),
  forallb op_ok ops = true -> build p ops = Val s ->
  instructions true s = cut_nonminimal (expected p ops) /\
  ((forall i, In i (instructions true s) -> is_err i = false) <-> (forall op, In op ops -> bad_op op = false)) /\
  ((forall op, In op ops -> bad_op op = false) -> instructions true s = instructions false s).
Proof. exact minimal_iter. Qed.

Theorem C16_scriptint : forall (p : profile) (n : Z), (- 2 ^ 31 < n < 2 ^ 31)%Z ->
  exists e, build_scriptint p n = Val e /\ read_scriptint e = SOk n.
Proof. exact scriptint_roundtrip. Qed.
Theorem C16_scriptint_overflow : forall (p : profile) (n : Z), in_i64 n = true -> (2 ^ 31 <= Z.abs n)%Z ->
  (p = Release \/ n <> i64_min) -> exists e, build_scriptint p n = Val e /\ read_scriptint e = SErr NumericOverflow.
Proof. exact scriptint_overflow. Qed.
Theorem C16_scriptint_min : forall (p : profile) (n : Z), in_i64 n = true ->
  ((exists w, build_scriptint p n = Panic w) <-> (p = Debug /\ n = i64_min)).
Proof. exact build_scriptint_panic_iff. Qed.
(* what `expected` shows for push_int n: the dedicated opcode for -1 / 1..16, otherwise a push that read_scriptint reads
   back to n (so C16_readback says: integers pushed as script numbers read back to the same value) *)
Theorem C16_int_reads_back : forall (p : profile) (n : Z), (- 2 ^ 31 < n < 2 ^ 31)%Z ->
  match int_item p n with
  | IPush e => read_scriptint e = SOk n /\ special_small n = false
  | IOp c => (n = -1 /\ c = x4f)%Z \/ ((1 <= n <= 16)%Z /\ b2n c = Z.to_N (0x50 + n))
  | _ => False end.
Proof. exact int_item_reads_back. Qed.
(* read_scriptint is the sign-magnitude reading of at most four bytes *)
Theorem C16_read_scriptint : forall v : bytes,
  read_scriptint v = if Nat.ltb 4 (length v) then SErr NumericOverflow else SOk (sm_val v).
Proof. exact read_scriptint_spec. Qed.

(* the template predicates of the model are, one by one, the functions TRANSLATED from src/script.rs on every run (Gen/SrcScript.v, rust2coq):
   a change of meaning of any of them in the source stops Proofs/SrcScript.v from compiling *)
Theorem C16_templates_from_source : forall s : bytes,
  SrcScript.src_Script_is_p2sh s = is_p2sh s /\ SrcScript.src_Script_is_p2pkh s = is_p2pkh s /\ SrcScript.src_Script_is_p2pk s = is_p2pk s
  /\ SrcScript.src_Script_is_witness_program s = is_witness_program s /\ SrcScript.src_Script_is_v0_p2wsh s = is_v0_p2wsh s
  /\ SrcScript.src_Script_is_v1_p2tr s = is_v1_p2tr s /\ SrcScript.src_Script_is_v1plus_p2witprog s = is_v1plus_p2witprog s
  /\ SrcScript.src_Script_is_v0_p2wpkh s = is_v0_p2wpkh s /\ SrcScript.src_Script_is_op_return s = is_op_return s
  /\ SrcScript.src_Script_is_provably_unspendable s = is_provably_unspendable s.
Proof. intros s. repeat split; auto using SrcScript.src_is_p2sh, SrcScript.src_is_p2pkh, SrcScript.src_is_p2pk, SrcScript.src_is_witness_program,
  SrcScript.src_is_v0_p2wsh, SrcScript.src_is_v1_p2tr, SrcScript.src_is_v1plus_p2witprog, SrcScript.src_is_v0_p2wpkh, SrcScript.src_is_op_return,
  SrcScript.src_is_provably_unspendable. Qed.
(* Address::from_script itself, from the source text: the chain of template tests, the payload constructor, the byte range and the witness-version
   expression of every arm are read from src/address.rs on every run (Gen/SrcAddr.v); the result is the model's from_script on EVERY script *)
Theorem C16_from_script_from_source : forall s : bytes,
  from_script s = Val (SrcAddr.payload_of (SrcAddr.src_from_script s)).
Proof. exact SrcAddr.src_from_script_is_model. Qed.
Theorem C16_from_script_roundtrip_from_source : forall p s r, SrcAddr.src_from_script s = Some r ->
  script_pubkey p (match SrcAddr.payload_of (Some r) with Some a => a | None => PubkeyHash [] end) = Val s.
Proof. exact SrcAddr.src_from_script_roundtrip. Qed.
Theorem C16_templates : forall s : bytes,
  (is_p2pkh s = true <-> exists h, length h = 20%nat /\ s = x76 :: xa9 :: x14 :: h ++ [x88; xac]) /\
  (is_p2sh s = true <-> exists h, length h = 20%nat /\ s = xa9 :: x14 :: h ++ [x87]) /\
  (is_p2pk s = true <-> (exists k, length k = 65%nat /\ s = x41 :: k ++ [xac]) \/ (exists k, length k = 33%nat /\ s = x21 :: k ++ [xac])) /\
  (is_witness_program s = true <->
     exists v prog, (v = x00 \/ 0x51 <= b2n v <= 0x60) /\ 2 <= lenN prog <= 40 /\ s = v :: n2b (lenN prog) :: prog) /\
  (is_v0_p2wpkh s = true <-> exists h, length h = 20%nat /\ s = x00 :: x14 :: h) /\
  (is_v0_p2wsh s = true <-> exists h, length h = 32%nat /\ s = x00 :: x20 :: h) /\
  (is_v1_p2tr s = true <-> exists h, length h = 32%nat /\ s = x51 :: x20 :: h) /\
  (is_op_return s = true <-> exists r, s = x6a :: r) /\
  (is_provably_unspendable s = true <-> s = [] \/ (exists r, s = x6a :: r) \/ 10000 < lenN s).
Proof. intros s. exact (conj (is_p2pkh_iff s) (conj (is_p2sh_iff s) (conj (is_p2pk_iff s) (conj (is_witness_program_iff s) (conj (is_v0_p2wpkh_iff s)
  (conj (is_v0_p2wsh_iff s) (conj (is_v1_p2tr_iff s) (conj (is_op_return_iff s) (is_provably_unspendable_iff s))))))))). Qed.

(* version 1..16 with a 2..40 byte program (holds for every byte string since the repair of finding F14, commit 0a76697:
   the predicate now has the lower bound 2) *)
Theorem C16_v1plus : forall s : bytes,
  is_v1plus_p2witprog s = true <-> exists v prog, 0x51 <= b2n v <= 0x60 /\ 2 <= lenN prog <= 40 /\ s = v :: n2b (lenN prog) :: prog.
Proof. exact is_v1plus_p2witprog_iff. Qed.

(* never panics *)
Theorem C16_from_script_total : forall s : bytes, exists r, from_script s = Val r.
Proof. exact from_script_total. Qed.
(* an address is derived exactly for the templates *)
Theorem C16_from_script : forall s : bytes, (exists a, from_script s = Val (Some a)) <-> address_template s.
Proof. exact from_script_some_iff. Qed.
(* the derived address's output script is the original script, and its payload is one whose text form round-trips *)
Theorem C16_from_script_roundtrip : forall (p : profile) (s : bytes) (a : payload), from_script s = Val (Some a) ->
  script_pubkey p a = Val s /\ payload_wf a = true.
Proof. intros p s a F. split; [exact (from_script_spk p s a F)|exact (from_script_wf s a F)]. Qed.

(* "its text form parses back to the same address": relative to the address codec, which is property C06.
   `display`/`parse` stand for Address's Display/FromStr restricted to the payload (network and blinding key fixed);
   C06_roundtrip is C06's round-trip theorem for well-formed payloads. *)
Section TextForm.
  Variable display : payload -> bytes.
  Variable parse : bytes -> option payload.
  Hypothesis C06_roundtrip : forall a, payload_wf a = true -> parse (display a) = Some a.
  Theorem C16_from_script_text : forall (s : bytes) (a : payload), from_script s = Val (Some a) -> parse (display a) = Some a.
  Proof. intros s a F. apply C06_roundtrip. exact (from_script_wf s a F). Qed.
End TextForm.

(* a program that folds one VERIFY, keeps another, special-cases integers and crosses the 75/76 boundary *)
Example C16_example_program :
  let ops := [BInt 0; BInt (-1); BInt 16; BInt 17; BSlice [xaa; xbb]; BOpcode x87; BVerify; BVerify; BSlice (repeat x07 76); BOpcode xac; BVerify] in
  forallb op_ok ops = true /\
  build Debug ops = Val ([x00; x4f; x60; x01; x11; x02; xaa; xbb; x88; x69; x4c; x4c] ++ repeat x07 76 ++ [xad]) /\
  expected Debug ops = [IPush []; IOp x4f; IOp x60; IPush [x11]; IPush [xaa; xbb]; IOp x88; IOp x69; IPush (repeat x07 76); IOp xad].
Proof. repeat split; vm_compute; reflexivity. Qed.
Example C16_example_nonminimal :
  instructions true [x01; x05; xac] = [IErr NonMinimalPush] /\ instructions false [x01; x05; xac] = [IPush [x05]; IOp xac]
  /\ build Debug [BScriptInt 5; BOpcode xac] = Val [x01; x05; xac].
Proof. repeat split. Qed.
Example C16_example_scriptint :
  build_scriptint Debug (-255) = Val [xff; x80] /\ read_scriptint [xff; x80] = SOk (-255)%Z /\
  build_scriptint Release i64_min = Val [x00; x00; x00; x00; x00; x00; x00; x80; x80] /\ build_scriptint Debug i64_min = Panic PNegOverflow.
Proof. repeat split. Qed.
Example C16_example_templates :
  is_p2sh (xa9 :: x14 :: repeat x33 20 ++ [x87]) = true /\ address_template (xa9 :: x14 :: repeat x33 20 ++ [x87]) /\
  from_script (xa9 :: x14 :: repeat x33 20 ++ [x87]) = Val (Some (ScriptHash (repeat x33 20))) /\
  (* the former F14 witnesses are no longer given an address; the shortest v1+ program is *)
  from_script [x51; x01; xaa] = Val None /\ from_script [x60; x00] = Val None /\
  from_script [x51; x02; xaa; xbb] = Val (Some (WitnessProgram 1 [xaa; xbb])).
Proof. repeat split. right; left. exists (repeat x33 20). split; reflexivity. Qed.

Check (C16_readback : forall (p : profile) (ops : list bop) (s : bytes),
  forallb op_ok ops = true -> build p ops = Val s -> instructions false s = expected p ops).
Check (C16_min_push : forall (n : N) (h : bytes), push_header n = Val h ->
  valid_header h n /\ forall h', valid_header h' n -> (length h <= length h')%nat).
Check (C16_min_iter : forall (p : profile) (ops : list bop) (s : bytes),
  forallb op_ok ops = true -> build p ops = Val s ->
  instructions true s = cut_nonminimal (expected p ops) /\
  ((forall i, In i (instructions true s) -> is_err i = false) <-> (forall op, In op ops -> bad_op op = false)) /\
  ((forall op, In op ops -> bad_op op = false) -> instructions true s = instructions false s)).
Check (C16_scriptint : forall (p : profile) (n : Z), (- 2 ^ 31 < n < 2 ^ 31)%Z ->
  exists e, build_scriptint p n = Val e /\ read_scriptint e = SOk n).
Check (C16_scriptint_overflow : forall (p : profile) (n : Z), in_i64 n = true -> (2 ^ 31 <= Z.abs n)%Z ->
  (p = Release \/ n <> i64_min) -> exists e, build_scriptint p n = Val e /\ read_scriptint e = SErr NumericOverflow).
Check (C16_v1plus : forall s : bytes,
  is_v1plus_p2witprog s = true <-> exists v prog, 0x51 <= b2n v <= 0x60 /\ 2 <= lenN prog <= 40 /\ s = v :: n2b (lenN prog) :: prog).
Check (C16_from_script : forall s : bytes, (exists a, from_script s = Val (Some a)) <-> address_template s).
Check (C16_from_script_roundtrip : forall (p : profile) (s : bytes) (a : payload), from_script s = Val (Some a) ->
  script_pubkey p a = Val s /\ payload_wf a = true).
Check (C16_from_script_text : forall (display : payload -> bytes) (parse : bytes -> option payload),
  (forall a, payload_wf a = true -> parse (display a) = Some a) ->
  forall (s : bytes) (a : payload), from_script s = Val (Some a) -> parse (display a) = Some a).
Print Assumptions C16_readback.
Print Assumptions C16_build_total.
Print Assumptions C16_iter_total.
Print Assumptions C16_push_forms_decode.
Print Assumptions C16_min_push.
Print Assumptions C16_min_iter.
Print Assumptions C16_scriptint.
Print Assumptions C16_scriptint_overflow.
Print Assumptions C16_scriptint_min.
Print Assumptions C16_int_reads_back.
Print Assumptions C16_read_scriptint.
Print Assumptions C16_templates.
Print Assumptions C16_v1plus.
Print Assumptions C16_from_script_total.
Print Assumptions C16_from_script.
Print Assumptions C16_from_script_roundtrip.
Print Assumptions C16_from_script_text.
Check (C16_from_script_from_source : forall s : bytes, from_script s = Val (SrcAddr.payload_of (SrcAddr.src_from_script s))).
Print Assumptions C16_from_script_from_source.
Print Assumptions C16_from_script_roundtrip_from_source.

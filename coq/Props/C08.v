(* C08 — PSET and transaction views agree; unique id; BIP370 lock time.  Only statements; proofs in Proofs/PsetTx.v.
   Read from the Rust source on every run (Gen/Tables.v): locktime_arms (arm order of the final match of locktime()),
   uid_cleared_txin_fields (what unique_id() resets), is_pegin_exempts_coinbase, and the PSET field lists. *)
From Coq Require Import List NArith Bool.
From Coq.Strings Require Import Byte.
From EV Require Import Base.Bytes Gen.Tables Model.PsetMap Model.PsetTx Proofs.PsetMap Proofs.PsetTx.
Import ListNotations.
Open Scope N_scope.

(* the arm order found in the source is one of the two this development knows (before / after the F6 repair) *)
Lemma C08_arms_known : arms_known locktime_arms.
Proof. first [left; reflexivity | right; reflexivity]. Qed.

(* locktime() = BIP370 (Model/PsetTx.v `bip370`, written from the BIP text) for every PSET: any number of inputs, any requirements, any values.
   (Before the F6 repair the source tested the time arm first and the class `known_F6` had to be excluded; the arm list is re-read from the
   source on every run, and `known_F6 locktime_arms p` is now unsatisfiable.) *)
Lemma C08_not_F6 : forall p, ~ known_F6 locktime_arms p.
Proof. intros p [E _]. vm_compute in E. discriminate E. Qed.
Theorem C08_locktime_spec : forall p, locktime p = bip370 p.
Proof. intros p. apply locktime_is_bip370; [exact C08_arms_known|apply C08_not_F6]. Qed.
(* the two unreachable!() arms are unreachable: locktime() never panics, for any number of inputs and any requirements *)
Theorem C08_locktime_total : forall p s, locktime p <> Panic s.
Proof. intros p s. apply locktime_never_panics. exact C08_arms_known. Qed.
(* the former F6 witness: one input requiring time 600000000 and height 100 -> height 100 *)
Definition f6_witness : pset :=
  mkpset empty_map [set_unk (set_unk empty_map F_req_time (Some (u32_enc 600000000))) F_req_height (Some (u32_enc 100))] [].
Example C08_locktime_both : both_possible f6_witness = true /\ bip370 f6_witness = Val 100 /\ locktime f6_witness = Val 100.
Proof. vm_compute. auto. Qed.
Example C08_locktime_nonvacuous :   (* a time-only and a both-kinds input: outside F6; the time is chosen, as BIP370 says *)
  let p := mkpset empty_map [set_unk empty_map F_req_time (Some (u32_enc 700000000));
                             set_unk (set_unk empty_map F_req_time (Some (u32_enc 600000000))) F_req_height (Some (u32_enc 100))] [] in
  both_possible p = false /\ locktime p = Val 700000000 /\ bip370 p = Val 700000000.
Proof. vm_compute. auto. Qed.

(* well-formed transactions (pegin witnesses only on pegin inputs, issuance data only on issuances, non-null outputs, C01-canonical
   output indices incl. the coinbase index 0xffffffff) come back identical, outside the class F8b (nonce of an output that is not partially
   blinded / explicit nonce — documented design of Output::from_txout, not repaired) *)
Lemma C08_not_F8a : forall i, ~ known_F8a is_pegin_exempts_coinbase i.
Proof. intros i [E _]. discriminate E. Qed.
Theorem C08_rt : forall t, wf_tx t -> Forall (fun o => ~ known_F8b o) (tx_outs t) -> extract_tx (from_tx t) = Val t.
Proof.
  intros t W NB. apply extract_from_tx; auto using C08_arms_known.
  apply Forall_forall. intros i _. apply C08_not_F8a.
Qed.
(* extraction reflects exactly the PSET's fields: it is the field-wise function with the BIP370 lock time *)
Definition spec_extract (p : pset) : outcome tx :=
  obind (sanity_check p) (fun _ => obind (bip370 p) (fun lt => obind (outs_of (poutputs p)) (fun outs =>
  Val (mk_tx (tx_version_of (pglobal p)) lt (map txin_of (pinputs p)) outs)))).
Theorem C08_extract_reflects : forall p, extract_tx p = spec_extract p.
Proof. intros p. unfold extract_tx, extract_tx_with, spec_extract. now rewrite (locktime_is_bip370 _ _ C08_arms_known (C08_not_F6 p)). Qed.
Definition coinbase_in : txin := mk_txin zero32 0xffffffff false [x51] 0xffffffff zero32 zero32 CNull CNull None None empty_witness empty_witness.
Definition fee_out (nonce : cval) : txout := mk_txout (CExplicit (repeat x03 32)) (CExplicit (repeat x00 7 ++ [x01])) nonce [] None None.
(* non-vacuity, and the former F8a witness: a coinbase-style transaction is well-formed and comes back identical *)
Example C08_rt_coinbase : let t := mk_tx 2 0 [coinbase_in] [fee_out CNull] in wf_tx t /\ extract_tx (from_tx t) = Val t.
Proof.
  cbn zeta. split; [|vm_compute; reflexivity].
  split; [reflexivity|]. split; [reflexivity|]. split; [reflexivity|]. split; [reflexivity|]. split.
  - constructor; [|constructor]. split; [reflexivity|]. split; [right; split; reflexivity|]. split; [intros _; reflexivity|].
    intros _. repeat split; reflexivity.
  - constructor; [|constructor]. split; discriminate.
Qed.
(* F8b: explicit output with a confidential nonce *)
Theorem C08_rt_refuted_nonce : let t := mk_tx 2 0 [] [fee_out (CConf (x02 :: repeat x11 32))] in
  exists t', extract_tx (from_tx t) = Val t' /\ map to_nonce (tx_outs t') = [CNull] /\ map to_nonce (tx_outs t) <> [CNull].
Proof. cbn zeta. exists (mk_tx 2 0 [] [fee_out CNull]). split; [vm_compute; reflexivity|]. split; [reflexivity|discriminate]. Qed.

(* the id pre-image (the transaction whose txid is taken) is a function of the fields in uid_global_fields / uid_input_fields / uid_output_fields:
   two PSETs that agree on them have the same id pre-image, hence the same unique id for every hash *)
Theorem C08_uid_depends : forall p q, pset_agree uid_cleared_txin_fields p q -> uid_preimage p = uid_preimage q.
Proof. intros. now apply uid_preimage_depends. Qed.
Theorem C08_uid_invariant : forall (id : Type) (H : tx -> id) p,
  (forall i f v, ~ In f (uid_input_fields uid_cleared_txin_fields) ->
      unique_id H (mkpset (pglobal p) (upd_nth (pinputs p) i (fun m => set_unk m f v)) (poutputs p)) = unique_id H p) /\
  (forall i f l, unique_id H (mkpset (pglobal p) (upd_nth (pinputs p) i (fun m => set_kyd m f l)) (poutputs p)) = unique_id H p) /\
  (forall i f v, ~ In f uid_output_fields ->
      unique_id H (mkpset (pglobal p) (pinputs p) (upd_nth (poutputs p) i (fun m => set_unk m f v))) = unique_id H p) /\
  (forall i f l, unique_id H (mkpset (pglobal p) (pinputs p) (upd_nth (poutputs p) i (fun m => set_kyd m f l))) = unique_id H p) /\
  (forall f v, ~ In f uid_global_fields -> unique_id H (mkpset (set_unk (pglobal p) f v) (pinputs p) (poutputs p)) = unique_id H p) /\
  (forall f l, unique_id H (mkpset (set_kyd (pglobal p) f l) (pinputs p) (poutputs p)) = unique_id H p).
Proof.
  intros id H p. unfold unique_id.
  repeat split; intros; f_equal; symmetry; apply uid_preimage_depends; (split; [|split]); cbn [pglobal pinputs poutputs];
    auto using agree_refl, Forall2_refl_agree, Forall2_upd, agree_set_unk, agree_set_kyd.
Qed.
(* the input fields the property names as uid-neutral (sequence, signatures, final script sig / witness, scripts, proofs; key derivations and
   partial signatures are key-value fields, covered by the `set_kyd` clauses): none of them is read by unique_id(), so C08_uid_invariant
   covers every one of them (before the F7 repair final_script_sig was read) *)
Definition property_neutral_input_fields : list field :=
  [F_sequence; F_final_script_sig; F_final_script_witness; fld "redeem_script"; fld "witness_script"; fld "tap_key_sig"; fld "tap_internal_key";
   fld "tap_merkle_root"; fld "sighash_type"; fld "blind_value_proof"; fld "blind_asset_proof"; fld "in_utxo_rangeproof";
   fld "in_issuance_blind_value_proof"; fld "in_issuance_blind_inflation_keys_proof"; F_iss_value_rangeproof; F_iss_keys_rangeproof; F_pegin_witness].
Example C08_uid_known_class :
  filter (fun f => mem_field f (uid_input_fields uid_cleared_txin_fields)) property_neutral_input_fields = [].
Proof. vm_compute. reflexivity. Qed.
Example C08_uid_fields : uid_input_fields uid_cleared_txin_fields =
  [F_prev_txid; F_prev_index; F_req_time; F_req_height; F_iss_nonce; F_iss_entropy; F_iss_amount; F_iss_comm; F_iss_keys; F_iss_keys_comm].
Proof. vm_compute. reflexivity. Qed.
(* the former F7 witness: adding final_script_sig (and a sequence) leaves the id pre-image unchanged *)
Example C08_uid_final_script_sig :
  let p := mkpset (of_entries [(F_input_count, Some [x01]); (F_output_count, Some [x00])]) [empty_map] [] in
  let q := mkpset (pglobal p) (upd_nth (pinputs p) 0 (fun m => set_unk (set_unk m F_final_script_sig (Some [x51])) F_sequence (Some (u32_enc 5)))) [] in
  exists t, uid_preimage p = Val t /\ uid_preimage q = Val t.
Proof. cbn zeta. eexists. split; vm_compute; reflexivity. Qed.

(* the explicit-value clause: a role that reveals the explicit issuance amount / inflation keys / output amount / output asset next to a
   commitment that is already present (the blind proofs that go with it are read by no extraction: C08_uid_invariant) changes neither the
   extracted transaction nor, therefore, the unique id — the commitment is what is extracted *)
Theorem C08_reveal_keeps_extraction : forall p i f fc v c,
  (In (f, fc) reveal_pairs_in -> unk (nth i (pinputs p) empty_map) fc = Some c ->
     extract_tx (mkpset (pglobal p) (upd_nth (pinputs p) i (fun m => set_unk m f v)) (poutputs p)) = extract_tx p) /\
  (In (f, fc) reveal_pairs_out -> unk (nth i (poutputs p) empty_map) fc = Some c ->
     extract_tx (mkpset (pglobal p) (pinputs p) (upd_nth (poutputs p) i (fun m => set_unk m f v))) = extract_tx p).
Proof. intros. split; intros; [eapply extract_reveal_input|eapply extract_reveal_output]; eauto. Qed.
Theorem C08_reveal_keeps_uid : forall (id : Type) (H : tx -> id) p i f fc v c,
  (In (f, fc) reveal_pairs_in -> unk (nth i (pinputs p) empty_map) fc = Some c ->
     unique_id H (mkpset (pglobal p) (upd_nth (pinputs p) i (fun m => set_unk m f v)) (poutputs p)) = unique_id H p) /\
  (In (f, fc) reveal_pairs_out -> unk (nth i (poutputs p) empty_map) fc = Some c ->
     unique_id H (mkpset (pglobal p) (pinputs p) (upd_nth (poutputs p) i (fun m => set_unk m f v))) = unique_id H p).
Proof.
  intros id H p i f fc v c. unfold unique_id, uid_preimage, uid_preimage_with.
  split; intros I C; [rewrite (extract_reveal_input _ _ p i f fc v c I C)|rewrite (extract_reveal_output _ _ p i f fc v c I C)]; reflexivity.
Qed.
Example C08_reveal_pairs : reveal_pairs_in = [(fld "issuance_value_amount", fld "issuance_value_comm"); (fld "issuance_inflation_keys", fld "issuance_inflation_keys_comm")]
  /\ reveal_pairs_out = [(fld "amount", fld "amount_comm"); (fld "asset", fld "asset_comm")].
Proof. split; reflexivity. Qed.
(* the commitment wins in all four places, also when the explicit value is there: an inflation-keys example *)
Example C08_commitment_wins :
  ti_iss_keys (txin_of (set_unk (set_unk empty_map F_iss_keys (Some (repeat x01 8))) F_iss_keys_comm (Some (x09 :: repeat x22 32)))) = CConf (x09 :: repeat x22 32).
Proof. vm_compute. reflexivity. Qed.

Check (C08_locktime_spec : forall p, locktime p = bip370 p).
Check (C08_locktime_total : forall p s, locktime p <> Panic s).
Check (C08_rt : forall t, wf_tx t -> Forall (fun o => ~ known_F8b o) (tx_outs t) -> extract_tx (from_tx t) = Val t).
Check (C08_extract_reflects : forall p, extract_tx p = spec_extract p).
Check (C08_uid_depends : forall p q, pset_agree uid_cleared_txin_fields p q -> uid_preimage p = uid_preimage q).
Print Assumptions C08_locktime_spec.
Print Assumptions C08_locktime_total.
Print Assumptions C08_rt.
Print Assumptions C08_uid_invariant.
Print Assumptions C08_reveal_keeps_extraction.

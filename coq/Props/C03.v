(* C03 — signature hashes follow the Elements legacy, segwit-v0 and taproot algorithms.  The statements, each closed from the lemmas of
   Proofs/Sighash.v (refinement, irrelevance), Proofs/SighashCommit*.v (sensitivity), Proofs/SighashCanon.v and Proofs/SighashWitness.v.
   Specification: Model/SighashSpec.v (TRUSTED transcription of Elements consensus, on the numeric hash type, with the legacy
   outpoint form as the explicit parameter `legacy_flags_in_index` — open question Q1; the code implements `true`).
   Implementation model: Model/SighashImpl.v (src/sighash.rs: caches, Prevouts discipline, the three pre-image writers, the digests).
   `impl_msg t q` / `impl_digest t q` (Model/SighashQuery.v) are the writer output and the digest of query q on a cache freshly
   created for transaction t.  All theorems are universal over the hash functions `H` (SHA-256) and `Htag` (TapSighash tag),
   the curve-point oracle and MAX_VEC_SIZE; "the digest changes" is stated as collision extraction. *)
From Coq Require Import List Arith NArith Bool Lia.
From Coq.Strings Require Import Byte.
From EV Require Import Base.Bytes Base.Codec Base.Sha256 Gen.Tables Model.Tx Model.SighashImpl Model.SighashCache Model.SighashSpec Model.SighashQuery
  Model.SighashCommit Proofs.SighashCache Proofs.Sighash Proofs.SighashCommit Proofs.SighashCommitTap Proofs.SighashCommitSeg Proofs.SighashCommitLeg Proofs.SighashCanon Proofs.Tx Proofs.SighashWitness.
Import ListNotations.
Open Scope N_scope.

Section C03.
Variable pt_ok : bytes -> bool.
Variable maxvec : N.
Variable H : bytes -> bytes.
Variable Htag : bytes -> bytes.
Notation impl_msg := (impl_msg pt_ok maxvec H).
Notation impl_digest := (impl_digest pt_ok maxvec H Htag).

(* Legacy. For every transaction, every existing input index, every script code and every ECDSA hash type the digest is the
   consensus digest (with the pegin/issuance flag bits inside the serialized outpoint index, Q1 = true) ... *)
Theorem C03_legacy_refines : forall t idx sc ty, (idx < length (tx_in t))%nat ->
  exists d, impl_digest t (OLegacy idx sc ty) = SOk d /\ spec_legacy_digest pt_ok H true t idx sc (ecdsa_u32 ty) = Some d.
Proof. intros t idx sc ty Lt. destruct (nth_error_lt _ _ Lt) as [me Nth].
  rewrite legacy_digest_fresh, (proj2 (Nat.ltb_lt _ _) Lt). unfold spec_legacy_digest. rewrite Nth.
  destruct (legacy_single_bug t idx (ecdsa_u32 ty)) eqn:Bug; cbn [andb]; [eauto|].
  pose proof (spec_legacy_msg_sig pt_ok maxvec t idx sc _ me Nth Bug) as S. rewrite (legacy_refines pt_ok maxvec t idx sc ty _ S), S. cbn. eauto. Qed.
(* ... where consensus defines a message (everything but SIGHASH_SINGLE without a matching output) the written pre-image is that
   message and the digest its double SHA-256 ... *)
Theorem C03_legacy_refines_message : forall t idx sc ty, (idx < length (tx_in t))%nat -> legacy_single_bug t idx (ecdsa_u32 ty) = false ->
  exists m, spec_legacy_msg pt_ok true t idx sc (ecdsa_u32 ty) = Some m /\
            impl_msg t (OLegacy idx sc ty) = SOk m /\ impl_digest t (OLegacy idx sc ty) = SOk (H (H m)) /\
            spec_legacy_digest pt_ok H true t idx sc (ecdsa_u32 ty) = Some (H (H m)).
Proof. intros t idx sc ty Lt Bug. destruct (nth_error_lt _ _ Lt) as [me Nth].
  pose proof (spec_legacy_msg_sig pt_ok maxvec t idx sc _ me Nth Bug) as S. eexists. split; [exact S|].
  rewrite legacy_digest_fresh, legacy_msg_fresh, (legacy_refines pt_ok maxvec t idx sc ty _ S), Bug, andb_false_r.
  unfold spec_legacy_digest. now rewrite Nth, Bug, S. Qed.
(* ... and for SIGHASH_SINGLE without a matching output the writer emits the constant 0100..00 and the digest IS that constant, as
   in consensus (finding F17 — the constant was hashed — was repaired by b8dcccb) *)
Theorem C03_legacy_single_out_of_range : forall t idx sc ty, (idx < length (tx_in t))%nat -> legacy_single_bug t idx (ecdsa_u32 ty) = true ->
  impl_msg t (OLegacy idx sc ty) = SOk uint256_one /\ impl_digest t (OLegacy idx sc ty) = SOk uint256_one /\
  spec_legacy_digest pt_ok H true t idx sc (ecdsa_u32 ty) = Some uint256_one /\ spec_legacy_msg pt_ok true t idx sc (ecdsa_u32 ty) = None.
Proof. intros t idx sc ty Lt Bug. destruct (nth_error_lt _ _ Lt) as [me Nth].
  rewrite legacy_digest_fresh, legacy_msg_fresh, (legacy_encode_tx_bug pt_ok maxvec t idx sc ty Lt Bug), Bug, (proj2 (Nat.ltb_lt _ _) Lt).
  unfold spec_legacy_digest, spec_legacy_msg. now rewrite Nth, Bug. Qed.
(* the documented panic: exactly the indices for which consensus defines nothing *)
Theorem C03_legacy_panics_out_of_range : forall t idx sc ty, (length (tx_in t) <= idx)%nat ->
  impl_msg t (OLegacy idx sc ty) = SPanic /\ impl_digest t (OLegacy idx sc ty) = SPanic /\ spec_legacy_digest pt_ok H true t idx sc (ecdsa_u32 ty) = None.
Proof. intros t idx sc ty Ge. rewrite legacy_digest_fresh, legacy_msg_fresh. unfold legacy_encode_tx, spec_legacy_digest.
  rewrite (proj2 (nth_error_None _ _) Ge). apply Nat.ltb_ge in Ge. now rewrite Ge. Qed.

(* Segwit v0. Every existing input index, script code, amount, ECDSA type. *)
Theorem C03_segwit_refines : forall t idx sc v ty, (idx < length (tx_in t))%nat ->
  exists m, spec_segwit_msg pt_ok H t idx sc v (ecdsa_u32 ty) = Some m /\
            impl_msg t (OSegwit idx sc v ty) = SOk m /\ impl_digest t (OSegwit idx sc v ty) = SOk (H (H m)) /\
            spec_segwit_digest pt_ok H t idx sc v (ecdsa_u32 ty) = Some (H (H m)).
Proof. intros t idx sc v ty Lt. destruct (nth_error_lt _ _ Lt) as [me Nth].
  assert (exists m, spec_segwit_msg pt_ok H t idx sc v (ecdsa_u32 ty) = Some m) as [m S] by (unfold spec_segwit_msg; rewrite Nth; eauto).
  pose proof (Ev_init _ _ _ _ _ _ _ (segwit_encode_ev pt_ok maxvec H t [] idx sc v ty)) as R. rewrite S in R. exists m.
  unfold SighashQuery.impl_digest, query, segwit_sighash, spec_segwit_digest. now rewrite mapM_snd, R, S. Qed.
Theorem C03_segwit_panics_out_of_range : forall t idx sc v ty, (length (tx_in t) <= idx)%nat ->
  impl_msg t (OSegwit idx sc v ty) = SPanic /\ impl_digest t (OSegwit idx sc v ty) = SPanic /\ spec_segwit_msg pt_ok H t idx sc v (ecdsa_u32 ty) = None.
Proof. intros t idx sc v ty Ge%nth_error_None. pose proof (Ev_init _ _ _ _ _ _ _ (segwit_encode_ev pt_ok maxvec H t [] idx sc v ty)) as R.
  unfold SighashQuery.impl_digest, query, segwit_sighash. unfold spec_segwit_msg in *. rewrite Ge in *. now rewrite mapM_snd, R. Qed.

(* Taproot. Every transaction, every list of spent outputs (one per input), every existing input index, annex (with the 0x50
   prefix) or none, key path or script path with any leaf hash and code-separator position, every one of the seven Schnorr types
   (SIGHASH_SINGLE only with a matching output — otherwise consensus fails), every genesis hash.
   `N.of_nat idx < 2^32`: the code casts the index to u32; transactions with 2^32 inputs do not exist. *)
Theorem C03_taproot_refines : forall t spent idx annex leaf ty g,
  ty <> SReserved -> length spent = length (tx_in t) -> (idx < length (tx_in t))%nat -> annex_valid annex = true ->
  (tap_single ty = true -> (idx < length (tx_out t))%nat) -> N.of_nat idx < 4294967296 ->
  exists m, spec_taproot_msg pt_ok H t spent idx annex leaf (schnorr_u8 ty) g = Some m /\
            impl_msg t (OTaproot idx (PAll spent) annex leaf ty g) = SOk m /\
            impl_digest t (OTaproot idx (PAll spent) annex leaf ty g) = SOk (Htag m) /\
            spec_taproot_digest pt_ok H Htag t spent idx annex leaf (schnorr_u8 ty) g = Some (Htag m).
Proof. intros t spent idx annex leaf ty g NR L Lt A Sg U. destruct (taproot_defined pt_ok H t spent idx annex leaf ty g NR L Lt A Sg) as [m S]. exists m.
  pose proof (Ev_init _ _ _ _ _ _ _ (taproot_refines_ev pt_ok maxvec H t spent idx annex leaf ty g m S U)) as R.
  unfold SighashQuery.impl_msg, SighashQuery.impl_digest, preimage, query, taproot_sighash, spec_taproot_digest.
  rewrite (annex_opt_valid _ A), !bind_lift, mapM_snd, R, S. auto. Qed.
(* the convenience entry points *)
Theorem C03_taproot_entry_points : forall t idx pv lh ty g,
  impl_digest t (OTapKey idx pv ty g) = impl_digest t (OTaproot idx pv None None ty g) /\
  impl_digest t (OTapScript idx pv lh ty g) = impl_digest t (OTaproot idx pv None (Some (lh, 4294967295)) ty g).
Proof. intros. split; reflexivity. Qed.
(* Prevouts::One gives the same message and digest as All for every ANYONECANPAY type (C13) *)
Theorem C03_taproot_refines_one : forall t spent idx o annex leaf ty g,
  schnorr_acp ty = true -> length spent = length (tx_in t) -> nth_error spent idx = Some o ->
  impl_msg t (OTaproot idx (POne idx o) annex leaf ty g) = impl_msg t (OTaproot idx (PAll spent) annex leaf ty g) /\
  impl_digest t (OTaproot idx (POne idx o) annex leaf ty g) = impl_digest t (OTaproot idx (PAll spent) annex leaf ty g).
Proof. intros t spent idx o annex leaf ty g A L N. unfold SighashQuery.impl_msg, SighashQuery.impl_digest, preimage, query.
  destruct (annex_opt annex) as [a'| |]; try (split; reflexivity).
  change (bind (lift (SOk a')) ?k (init t)) with (k a' (init t)). unfold taproot_sighash, mapM, bind.
  rewrite (acp_one_eq_all pt_ok maxvec H (init t) spent idx o a' leaf ty g A L N). split; reflexivity. Qed.

(* Uncommitted fields are irrelevant: stated on the specification's messages, for EVERY numeric hash type and either answer to Q1; by
   the refinement theorems they hold of the implementation wherever it is defined. *)
Variable flags : bool.
(* script_sig, script witness, pegin witness never matter — in any of the three algorithms *)
Theorem C03_script_sigs_and_witness_stacks_irrelevant : forall t t', tx_sig_eq t t' ->
  (forall idx sc ht, spec_legacy_msg pt_ok flags t idx sc ht = spec_legacy_msg pt_ok flags t' idx sc ht) /\
  (forall idx sc v ht, spec_segwit_msg pt_ok H t idx sc v ht = spec_segwit_msg pt_ok H t' idx sc v ht) /\
  (forall spent idx annex leaf ht g, spec_taproot_msg pt_ok H t spent idx annex leaf ht g = spec_taproot_msg pt_ok H t' spent idx annex leaf ht g).
Proof. intros t t' E. pose proof (tx_sig_core _ _ E) as C. split; [|split]; intros.
  - now apply legacy_core. - now apply segwit_core. - now apply taproot_sig. Qed.
(* the same on the IMPLEMENTATION model, also where consensus defines nothing: pre-image, digest, error and panic of every query on a
   fresh cache are independent of script_sig, script witness and pegin witness of all inputs (C13_witness_independent for sequences) *)
Theorem C03_impl_ignores_script_sigs_and_witness_stacks : forall t t' o, tx_sig_eq t t' ->
  impl_msg t o = impl_msg t' o /\ impl_digest t o = impl_digest t' o.
Proof. intros t t' o E. split; [apply (preimage_sig_indep pt_ok maxvec H o _ _ (Rel_init _ _ E))|apply (query_sig_indep pt_ok maxvec H Htag o _ _ (Rel_init _ _ E))]. Qed.
(* legacy and segwit v0 ignore EVERY witness field: also the issuance range proofs and the output witnesses *)
Theorem C03_legacy_segwit_ignore_all_witnesses : forall t t', tx_core_eq t t' ->
  (forall idx sc ht, spec_legacy_msg pt_ok flags t idx sc ht = spec_legacy_msg pt_ok flags t' idx sc ht) /\
  (forall idx sc v ht, spec_segwit_msg pt_ok H t idx sc v ht = spec_segwit_msg pt_ok H t' idx sc v ht).
Proof. intros t t' C. split; intros; [now apply legacy_core|now apply segwit_core]. Qed.
(* SIGHASH_NONE ignores the outputs *)
Theorem C03_none_ignores_outputs : forall t t', tx_eq_but_outputs t t' ->
  (forall idx sc ht, hash_none ht = true -> spec_legacy_msg pt_ok flags t idx sc ht = spec_legacy_msg pt_ok flags t' idx sc ht) /\
  (forall idx sc v ht, hash_none ht = true -> spec_segwit_msg pt_ok H t idx sc v ht = spec_segwit_msg pt_ok H t' idx sc v ht) /\
  (forall spent idx annex leaf ht g, tap_output_type ht = SIGHASH_NONE ->
     spec_taproot_msg pt_ok H t spent idx annex leaf ht g = spec_taproot_msg pt_ok H t' spent idx annex leaf ht g).
Proof. intros t t' (V & L & I). split; [|split].
  - intros idx sc ht N. unfold spec_legacy_msg, legacy_single_bug. rewrite (none_not_single _ N), N, V, L, I. reflexivity.
  - intros idx sc v ht N. unfold spec_segwit_msg, hash_prevouts, hash_sequence, hash_issuance. rewrite (none_not_single _ N), N, V, L, I. reflexivity.
  - intros spent idx annex leaf ht g N. unfold spec_taproot_msg, sha_outpoint_flags, sha_prevouts, sha_sequences, sha_issuances, sha_issuance_rangeproofs.
  rewrite N, V, L, I. reflexivity. Qed.
(* ANYONECANPAY ignores the other inputs, their number, and (taproot) the other spent outputs *)
Theorem C03_anyonecanpay_ignores_other_inputs : forall idx t t', tx_eq_at_input idx t t' ->
  (forall sc ht, anyone_can_pay ht = true -> spec_legacy_msg pt_ok flags t idx sc ht = spec_legacy_msg pt_ok flags t' idx sc ht) /\
  (forall sc v ht, anyone_can_pay ht = true -> spec_segwit_msg pt_ok H t idx sc v ht = spec_segwit_msg pt_ok H t' idx sc v ht) /\
  (forall spent spent' annex leaf ht g, tap_input_acp ht = true ->
     length spent = length (tx_in t) -> length spent' = length (tx_in t') -> nth_error spent idx = nth_error spent' idx ->
     spec_taproot_msg pt_ok H t spent idx annex leaf ht g = spec_taproot_msg pt_ok H t' spent' idx annex leaf ht g).
Proof. intros idx t t' (V & L & O & I). split; [|split].
  - intros sc ht A. unfold spec_legacy_msg, legacy_single_bug. rewrite A, V, L, O, I. reflexivity.
  - intros sc v ht A. unfold spec_segwit_msg, hash_outputs. rewrite A, V, L, O, I. reflexivity.
  - intros spent spent' annex leaf ht g A L1 L2 S. unfold spec_taproot_msg, sha_outputs, sha_output_witnesses.
  rewrite A, V, L, O, I, S, L1, L2, !Nat.eqb_refl. reflexivity. Qed.
(* SIGHASH_SINGLE ignores the other outputs (and how many follow) *)
Theorem C03_single_ignores_other_outputs : forall idx t t', tx_eq_at_output idx t t' ->
  (forall sc ht, hash_single ht = true -> spec_legacy_msg pt_ok flags t idx sc ht = spec_legacy_msg pt_ok flags t' idx sc ht) /\
  (forall sc v ht, hash_single ht = true -> spec_segwit_msg pt_ok H t idx sc v ht = spec_segwit_msg pt_ok H t' idx sc v ht) /\
  (forall spent annex leaf ht g, tap_output_type ht = SIGHASH_SINGLE ->
     spec_taproot_msg pt_ok H t spent idx annex leaf ht g = spec_taproot_msg pt_ok H t' spent idx annex leaf ht g).
Proof. intros idx t t' (V & L & I & O). split; [|split].
  - intros sc ht S. now apply legacy_single.
  - intros sc v ht S. unfold spec_segwit_msg, hash_prevouts, hash_sequence, hash_issuance. rewrite S, V, L, I, O. reflexivity.
  - intros spent annex leaf ht g S. unfold spec_taproot_msg, sha_outpoint_flags, sha_prevouts, sha_sequences, sha_issuances, sha_issuance_rangeproofs.
  rewrite S, V, L, I, O. reflexivity. Qed.
(* SIGHASH_NONE / SIGHASH_SINGLE under legacy and segwit v0 ignore the sequence numbers of the other inputs (taproot commits to them) *)
Theorem C03_none_single_ignore_other_sequences : forall idx t t', tx_eq_but_other_sequences idx t t' ->
  (forall sc ht, (hash_single ht || hash_none ht) = true -> spec_legacy_msg pt_ok flags t idx sc ht = spec_legacy_msg pt_ok flags t' idx sc ht) /\
  (forall sc v ht, (hash_single ht || hash_none ht) = true -> spec_segwit_msg pt_ok H t idx sc v ht = spec_segwit_msg pt_ok H t' idx sc v ht).
Proof. intros idx t t' (V & L & O & I). split.
  - intros sc ht Z. unfold spec_legacy_msg, legacy_single_bug.
  rewrite <- (erase_nth idx (tx_in t)), <- (erase_nth idx (tx_in t')), <- (erase_length idx (tx_in t)), <- (erase_length idx (tx_in t')).
  rewrite <- (erase_legacy_inputs pt_ok flags ht idx sc (tx_in t) Z), <- (erase_legacy_inputs pt_ok flags ht idx sc (tx_in t') Z). rewrite V, L, O, I. reflexivity.
  - intros sc v ht Z. unfold spec_segwit_msg, hash_prevouts, hash_issuance, hash_outputs.
  assert (Z' : negb (anyone_can_pay ht) && negb (hash_single ht) && negb (hash_none ht) = false)
    by (destruct (anyone_can_pay ht), (hash_single ht), (hash_none ht); cbn in *; congruence).
  rewrite Z'. rewrite <- (erase_nth idx (tx_in t)), <- (erase_nth idx (tx_in t')).
  rewrite <- (erase_map (fun i => ser_outpoint (in_prev i)) idx (tx_in t)), <- (erase_map (fun i => ser_outpoint (in_prev i)) idx (tx_in t')) by reflexivity.
  rewrite <- (erase_map (issuance_or_zero pt_ok) idx (tx_in t)), <- (erase_map (issuance_or_zero pt_ok) idx (tx_in t')) by reflexivity.
  rewrite V, L, O, I. reflexivity. Qed.

(* Committed fields matter, the exact characterisation.
   `legacy_committed`, `segwit_committed`, `taproot_committed` (Model/SighashCommit.v) list, per algorithm, hash type and input index,
   the in-memory fields the message commits to.  For canonical values (`canon_tx`: what decoding from consensus bytes guarantees) and
   digests that consensus defines:
     SOUND    equal committed views  =>  equal digests                                        (the C03_committed_complete theorems)
     COMPLETE equal digests  =>  equal committed views, or an explicit collision              (the C03_committed_matters theorems)
   i.e. the digest changes whenever any committed field changes, and only then.
   The alternatives besides a collision of H / Htag are preimages of two constants that consensus itself uses as pseudo-hashes:
   the legacy SIGHASH_SINGLE constant 0100..00 and the segwit "no output" zero hash.
   RESIDUAL (segwit v0 only, a property of the consensus format): hashIssuance is a hash over "0x00 or issuance" per input with no
   count or flag; the view therefore carries that concatenation, not the individual issuances (C03_segwit_issuance_concat_ambiguous);
   the individual issuances are determined once it is known which inputs issue (C03_issuances_given_pattern). *)
Hypothesis Hlen : forall x, length (H x) = 32%nat.
Theorem C03_committed_matters_legacy : forall t t' idx idx' sc sc' ht ht' d,
  spec_legacy_digest pt_ok H true t idx sc ht = Some d -> spec_legacy_digest pt_ok H true t' idx' sc' ht' = Some d ->
  canon_tx pt_ok t = true -> canon_tx pt_ok t' = true -> leg_query_ok sc ht = true -> leg_query_ok sc' ht' = true ->
  legacy_committed t idx sc ht = legacy_committed t' idx' sc' ht' \/ Collision H \/ Preimage H uint256_one.
Proof. intros t t' idx idx' sc sc' ht ht' d. unfold spec_legacy_digest. intros D D' C C' Q Q'.
  destruct (nth_error (tx_in t) idx) as [me|] eqn:N; [|discriminate]. destruct (nth_error (tx_in t') idx') as [me'|] eqn:N'; [|discriminate].
  destruct (legacy_single_bug t idx ht) eqn:B, (legacy_single_bug t' idx' ht') eqn:B'.
  - left. unfold legacy_committed. now rewrite N, N', B, B'.
  - apply Some_inj in D. subst d. apply option_map_some in D' as (m' & _ & E). right. right. exists (H m'). symmetry. exact E.
  - apply Some_inj in D'. subst d. apply option_map_some in D as (m & _ & E). right. right. exists (H m). symmetry. exact E.
  - destruct (digest_eq _ _ _ _ D D') as (m & m' & S & S' & E).
    destruct (dhash_eq H _ _ E) as [<-|K]; [|right; left; exact K]. left. exact (legacy_msg_sensitive pt_ok _ _ _ _ _ _ _ _ _ S S' C C' Q Q'). Qed.
Theorem C03_committed_matters_segwit : forall t t' idx idx' sc sc' v v' ht ht' d,
  spec_segwit_digest pt_ok H t idx sc v ht = Some d -> spec_segwit_digest pt_ok H t' idx' sc' v' ht' = Some d ->
  canon_tx pt_ok t = true -> canon_tx pt_ok t' = true -> seg_query_ok pt_ok sc v ht = true -> seg_query_ok pt_ok sc' v' ht' = true ->
  segwit_committed pt_ok t idx sc v ht = segwit_committed pt_ok t' idx' sc' v' ht' \/ Collision H \/ Preimage H zero256.
Proof. intros t t' idx idx' sc sc' v v' ht ht' d. unfold spec_segwit_digest. intros D D' C C' Q Q'.
  destruct (digest_eq _ _ _ _ D D') as (m & m' & S & S' & E).
  destruct (dhash_eq H _ _ E) as [<-|K]; [|right; left; exact K]. eapply segwit_msg_sensitive; eauto. Qed.
Theorem C03_committed_matters_taproot : forall t t' spent spent' idx idx' annex annex' leaf leaf' ht ht' g g' d,
  spec_taproot_digest pt_ok H Htag t spent idx annex leaf ht g = Some d -> spec_taproot_digest pt_ok H Htag t' spent' idx' annex' leaf' ht' g' = Some d ->
  canon_tx pt_ok t = true -> canon_tx pt_ok t' = true -> forallb (canon_out pt_ok) spent = true -> forallb (canon_out pt_ok) spent' = true ->
  tap_query_ok g annex leaf idx = true -> tap_query_ok g' annex' leaf' idx' = true ->
  taproot_committed t spent idx annex leaf ht g = taproot_committed t' spent' idx' annex' leaf' ht' g' \/ Collision H \/ Collision Htag.
Proof. intros t t' spent spent' idx idx' annex annex' leaf leaf' ht ht' g g' d. unfold spec_taproot_digest. intros D D' C C' CS CS' Q Q'.
  destruct (digest_eq _ _ _ _ D D') as (m & m' & S & S' & E). destruct (hash_eq Htag _ _ E) as [<-|K]; [|right; right; exact K].
  destruct (taproot_msg_sensitive pt_ok H Hlen _ _ _ _ _ _ _ _ _ _ _ _ _ _ _ S S' C C' CS CS' Q Q') as [X|K]; [left; exact X|right; left; exact K]. Qed.
(* the legacy message itself is injective on the committed view: no hash is involved *)
Theorem C03_legacy_message_injective : forall t t' idx idx' sc sc' ht ht' m,
  spec_legacy_msg pt_ok true t idx sc ht = Some m -> spec_legacy_msg pt_ok true t' idx' sc' ht' = Some m ->
  canon_tx pt_ok t = true -> canon_tx pt_ok t' = true -> leg_query_ok sc ht = true -> leg_query_ok sc' ht' = true ->
  legacy_committed t idx sc ht = legacy_committed t' idx' sc' ht'.
Proof using pt_ok H. exact (SighashCommitLeg.legacy_msg_sensitive pt_ok). Qed.

Theorem C03_committed_complete_legacy : forall t t' idx idx' sc sc' ht ht' d d',
  spec_legacy_digest pt_ok H true t idx sc ht = Some d -> spec_legacy_digest pt_ok H true t' idx' sc' ht' = Some d' ->
  legacy_committed t idx sc ht = legacy_committed t' idx' sc' ht' -> d = d'.
Proof. intros t t' idx idx' sc sc' ht ht' d d'. unfold spec_legacy_digest. intros D D' E. pose proof E as E0. unfold legacy_committed in E.
  destruct (nth_error (tx_in t) idx) as [me|] eqn:N; [|discriminate]. destruct (nth_error (tx_in t') idx') as [me'|] eqn:N'; [|discriminate].
  destruct (legacy_single_bug t idx ht) eqn:B, (legacy_single_bug t' idx' ht') eqn:B'; try discriminate E.
  - congruence.
  - apply (digest_fun _ _ _ _ _ D D'). intros m m' S S'. eapply legacy_committed_complete; eauto. Qed.
Theorem C03_committed_complete_segwit : forall t t' idx idx' sc sc' v v' ht ht' d d',
  spec_segwit_digest pt_ok H t idx sc v ht = Some d -> spec_segwit_digest pt_ok H t' idx' sc' v' ht' = Some d' ->
  segwit_committed pt_ok t idx sc v ht = segwit_committed pt_ok t' idx' sc' v' ht' -> d = d'.
Proof. intros t t' idx idx' sc sc' v v' ht ht' d d'. unfold spec_segwit_digest. intros D D' E.
  apply (digest_fun _ _ _ _ _ D D'). intros m m' S S'. eapply segwit_committed_complete; eauto. Qed.
Theorem C03_committed_complete_taproot : forall t t' spent spent' idx idx' annex annex' leaf leaf' ht ht' g g' d d',
  spec_taproot_digest pt_ok H Htag t spent idx annex leaf ht g = Some d -> spec_taproot_digest pt_ok H Htag t' spent' idx' annex' leaf' ht' g' = Some d' ->
  taproot_committed t spent idx annex leaf ht g = taproot_committed t' spent' idx' annex' leaf' ht' g' -> d = d'.
Proof. intros t t' spent spent' idx idx' annex annex' leaf leaf' ht ht' g g' d d'. unfold spec_taproot_digest. intros D D' E.
  apply (digest_fun _ _ _ _ _ D D'). intros m m' S S'. eapply taproot_committed_complete; eauto. Qed.
(* the canonicity hypothesis holds of every transaction the consensus decoder returns (C01), for MAX_VEC_SIZE and caps below 2^64 *)
Theorem C03_decoded_transactions_canonical : forall ci co cv bs t, maxvec < BIG -> ci < BIG -> co < BIG ->
  deserialize (c_tx pt_ok maxvec ci co cv) bs = Some t -> canon_tx pt_ok t = true.
Proof. intros ci co cv bs t M Ci Co D. apply (decoded_tx_canonical pt_ok maxvec ci co cv M Ci Co).
  exact (proj2 (deserialize_exact _ (c_tx_lawful pt_ok maxvec ci co cv) bs t D)). Qed.
(* the residual, positively: with the same issuing pattern the concatenation determines every issuance *)
Theorem C03_issuances_given_pattern : forall l l', forallb (canon_in pt_ok) l = true -> forallb (canon_in pt_ok) l' = true ->
  map issuance_null l = map issuance_null l' ->
  concat (map (issuance_or_zero pt_ok) l) = concat (map (issuance_or_zero pt_ok) l') -> map fv_iss_opt l = map fv_iss_opt l'.
Proof. exact (iss_concat_inj pt_ok). Qed.
End C03.

Definition c03_in : txin := {| in_prev := {| o_txid := repeat x11 32; o_vout := 0 |}; in_pegin := false; in_script := []; in_seq := 4294967295;
  in_iss := null_issuance; in_wit := empty_inwit |}.

(* test_legacy_sighashes, last vector: an ISSUING input (index word 0x80000000), SIGHASH_ALL, digest produced by Elements Core.
   The specification reproduces it with legacy_flags_in_index = true and not with false. *)
Definition q1_tx_hex : bytes := "010000000001715df5ccebaf02ff18d6fae7263fa69fed5de59c900f4749556eba41bc7bf2af000000800000000000000000000000000000000000000000000000000000000000000000000000000000000000000000000000000000000000000000000000000000000000000000000100000000000003e801000000000000000a0201230f4f5d4b7c6fa845806ee4f67713459e1b69e8e60fcee2e4940c7a0d5de1b2010000000124101100001f5175517551755175517551755175517551755175517551755175517551755101230f4f5d4b7c6fa845806ee4f67713459e1b69e8e60fcee2e4940c7a0d5de1b2010000000005f5e100000000000000"%lb.
Definition q1_script_hex : bytes := "76a914f54a5851e9372b87810a8e60cdd2e7cfd80b6e3188ac"%lb.
Definition q1_expected_hex : bytes := "9f00e1758a230aaf6c9bce777701a604f50b2ac5f2a07e1cd478d8a0e70fc195"%lb.
Definition q1_digest (flags : bool) : option bytes :=
  match bytes_of_hex q1_tx_hex, bytes_of_hex q1_script_hex with
  | Some txb, Some sc => match deserialize (c_tx (fun _ => true) 4000000 1000 1000 1000) txb with
                         | Some t => spec_legacy_digest (fun _ => true) sha256 flags t 0 sc 1 | None => None end
  | _, _ => None end.
Example C03_Q1_pinned_vector :
  q1_digest true = bytes_of_hex q1_expected_hex /\ q1_digest false <> bytes_of_hex q1_expected_hex /\ q1_digest false <> None.
Proof. vm_compute. repeat split; discriminate. Qed.

Definition c03_iss_in : txin := {| in_prev := {| o_txid := repeat x22 32; o_vout := 7 |}; in_pegin := true; in_script := [x51]; in_seq := 5;
  in_iss := {| i_nonce := zero32; i_entropy := repeat x44 32; i_amount := VExplicit 1000; i_keys := VNull |};
  in_wit := {| w_amount_rp := None; w_keys_rp := None; w_script := [[x01]]; w_pegin := [] |} |}.
Definition c03_out : txout := {| out_asset := AExplicit (repeat x33 32); out_value := VExplicit 5; out_nonce := NNull; out_script := [x51]; out_wit := empty_outwit |}.
Definition c03_tx : tx := {| tx_version := 2; tx_lock := 0; tx_in := [c03_in; c03_iss_in]; tx_out := [c03_out] |}.
(* the hypotheses of the refinement theorems hold for a two-input transaction with a pegin + issuance input, at both indices,
   for SINGLE (index 0), and all three specifications define a message there *)
Example C03_hypotheses_satisfiable :
  legacy_single_bug c03_tx 1 (ecdsa_u32 EAll) = false /\ legacy_single_bug c03_tx 0 (ecdsa_u32 ESingle) = false /\
  legacy_single_bug c03_tx 1 (ecdsa_u32 ESingle) = true /\
  (tap_single SSingleAcp = true -> (0 < length (tx_out c03_tx))%nat) /\ annex_valid (Some [x50; x01]) = true /\
  spec_taproot_msg (fun _ => true) sha256 c03_tx [c03_out; c03_out] 1 (Some [x50; x01]) (Some (repeat x55 32, 4294967295)) (schnorr_u8 SAllAcp) (repeat x00 32) <> None /\
  spec_segwit_msg (fun _ => true) sha256 c03_tx 1 [x51] (VExplicit 5) (ecdsa_u32 ENoneAcp) <> None.
Proof. vm_compute. repeat split; auto; discriminate. Qed.
(* the irrelevance relations relate genuinely different transactions *)
Example C03_relations_nontrivial :
  tx_sig_eq c03_tx {| tx_version := 2; tx_lock := 0; tx_in := [set_script_witness_in c03_in [[x02; x03]]; c03_iss_in]; tx_out := [c03_out] |} /\
  tx_eq_at_input 1 c03_tx {| tx_version := 2; tx_lock := 0; tx_in := [c03_iss_in; c03_iss_in; c03_in]; tx_out := [c03_out] |} /\
  tx_eq_but_other_sequences 1 c03_tx {| tx_version := 2; tx_lock := 0; tx_in := [set_seq c03_in 77; c03_iss_in]; tx_out := [c03_out] |}.
Proof. unfold tx_sig_eq, tx_eq_at_input, tx_eq_but_other_sequences, in_sig_eq. cbn. repeat split; repeat constructor. Qed.

(* the residual, negatively: two canonical three-input transactions that differ in WHICH of the first two inputs issues (and in the
   issuance), with the same segwit v0 message for the third input under SIGHASH_ALL — for every hash function *)
Definition amb_prev (b : byte) (n : N) : outpoint := {| o_txid := repeat b 32; o_vout := n |}.
Definition amb_in (p : outpoint) (iss : issuance) : txin := {| in_prev := p; in_pegin := false; in_script := []; in_seq := 4294967295; in_iss := iss; in_wit := empty_inwit |}.
Definition amb_I : issuance := {| i_nonce := zero32; i_entropy := zero32; i_amount := VExplicit 7; i_keys := VNull |}.
Definition amb_I' : issuance := {| i_nonce := zero32; i_entropy := zero32; i_amount := VNull; i_keys := VExplicit 7 |}.
Definition amb_tx : tx := {| tx_version := 2; tx_lock := 0; tx_out := [c03_out];
  tx_in := [amb_in (amb_prev x01 0) null_issuance; amb_in (amb_prev x02 1) amb_I; amb_in (amb_prev x03 2) null_issuance] |}.
Definition amb_tx' : tx := {| tx_version := 2; tx_lock := 0; tx_out := [c03_out];
  tx_in := [amb_in (amb_prev x01 0) amb_I'; amb_in (amb_prev x02 1) null_issuance; amb_in (amb_prev x03 2) null_issuance] |}.
Example C03_segwit_issuance_concat_ambiguous : forall H,
  canon_tx (fun _ => true) amb_tx = true /\ canon_tx (fun _ => true) amb_tx' = true /\
  map fv_iss_opt (tx_in amb_tx) <> map fv_iss_opt (tx_in amb_tx') /\
  spec_segwit_msg (fun _ => true) H amb_tx 2 [x51] (VExplicit 5) 1 <> None /\
  spec_segwit_msg (fun _ => true) H amb_tx 2 [x51] (VExplicit 5) 1 = spec_segwit_msg (fun _ => true) H amb_tx' 2 [x51] (VExplicit 5) 1.
Proof. intros H. split; [vm_compute; reflexivity|]. split; [vm_compute; reflexivity|]. split; [vm_compute; discriminate|]. split; [vm_compute; discriminate|].
  vm_compute. reflexivity. Qed.
(* the canonicity hypothesis is satisfiable by a transaction with a pegin + issuance input, and the three views are non-trivial *)
Example C03_canonical_example :
  canon_tx (fun _ => true) c03_tx = true /\ forallb (canon_out (fun _ => true)) [c03_out; c03_out] = true /\
  tap_query_ok (repeat x00 32) (Some [x50; x01]) (Some (repeat x55 32, 4294967295)) 1 = true /\
  length (taproot_committed c03_tx [c03_out; c03_out] 1 (Some [x50; x01]) (Some (repeat x55 32, 4294967295)) 129 (repeat x00 32)) = 19%nat /\
  length (legacy_committed c03_tx 1 [x51] 1) = 5%nat /\ length (segwit_committed (fun _ => true) c03_tx 1 [x51] (VExplicit 5) 1) = 12%nat.
Proof. vm_compute. repeat split; reflexivity. Qed.

Check (C03_legacy_refines : forall pt_ok maxvec H Htag t idx sc ty, (idx < length (tx_in t))%nat ->
  exists d, impl_digest pt_ok maxvec H Htag t (OLegacy idx sc ty) = SOk d /\ spec_legacy_digest pt_ok H true t idx sc (ecdsa_u32 ty) = Some d).
Check (C03_legacy_refines_message : forall pt_ok maxvec H Htag t idx sc ty, (idx < length (tx_in t))%nat -> legacy_single_bug t idx (ecdsa_u32 ty) = false ->
  exists m, spec_legacy_msg pt_ok true t idx sc (ecdsa_u32 ty) = Some m /\
            impl_msg pt_ok maxvec H t (OLegacy idx sc ty) = SOk m /\ impl_digest pt_ok maxvec H Htag t (OLegacy idx sc ty) = SOk (H (H m)) /\
            spec_legacy_digest pt_ok H true t idx sc (ecdsa_u32 ty) = Some (H (H m))).
Check (C03_segwit_refines : forall pt_ok maxvec H Htag t idx sc v ty, (idx < length (tx_in t))%nat ->
  exists m, spec_segwit_msg pt_ok H t idx sc v (ecdsa_u32 ty) = Some m /\
            impl_msg pt_ok maxvec H t (OSegwit idx sc v ty) = SOk m /\ impl_digest pt_ok maxvec H Htag t (OSegwit idx sc v ty) = SOk (H (H m)) /\
            spec_segwit_digest pt_ok H t idx sc v (ecdsa_u32 ty) = Some (H (H m))).
Check (C03_taproot_refines : forall pt_ok maxvec H Htag t spent idx annex leaf ty g,
  ty <> SReserved -> length spent = length (tx_in t) -> (idx < length (tx_in t))%nat -> annex_valid annex = true ->
  (tap_single ty = true -> (idx < length (tx_out t))%nat) -> N.of_nat idx < 4294967296 ->
  exists m, spec_taproot_msg pt_ok H t spent idx annex leaf (schnorr_u8 ty) g = Some m /\
            impl_msg pt_ok maxvec H t (OTaproot idx (PAll spent) annex leaf ty g) = SOk m /\
            impl_digest pt_ok maxvec H Htag t (OTaproot idx (PAll spent) annex leaf ty g) = SOk (Htag m) /\
            spec_taproot_digest pt_ok H Htag t spent idx annex leaf (schnorr_u8 ty) g = Some (Htag m)).
Check (C03_script_sigs_and_witness_stacks_irrelevant : forall pt_ok H flags t t', tx_sig_eq t t' ->
  (forall idx sc ht, spec_legacy_msg pt_ok flags t idx sc ht = spec_legacy_msg pt_ok flags t' idx sc ht) /\
  (forall idx sc v ht, spec_segwit_msg pt_ok H t idx sc v ht = spec_segwit_msg pt_ok H t' idx sc v ht) /\
  (forall spent idx annex leaf ht g, spec_taproot_msg pt_ok H t spent idx annex leaf ht g = spec_taproot_msg pt_ok H t' spent idx annex leaf ht g)).
Check (C03_anyonecanpay_ignores_other_inputs : forall pt_ok H flags idx t t', tx_eq_at_input idx t t' ->
  (forall sc ht, anyone_can_pay ht = true -> spec_legacy_msg pt_ok flags t idx sc ht = spec_legacy_msg pt_ok flags t' idx sc ht) /\
  (forall sc v ht, anyone_can_pay ht = true -> spec_segwit_msg pt_ok H t idx sc v ht = spec_segwit_msg pt_ok H t' idx sc v ht) /\
  (forall spent spent' annex leaf ht g, tap_input_acp ht = true ->
     length spent = length (tx_in t) -> length spent' = length (tx_in t') -> nth_error spent idx = nth_error spent' idx ->
     spec_taproot_msg pt_ok H t spent idx annex leaf ht g = spec_taproot_msg pt_ok H t' spent' idx annex leaf ht g)).
Check (C03_taproot_refines_one : forall pt_ok maxvec H Htag t spent idx o annex leaf ty g,
  schnorr_acp ty = true -> length spent = length (tx_in t) -> nth_error spent idx = Some o ->
  impl_msg pt_ok maxvec H t (OTaproot idx (POne idx o) annex leaf ty g) = impl_msg pt_ok maxvec H t (OTaproot idx (PAll spent) annex leaf ty g) /\
  impl_digest pt_ok maxvec H Htag t (OTaproot idx (POne idx o) annex leaf ty g) = impl_digest pt_ok maxvec H Htag t (OTaproot idx (PAll spent) annex leaf ty g)).
Check (C03_committed_matters_taproot : forall pt_ok H Htag, (forall x, length (H x) = 32%nat) -> forall t t' spent spent' idx idx' annex annex' leaf leaf' ht ht' g g' d,
  spec_taproot_digest pt_ok H Htag t spent idx annex leaf ht g = Some d -> spec_taproot_digest pt_ok H Htag t' spent' idx' annex' leaf' ht' g' = Some d ->
  canon_tx pt_ok t = true -> canon_tx pt_ok t' = true -> forallb (canon_out pt_ok) spent = true -> forallb (canon_out pt_ok) spent' = true ->
  tap_query_ok g annex leaf idx = true -> tap_query_ok g' annex' leaf' idx' = true ->
  taproot_committed t spent idx annex leaf ht g = taproot_committed t' spent' idx' annex' leaf' ht' g' \/ Collision H \/ Collision Htag).
Check (C03_committed_matters_segwit : forall pt_ok H, (forall x, length (H x) = 32%nat) -> forall t t' idx idx' sc sc' v v' ht ht' d,
  spec_segwit_digest pt_ok H t idx sc v ht = Some d -> spec_segwit_digest pt_ok H t' idx' sc' v' ht' = Some d ->
  canon_tx pt_ok t = true -> canon_tx pt_ok t' = true -> seg_query_ok pt_ok sc v ht = true -> seg_query_ok pt_ok sc' v' ht' = true ->
  segwit_committed pt_ok t idx sc v ht = segwit_committed pt_ok t' idx' sc' v' ht' \/ Collision H \/ Preimage H zero256).
Check (C03_committed_matters_legacy : forall pt_ok H t t' idx idx' sc sc' ht ht' d,
  spec_legacy_digest pt_ok H true t idx sc ht = Some d -> spec_legacy_digest pt_ok H true t' idx' sc' ht' = Some d ->
  canon_tx pt_ok t = true -> canon_tx pt_ok t' = true -> leg_query_ok sc ht = true -> leg_query_ok sc' ht' = true ->
  legacy_committed t idx sc ht = legacy_committed t' idx' sc' ht' \/ Collision H \/ Preimage H uint256_one).
Check (C03_committed_complete_taproot : forall pt_ok H Htag t t' spent spent' idx idx' annex annex' leaf leaf' ht ht' g g' d d',
  spec_taproot_digest pt_ok H Htag t spent idx annex leaf ht g = Some d -> spec_taproot_digest pt_ok H Htag t' spent' idx' annex' leaf' ht' g' = Some d' ->
  taproot_committed t spent idx annex leaf ht g = taproot_committed t' spent' idx' annex' leaf' ht' g' -> d = d').
Print Assumptions C03_legacy_refines.
Print Assumptions C03_segwit_refines.
Print Assumptions C03_taproot_refines.
Print Assumptions C03_committed_matters_taproot.
Print Assumptions C03_committed_matters_legacy.
Print Assumptions C03_committed_complete_taproot.
Print Assumptions C03_legacy_single_out_of_range.

(* C05 — amount verification rejects every tampered or unbalanced transaction.
   LEVEL: proof IN THE IDEAL-COMMITMENT MODEL (Model/Ideal.v) — partial with respect to cryptography, exactly as C04: the
   soundness and binding of range and surjection proofs is built into the ideal objects, not derived from libsecp256k1-zkp.
   What is proved is the logic of Transaction::verify_tx_amt_proofs (src/blind.rs, with repair b3b2d40) — its checks, their order,
   the balance equation and what it implies. The theorems are proved in Proofs/Verify.v,
   Proofs/Tamper.v and Proofs/ExactProofs.v; the examples are evaluated here. *)
From Coq Require Import List NArith ZArith Bool Lia.
From Coq.Strings Require Import Byte.
From EV Require Import Base.Bytes Base.Zn Base.FreeMod Model.Script Model.Ideal Model.Verify Model.Blind Model.Tamper
  Proofs.Ideal Proofs.Verify Proofs.Blind Proofs.Tamper Props.C04
  Gen.SrcExact Model.ExactProofs Proofs.ExactProofs.
Import ListNotations.
Open Scope Z_scope.

(* acceptance => the outputs have openings (asset, amount < 2^64; a skipped output — explicit zero amount on a provably unspendable
   script — is opened by zero) that balance per asset AS INTEGERS against the opened inputs and explicit issuances, and every
   confidential output carries a range proof and a surjection proof made for exactly that output (commitment, script,
   generator / generator, domain). The two size hypotheses (#entries * 2^64 < n) are what
   turns the balance modulo the group order into an integer balance. *)
Theorem C05_sound : forall (T : tx) (spent : list txout) (ss : list secrets),
  verify_tx_amt_proofs T spent = OVal tt -> opens (t_in T) spent ss ->
  Forall (fun s => u64 (s_value s)) ss -> Forall (fun o => forall v, o_value o = VExp v -> u64 v) (t_out T) ->
  Z.of_nat (length ss) * 2 ^ 64 < qn -> Z.of_nat (length (t_out T)) * 2 ^ 64 < qn ->
  exists dom coms ocoms os,
    verify_inputs (t_in T) spent 0 = OVal (dom, coms) /\ verify_outputs dom (t_out T) 0 = OVal ocoms
    /\ Forall2 (fun oc s => out_opened_step (fst oc) (snd oc) s) (combine (t_out T) ocoms) os /\ length os = length (t_out T)
    /\ Forall (fun s => u64 (s_value s)) os
    /\ (forall b, asset_total b ss = asset_total b os)
    /\ Forall (fun o => skipped o = false -> proofs_for dom o) (t_out T).
Proof. exact verify_sound. Qed.

(* from an accepted transaction whose spent outputs are opened, EVERY tamper of the property's list (Model/Tamper.v), at
   EVERY applicable position, that changes the content, is rejected *)
Theorem C05_tamper : forall (T : tx) (spent : list txout) (ss : list secrets) (t : tamper),
  verify_tx_amt_proofs T spent = OVal tt -> opens (t_in T) spent ss ->
  Forall (fun o => forall v, o_value o = VExp v -> 0 <= v < qn) (t_out T) ->
  applicable t (T, spent) = true -> changes t (T, spent) = true ->
  verify_tx_amt_proofs (fst (apply t (T, spent))) (snd (apply t (T, spent))) <> OVal tt.
Proof. exact tamper_rejected. Qed.

(* an all-explicit transaction is accepted exactly when the spent list has the right length, zero amounts occur only on provably
   unspendable scripts, and every asset balances as integers — the property's own characterisation (repair b3b2d40 of finding
   F13: `Err(TxOutError::ZeroValueCommitment) => continue` in the output loop) *)
Theorem C05_explicit_iff : forall (T : tx) (spent : list txout),
  all_explicit T spent ->
  Z.of_nat (length (input_secrets (t_in T) spent)) * 2 ^ 64 < qn -> Z.of_nat (length (t_out T)) * 2 ^ 64 < qn ->
  (verify_tx_amt_proofs T spent = OVal tt <->
   length spent = length (t_in T) /\ zero_value_rule T
   /\ forall b, asset_total b (input_secrets (t_in T) spent) = explicit_out_total b (t_out T)).
Proof. exact explicit_iff. Qed.
(* what the repaired loop does with an explicit zero amount, exactly: on a provably unspendable script (OP_RETURN, over-long, or the
   empty fee script) the output is SKIPPED — nothing is pushed and nothing on it (asset, proofs) is looked at; on a SPENDABLE script
   it is still REJECTED, because get_value_commit answers NonUnspendableZeroValue for it, which is reported (as SpentTxOutError).
   The unspendable-script rule is thus enforced inside get_value_commit, not by the loop. *)
Theorem C05_zero_value_unspendable_skipped : forall dom k o,
  o_value o = VExp 0 -> is_provably_unspendable (o_script o) = true -> verify_output_step dom k o = OVal None.
Proof. intros dom k o V U. unfold verify_output_step. now rewrite (proj2 (skipped_spec o) (conj V U)). Qed.
Theorem C05_zero_value_spendable_rejected : forall dom k o,
  o_value o = VExp 0 -> is_provably_unspendable (o_script o) = false ->
  verify_output_step dom k o = OFail (SpentTxOutError k NonUnspendableZeroValue).
Proof. exact zero_value_spendable_rejected. Qed.

Theorem C05_len_mismatch : forall T spent, length spent <> length (t_in T) -> verify_tx_amt_proofs T spent = OFail UtxoInputLenMismatch.
Proof. exact verify_len_mismatch. Qed.

(* the former F13 witness — a balanced all-explicit transaction with a zero-amount OP_RETURN output — is now accepted;
   the same transaction with the zero amount on a spendable script is rejected *)
Definition f13_tx : tx :=
  mkTx [mkIn null_issuance]
       [mkOut (AExp 1) (VExp 99) NNull (p2wpkh x01) None None;
        mkOut (AExp 1) (VExp 0) NNull [x6a; x01; xaa] None None;
        mkOut (AExp 1) (VExp 1) NNull [] None None].
Definition f13_spent : list txout := [mkOut (AExp 1) (VExp 100) NNull [x51] None None].
Example C05_zero_opreturn_accepted :
  all_explicit f13_tx f13_spent /\ zero_value_rule f13_tx /\ verify_tx_amt_proofs f13_tx f13_spent = OVal tt
  /\ verify_tx_amt_proofs (mkTx (t_in f13_tx) (upd (t_out f13_tx) 1 (set_script (p2wpkh x07)))) f13_spent
     = OFail (SpentTxOutError 1 NonUnspendableZeroValue).
Proof.
  split; [|split; [|split]].
  - split; [|split].
    + repeat constructor. exists 1%N, 100. repeat split; reflexivity.
    + repeat constructor; left; reflexivity.
    + repeat constructor; eexists _, _; (split; [reflexivity|]); (split; [reflexivity|]); split; try reflexivity; discriminate.
  - repeat constructor; intro H; try discriminate H; vm_compute; reflexivity.
  - vm_compute. reflexivity.
  - vm_compute. reflexivity.
Qed.

(* ------------------------------------------------------------------ non-vacuity: the blinded transaction of C04's example
   verifies, satisfies the hypotheses of C05_tamper, and concrete tampers of every kind are applicable, change it and are
   rejected with the error variant the code reports *)
Definition ex_blinded : tx := match blind ex_pubk ex_ecdh Debug ex_rnd ex_ss ex_tx with OVal (t', _) => t' | _ => ex_tx end.
Definition verdict_of (t : tamper) := let x := apply t (ex_blinded, ex_spent) in verify_tx_amt_proofs (fst x) (snd x).
Example C05_example_accepts : verify_tx_amt_proofs ex_blinded ex_spent = OVal tt.
Proof.
  pose proof C04_example_run as R. unfold ex_blinded.
  destruct (blind ex_pubk ex_ecdh Debug ex_rnd ex_ss ex_tx) as [[t' bl]| |]; [exact (proj1 R)|destruct R..].
Qed.
Example C05_example_hypotheses :
  opens (t_in ex_blinded) ex_spent ex_ss /\ Forall (fun o => forall v, o_value o = VExp v -> 0 <= v < qn) (t_out ex_blinded).
Proof.
  split; [exact (proj1 (proj2 (proj2 C04_example_hypotheses)))|].
  apply explicit_amounts_in_range_ok. vm_compute. reflexivity.
Qed.
Example C05_example_tampers :
  forallb (fun t => applicable t (ex_blinded, ex_spent) && changes t (ex_blinded, ex_spent))
    [TOutValue 1 (VExp 40); TOutAsset 1 (AExp 2); TOutValue 0 (VConf (commit 61 (asset_gen 1 21) 22)); TOutAsset 0 (AConf (asset_gen 1 5));
     TSwapValue 0 3; TSwapAsset 0 3; TRemoveRp 0; TSwapRp 0 3; TCorruptRp 4; TRemoveSp 3; TSwapSp 3 4; TCorruptSp 0;
     TScript 0 (p2wpkh x09); TIssuance 1 IssAmount (VExp 31); TSpentValue 0 (VExp 101); TSpentValue 1 (VConf (commit 51 (asset_gen 2 5) 7));
     TSpentAsset 0 (AExp 2); TSpentAsset 1 (AConf (asset_gen 2 6))] = true
  /\ verdict_of (TOutValue 1 (VExp 40)) = OFail BalanceCheckFailed
  /\ verdict_of (TOutValue 0 (VConf (commit 61 (asset_gen 1 21) 22))) = OFail (RangeProofError 0)
  /\ verdict_of (TRemoveRp 0) = OFail (RangeProofMissing 0)
  /\ verdict_of (TSwapSp 3 4) = OFail (SurjectionProofVerificationError 3)
  /\ verdict_of (TRemoveSp 3) = OFail (SurjectionProofMissing 3)
  /\ verdict_of (TIssuance 1 IssAmount (VExp 31)) = OFail BalanceCheckFailed
  /\ verdict_of (TSpentAsset 1 (AConf (asset_gen 2 6))) = OFail (SurjectionProofVerificationError 0).
Proof.
  (* a verdict reached inside a loop is read off a run, which stops there. The two at the balance would take a whole run each, range
     proofs included; instead the tampered transaction is shown to pass both loops (the output loop as far as it is the accepted
     one's, under the same domain), and C05_tamper says it is not accepted *)
  pose proof C05_example_accepts as AC. destruct C05_example_hypotheses as [OP RG].
  destruct (proj1 (verify_ok_inv _ _) AC) as (L & dom & coms & ocoms & VI & VO & _).
  assert (B1 : verdict_of (TOutValue 1 (VExp 40)) = OFail BalanceCheckFailed).
  { assert (N1 : nth_error (t_out ex_blinded) 1 = Some (mkOut (AExp 1) (VExp 39) NNull (p2wpkh x02) None None)) by (vm_compute; reflexivity).
    unfold verdict_of. cbn [apply fst snd].
    eapply (tamper_balance_failed ex_blinded ex_spent ex_ss (TOutValue 1 (VExp 40)) _ _ _ dom coms _ AC OP RG);
      [vm_compute; reflexivity|vm_compute; reflexivity|reflexivity|exact L|exact VI|].
    rewrite (upd_some (t_out ex_blinded) 1 (set_value (VExp 40)) _ N1).
    eapply (verify_outputs_set _ _ _ _ _ 1%nat _ _ VO), (Verify.verify_step_explicit dom 1 _ 1%N 40); [reflexivity..|].
    apply qn_u64. split; reflexivity. }
  assert (B2 : verdict_of (TIssuance 1 IssAmount (VExp 31)) = OFail BalanceCheckFailed).
  { assert (E : verify_inputs (t_in ex_blinded) ex_spent 0
                = OVal ([gH 1; sgen ex_s1; gH 9], [commit 100 (gH 1) 0; scommit ex_s1; commit 30 (gH 9) 0])) by (vm_compute; reflexivity).
    rewrite E in VI. injection VI as <- <-. unfold verdict_of. cbn [apply fst snd].
    apply (tamper_balance_failed ex_blinded ex_spent ex_ss (TIssuance 1 IssAmount (VExp 31)) _ _ _ [gH 1; sgen ex_s1; gH 9]
             [commit 100 (gH 1) 0; scommit ex_s1; commit 31 (gH 9) 0] ocoms AC OP RG);
      [vm_compute; reflexivity|vm_compute; reflexivity|reflexivity|reflexivity|vm_compute; reflexivity|exact VO]. }
  rewrite B1, B2. vm_compute. repeat split; reflexivity.
Qed.
(* and a balanced all-explicit transaction that is accepted *)
Example C05_example_explicit :
  let T := mkTx [mkIn null_issuance] [mkOut (AExp 1) (VExp 99) NNull (p2wpkh x01) None None; mkOut (AExp 1) (VExp 1) NNull [] None None] in
  verify_tx_amt_proofs T f13_spent = OVal tt.
Proof. vm_compute. reflexivity. Qed.

(* ---- exact-value / exact-asset proofs of PSET explicit fields (BlindValueProofs, BlindAssetProofs; Model/ExactProofs.v).
   bvp_verify's acceptance condition is src_bvp_accept of Gen/SrcExact.v, TRANSLATED from src/blind.rs on every run. *)
(* accepted => the commitment opens to EXACTLY the claimed value on the given generator, and the proof's stated range is that single value *)
Theorem C05_exact_value_sound : forall (rr : rrproof) (v : N) (gen c : gel),
  bvp_verify rr v gen c = true ->
  geq c (commit (Z.of_N v) gen (rp_vbf (rr_rp rr))) /\ rp_value (rr_rp rr) = Z.of_N v /\ rr_min rr = Z.of_N v /\ rr_max rr = Z.of_N v.
Proof. exact bvp_sound. Qed.
(* a proof that states more than one value is refused whatever is claimed — in particular every proof made with exponent 0
   (all output range proofs), even when its minimum IS the claimed value *)
Theorem C05_exact_value_wide_refused : forall (rr : rrproof) (v : N) (gen c : gel), rr_min rr < rr_max rr -> bvp_verify rr v gen c = false.
Proof. exact bvp_wide_refused. Qed.
Theorem C05_exact_value_exp0_refused : forall m b c value vbf msg key gen rr v' gen' c',
  m <> U64_MAX -> rr_new m c value vbf msg [] key 0 b gen = Some rr -> bvp_verify rr v' gen' c' = false.
Proof. exact wide_proof_refused. Qed.
Theorem C05_exact_value_other_refused : forall (rr : rrproof) (v : N) (gen c : gel), rp_value (rr_rp rr) <> Z.of_N v -> bvp_verify rr v gen c = false.
Proof. exact bvp_other_value_refused. Qed.
(* the genuine proof is accepted; the condition's u64 subtraction never goes below zero *)
Theorem C05_exact_value_complete : forall v gen vbf, 0 <= v <= U64_MAX ->
  exists rr, bvp_new v (commit v gen vbf) gen vbf = Some rr /\ bvp_verify rr (Z.to_N v) gen (commit v gen vbf) = true.
Proof. exact bvp_complete. Qed.
Theorem C05_exact_value_no_panic : forall rr v gen c, bvp_verify_safe rr v gen c = true.
Proof. exact bvp_no_panic. Qed.
(* the range a prover states always contains the value it proves (exponents -1 and 0) *)
Theorem C05_prover_range_contains : forall m e b v lo hi, prove_range m e b v = Some (lo, hi) -> lo <= v <= hi.
Proof. exact prove_range_contains. Qed.
(* exact-asset proofs: accepted => the generator is the asset's generator plus a multiple of G; names one asset; genuine accepted *)
Theorem C05_exact_asset_sound : forall sp a g, bap_verify sp a g = true -> geq g (asset_gen a (sp_diff sp)).
Proof. exact bap_sound. Qed.
Theorem C05_exact_asset_binds : forall sp a b g, bap_verify sp a g = true -> bap_verify sp b g = true -> a = b.
Proof. exact bap_binds. Qed.
Theorem C05_exact_asset_complete : forall a abf, exists sp, bap_new a abf = Some sp /\ bap_verify sp a (asset_gen a abf) = true.
Proof. exact bap_complete. Qed.
(* the exact-value clause of C09 (Model/PsetBlind.v blind_value_proof_verify) IS the translated condition on the proofs blind_value_proof makes *)
Theorem C05_exact_value_is_pset_clause : forall rp v gen c, 0 <= v <= U64_MAX ->
  bvp_verify (mkRR rp (rp_value rp) (rp_value rp)) (Z.to_N v) gen c = PsetBlind.blind_value_proof_verify rp v gen c.
Proof. exact bvp_verify_is_pset_clause. Qed.
(* non-vacuity: a proof over [1000, 1000 + 2^16) for the committed value 1500 is made, verifies as a range proof, and is refused as an
   exact proof for 1000 (its minimum), for 1500 (its value) and for anything else *)
Example C05_example_wide :
  match rr_new 1000 (commit 1500 (gH 7) 9) 1500 9 (0%N, 0) [] 0 0 16 (gH 7) with
  | Some rr => (rr_verify rr (commit 1500 (gH 7) 9) [] (gH 7), bvp_verify rr 1000 (gH 7) (commit 1500 (gH 7) 9), bvp_verify rr 1500 (gH 7) (commit 1500 (gH 7) 9))
  | None => (None, true, true) end = (Some (1000%N, 66536%N), false, false).
Proof. vm_compute. reflexivity. Qed.

Check (C05_sound : forall (T : tx) (spent : list txout) (ss : list secrets),
  verify_tx_amt_proofs T spent = OVal tt -> opens (t_in T) spent ss ->
  Forall (fun s => u64 (s_value s)) ss -> Forall (fun o => forall v, o_value o = VExp v -> u64 v) (t_out T) ->
  Z.of_nat (length ss) * 2 ^ 64 < qn -> Z.of_nat (length (t_out T)) * 2 ^ 64 < qn ->
  exists dom coms ocoms os,
    verify_inputs (t_in T) spent 0 = OVal (dom, coms) /\ verify_outputs dom (t_out T) 0 = OVal ocoms
    /\ Forall2 (fun oc s => out_opened_step (fst oc) (snd oc) s) (combine (t_out T) ocoms) os /\ length os = length (t_out T)
    /\ Forall (fun s => u64 (s_value s)) os
    /\ (forall b, asset_total b ss = asset_total b os)
    /\ Forall (fun o => skipped o = false -> proofs_for dom o) (t_out T)).
Check (C05_tamper : forall (T : tx) (spent : list txout) (ss : list secrets) (t : tamper),
  verify_tx_amt_proofs T spent = OVal tt -> opens (t_in T) spent ss ->
  Forall (fun o => forall v, o_value o = VExp v -> 0 <= v < qn) (t_out T) ->
  applicable t (T, spent) = true -> changes t (T, spent) = true ->
  verify_tx_amt_proofs (fst (apply t (T, spent))) (snd (apply t (T, spent))) <> OVal tt).
Check (C05_explicit_iff : forall (T : tx) (spent : list txout),
  all_explicit T spent ->
  Z.of_nat (length (input_secrets (t_in T) spent)) * 2 ^ 64 < qn -> Z.of_nat (length (t_out T)) * 2 ^ 64 < qn ->
  (verify_tx_amt_proofs T spent = OVal tt <->
   length spent = length (t_in T) /\ zero_value_rule T
   /\ forall b, asset_total b (input_secrets (t_in T) spent) = explicit_out_total b (t_out T))).
Check (C05_len_mismatch : forall T spent, length spent <> length (t_in T) -> verify_tx_amt_proofs T spent = OFail UtxoInputLenMismatch).
Print Assumptions C05_sound.
Print Assumptions C05_tamper.
Print Assumptions C05_explicit_iff.
Print Assumptions C05_len_mismatch.
Print Assumptions C05_zero_value_unspendable_skipped.
Print Assumptions C05_zero_value_spendable_rejected.
Check (C05_exact_value_sound : forall (rr : rrproof) (v : N) (gen c : gel),
  bvp_verify rr v gen c = true ->
  geq c (commit (Z.of_N v) gen (rp_vbf (rr_rp rr))) /\ rp_value (rr_rp rr) = Z.of_N v /\ rr_min rr = Z.of_N v /\ rr_max rr = Z.of_N v).
Check (C05_exact_value_wide_refused : forall (rr : rrproof) (v : N) (gen c : gel), rr_min rr < rr_max rr -> bvp_verify rr v gen c = false).
Check (C05_exact_asset_binds : forall sp a b g, bap_verify sp a g = true -> bap_verify sp b g = true -> a = b).
Print Assumptions C05_exact_value_sound.
Print Assumptions C05_exact_value_wide_refused.
Print Assumptions C05_exact_value_exp0_refused.
Print Assumptions C05_exact_value_complete.
Print Assumptions C05_exact_asset_sound.
Print Assumptions C05_exact_value_is_pset_clause.

(* C02 — transaction and block ids are the consensus hashes and ignore witness data. Statements only (proofs: Proofs/Ids.v).
   H is the double-SHA256, universally quantified; "changes" is stated as collision extraction. *)
From Coq Require Import List NArith Bool.
From Coq.Strings Require Import Byte.
From EV Require Import Base.Bytes Base.Codec Model.Tx Model.Block Model.Ids Proofs.Ids.
From EV Require Gen.SrcPreds Proofs.SrcPreds.
Import ListNotations.
Open Scope N_scope.

Section C02.
Variable H : bytes -> bytes.
Variable pt_ok : bytes -> bool.
Variables maxvec cap_txin cap_txout cap_vecu8 cap_tx : N.
Notation TX := (c_tx pt_ok maxvec cap_txin cap_txout cap_vecu8).
Notation HD := (c_header maxvec cap_vecu8).
Notation txid := (txid H pt_ok maxvec cap_txin cap_txout).
Notation wtxid := (wtxid H pt_ok maxvec cap_txin cap_txout cap_vecu8).
Notation block_hash := (block_hash H maxvec cap_vecu8).
Notation Collision := (exists a b : bytes, a <> b /\ H a = H b).

(* the txid pre-image assembled by the code (version, zero flag, inputs, outputs, lock time) IS the serialization of the witness-stripped transaction *)
Theorem C02_txid_is_stripped : forall t, txid t = H (enc TX (strip_tx t)).
Proof. intros t. unfold Ids.txid. now rewrite (txid_is_stripped pt_ok maxvec cap_txin cap_txout cap_vecu8). Qed.
Theorem C02_wtxid_is_full : forall t, wtxid t = H (enc TX t).
Proof. reflexivity. Qed.
Theorem C02_witness_irrelevant : forall t t', strip_tx t = strip_tx t' -> txid t = txid t'.
Proof. exact (witness_irrelevant H pt_ok maxvec cap_txin cap_txout cap_vecu8). Qed.
Theorem C02_nonwitness_commits : forall t t', wf TX t = true -> wf TX t' = true -> txid t = txid t' -> strip_tx t = strip_tx t' \/ Collision.
Proof. exact (nonwitness_commits H pt_ok maxvec cap_txin cap_txout cap_vecu8). Qed.
Theorem C02_wtxid_eq_txid : forall t, wf TX t = true ->
  (has_witness t = false -> wtxid t = txid t) /\ (wtxid t = txid t -> has_witness t = false \/ Collision).
Proof. exact (wtxid_eq_txid H pt_ok maxvec cap_txin cap_txout cap_vecu8). Qed.
(* the same with Transaction::has_witness AS TRANSLATED FROM THE SOURCE on every run (Gen/SrcPreds.v) *)
Theorem C02_wtxid_eq_txid_src : forall t, wf TX t = true ->
  (SrcPreds.src_Transaction_has_witness t = false -> wtxid t = txid t) /\ (wtxid t = txid t -> SrcPreds.src_Transaction_has_witness t = false \/ Collision).
Proof. intros t W. rewrite SrcPreds.src_has_witness. now apply C02_wtxid_eq_txid. Qed.

(* block hash: the pre-image is the header serialization without the solution / signblock witness *)
Theorem C02_blockhash_preimage : forall h, h_version h < 2147483648 ->
  block_hash h = H (block_hash_preimage maxvec cap_vecu8 h) /\ enc HD (clear_witness h) = block_hash_preimage maxvec cap_vecu8 h ++ [x00].
Proof. intros h Hv. split; [reflexivity|]. now apply header_enc_clear. Qed.
Theorem C02_blockhash_dynafed_bit : forall h, exists rest, block_hash_preimage maxvec cap_vecu8 h =
  enc c_u32 (if ext_is_dynafed (h_ext h) then N.lor (h_version h) 2147483648 else h_version h) ++ rest.
Proof. exact (preimage_version maxvec cap_vecu8). Qed.
Theorem C02_blockhash_witness_irrelevant : forall h h', clear_witness h = clear_witness h' -> block_hash h = block_hash h'.
Proof. intros h h' E. rewrite <- (block_hash_clear H maxvec cap_vecu8 h), <- (block_hash_clear H maxvec cap_vecu8 h'). now rewrite E. Qed.
Theorem C02_blockhash_commits : forall h h', wf HD h = true -> wf HD h' = true -> block_hash h = block_hash h' -> clear_witness h = clear_witness h' \/ Collision.
Proof using H pt_ok maxvec cap_vecu8. exact (block_hash_commits H maxvec cap_vecu8). Qed.
End C02.

Check (C02_nonwitness_commits : forall H pt_ok maxvec cap_txin cap_txout cap_vecu8 t t',
  wf (c_tx pt_ok maxvec cap_txin cap_txout cap_vecu8) t = true -> wf (c_tx pt_ok maxvec cap_txin cap_txout cap_vecu8) t' = true ->
  txid H pt_ok maxvec cap_txin cap_txout t = txid H pt_ok maxvec cap_txin cap_txout t' -> strip_tx t = strip_tx t' \/ (exists a b : bytes, a <> b /\ H a = H b)).

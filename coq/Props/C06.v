(* C06 — addresses round-trip through text, are canonical, and name exactly one network.
   Only statements; proofs live in Proofs/Address*.v, Proofs/Numeral.v (and Proofs/Bech32*.v). H is SHA-256d, pk_valid the secp256k1 test of a 33-byte key:
   both are parameters. *)
From Coq Require Import List NArith Bool Lia.
From Coq.Strings Require Import Byte.
From EV Require Import Base.Bytes Base.SecpField Base.Sha256 Model.Bech32 Model.Base58 Model.Address Proofs.Bech32 Proofs.Address Proofs.AddressRT Proofs.Numeral Proofs.AddressB58 Proofs.AddressCanon Proofs.AddressCase.
Import ListNotations.
Open Scope N_scope.
Set Default Timeout 120.

(* every successfully parsed address holds a 20-byte hash or a witness program of version <= 16 and
   2..40 bytes (20 or 32 for version 0) whose text carries the checksum variant required for its version (bech32/blech32 for
   version 0, bech32m/blech32m above), and belongs to the network whose parameters were used.  (Before the repair of finding F5 —
   commit 86be616, `program.len() < 2 || program.len() > 40` in Address::from_bech32 — this held only outside the class of blinded
   version >= 1 addresses with a 0- or 1-byte program.) *)
Theorem C06_parsed_shape : forall (H : bytes -> bytes) (pk_valid : bytes -> bool) s p a,
  parse_with_params H pk_valid s p = AOk a -> shape_ok s a /\ a_params a = p.
Proof. intros H pkv s p a E. destruct (parsed_ok H pkv s p a E) as (A & _ & _ & B). now split. Qed.

(* the blinding key of the second F5 string and of the examples at the end passes the secp256k1 test; the test is evaluated here, once *)
Lemma example_key_valid :
  pubkey33_valid (match bytes_of_hex "0210948777d2b03782158a9334906dbfe63b7b8c57e75e710391bad43e654d7611"%lb with Some b => b | None => [] end) = true.
Proof. vm_compute. reflexivity. Qed.

(* regression for F5: its two witness strings (a blinding key followed by the 1-byte program a9, resp. by an empty program, blech32m,
   version 1) are rejected with InvalidWitnessProgramLength by FromStr and by parse_with_params of their network *)
Theorem C06_F5_witnesses_rejected : forall (H : bytes -> bytes),
  let s1 := "lq1pqguc7t884ml9najsrvr8uvgxj4vuneqdvmxlacuwwekaz44u4dxkt2gef4zgpzl48dj"%lb in
  let s0 := "lq1pqggffpmh62cr0qs432fnfyrdhlnrk7uv2ln4uugrjxadg0n9f4mpzuvenj2eacqxm"%lb in
  from_str H pubkey33_valid s1 = AErr AInvalidWitnessProgramLength /\ parse_with_params H pubkey33_valid s1 LIQUID = AErr AInvalidWitnessProgramLength /\
  from_str H pubkey33_valid s0 = AErr AInvalidWitnessProgramLength /\ parse_with_params H pubkey33_valid s0 LIQUID = AErr AInvalidWitnessProgramLength.
Proof. intros H. cbv zeta.
  (* both parsers hand an `lq1...` string to from_bech32 of LIQUID, which tests the blinding key before the program length: the verdict
     needs the key to be valid *)
  assert (W : forall s, match_prefix (find_prefix s) (hrp_of LIQUID true) = true ->
              from_bech32 pubkey33_valid s true LIQUID = AErr AInvalidWitnessProgramLength ->
              from_str H pubkey33_valid s = AErr AInvalidWitnessProgramLength /\ parse_with_params H pubkey33_valid s LIQUID = AErr AInvalidWitnessProgramLength).
  { intros s M E. destruct (segwit_dispatch H pubkey33_valid s LIQUID true (or_introl eq_refl) M) as [-> ->]. now split. }
  destruct (W "lq1pqguc7t884ml9najsrvr8uvgxj4vuneqdvmxlacuwwekaz44u4dxkt2gef4zgpzl48dj"%lb) as [A B]; [reflexivity|vm_compute; reflexivity|].
  destruct (W "lq1pqggffpmh62cr0qs432fnfyrdhlnrk7uv2ln4uugrjxadg0n9f4mpzuvenj2eacqxm"%lb) as [C D]; [reflexivity| |].
  { (* this string carries the key of example_key_valid: the decoder runs with the key test left symbolic *)
    generalize example_key_valid. generalize pubkey33_valid. intros pkv K. vm_compute in K. vm_compute. rewrite K. reflexivity. }
  exact (conj A (conj B (conj C D))). Qed.

(* FromStr is parse_with_params of one built-in network (so the statements about parse_with_params cover it) *)
Theorem C06_from_str_is_parse : forall (H : bytes -> bytes) (pk_valid : bytes -> bool) s a,
  from_str H pk_valid s = AOk a -> exists p, In p builtin /\ parse_with_params H pk_valid s p = AOk a.
Proof. exact from_str_is_parse. Qed.

(* A string parses under at most one built-in network's parameters.  Uses the pairwise distinctness of the six HRPs and of the nine version
   bytes (recomputed from Gen/Tables.v) and, for the case "one network reads s as segwit, the other as base58check", C06_base58_dispatch
   below: a text that base58check-decodes to a version byte of a built-in network followed by the number of bytes from_base58 demands
   starts with a character no built-in HRP starts with.  No assumption on the hash. *)
Theorem C06_one_network : forall (H : bytes -> bytes) (pk_valid : bytes -> bool) s p1 p2 a1 a2,
  In p1 builtin -> In p2 builtin -> parse_with_params H pk_valid s p1 = AOk a1 -> parse_with_params H pk_valid s p2 = AOk a2 -> p1 = p2.
Proof. exact one_network_full. Qed.

(* Round trip.  wf_addr: a built-in network, a 33-byte blinding key that secp256k1 accepts (if any), 20-byte hashes, witness version
   <= 16 with a program of 2..40 bytes (20 or 32 for version 0).  For every such address — p2pkh, p2sh (base58check), unblinded segwit
   (bech32/bech32m) or blinded segwit (blech32/blech32m), any version, any program length — the displayed text parses back to the same
   address, through parse_with_params of its own network and through FromStr; for segwit forms so does the upper-case text.
   The only premise on the hash is that it returns at least the four bytes the base58check checksum takes (SHA-256d returns 32);
   it is not needed for the segwit clauses (C06_roundtrip_segwit, C06_roundtrip_segwit_upper).  The model's `display` is the independent
   encoder of the property; that it agrees character for character with the crate's Display is the correspondence check. *)
Theorem C06_roundtrip : forall (H : bytes -> bytes) (pk_valid : bytes -> bool), (forall x, 4 <= length (H x))%nat ->
  forall a, wf_addr pk_valid a ->
  (parse_with_params H pk_valid (display H a) (a_params a) = AOk a /\ from_str H pk_valid (display H a) = AOk a) /\
  (is_segwit a -> parse_with_params H pk_valid (upper (display H a)) (a_params a) = AOk a /\ from_str H pk_valid (upper (display H a)) = AOk a).
Proof. exact roundtrip_all. Qed.
Theorem C06_roundtrip_segwit : forall (H : bytes -> bytes) (pk_valid : bytes -> bool) a, wf_addr pk_valid a -> is_segwit a ->
  parse_with_params H pk_valid (display H a) (a_params a) = AOk a /\ from_str H pk_valid (display H a) = AOk a.
Proof. exact roundtrip_segwit. Qed.
Theorem C06_roundtrip_segwit_upper : forall (H : bytes -> bytes) (pk_valid : bytes -> bool) a, wf_addr pk_valid a -> is_segwit a ->
  parse_with_params H pk_valid (upper (display H a)) (a_params a) = AOk a /\ from_str H pk_valid (upper (display H a)) = AOk a.
Proof. exact roundtrip_segwit_upper. Qed.
Theorem C06_roundtrip_base58 : forall (H : bytes -> bytes) (pk_valid : bytes -> bool), (forall x, 4 <= length (H x))%nat ->
  forall a, wf_addr pk_valid a -> ~ is_segwit a ->
  parse_with_params H pk_valid (display H a) (a_params a) = AOk a /\ from_str H pk_valid (display H a) = AOk a.
Proof. intros H pkv H4 a. exact (roundtrip_base58 H pkv a H4). Qed.

(* Canonical form: parsing then displaying returns the lower-case form of a segwit string and a base58check string unchanged — every
   string, every parameter set (built-in or not), every hash and key predicate; also through FromStr. *)
Theorem C06_canonical : forall (H : bytes -> bytes) (pk_valid : bytes -> bool) s p a, parse_with_params H pk_valid s p = AOk a ->
  (is_segwit a /\ display H a = lower s) \/ (~ is_segwit a /\ display H a = s).
Proof. exact canonical. Qed.
Theorem C06_canonical_from_str : forall (H : bytes -> bytes) (pk_valid : bytes -> bool) s a, from_str H pk_valid s = AOk a ->
  (is_segwit a /\ display H a = lower s) \/ (~ is_segwit a /\ display H a = s).
Proof. exact canonical_from_str. Qed.

(* Case: only the two single-case forms of a segwit address parse (C06_roundtrip for both, C06_canonical: they display as the lower-case
   one); a string with an upper-case and a lower-case letter anywhere, human-readable part included, never parses as a segwit address —
   any parameters, FromStr included — and is an error outright where its prefix matches an HRP of the network. *)
Theorem C06_mixed_case_rejected : forall (H : bytes -> bytes) (pk_valid : bytes -> bool) s p, mixed_case s = true ->
  (forall a, parse_with_params H pk_valid s p = AOk a -> ~ is_segwit a) /\
  (segwit_path s p = true -> exists e, parse_with_params H pk_valid s p = AErr e) /\
  (forall a, from_str H pk_valid s = AOk a -> ~ is_segwit a).
Proof. exact mixed_case_rejected. Qed.

(* positional numerals, any base >= 2: minimal digits of the value of a canonical digit list (all digits < b, no leading zero), and back *)
Theorem C06_numeral : forall b, 2 <= b ->
  (forall ds, Forall (fun d => d < b) ds -> match ds with [] => True | d :: _ => d <> 0 end -> digits b (value b ds 0) = ds) /\
  (forall v, value b (digits b v) 0 = v).
Proof. intros b B. split; [intros ds D Hn; apply (digits_value b B); split; assumption|intros v; exact (proj2 (digits_spec b B v))]. Qed.
(* base58 <-> bytes, every byte string and every accepted text, leading zero bytes / leading '1' characters included *)
Theorem C06_base58_codec : (forall bs, b58_decode (b58_encode bs) = Ok58 bs) /\ (forall s bs, b58_decode s = Ok58 bs -> b58_encode bs = s).
Proof. split; [exact b58_decode_encode|exact b58_encode_decode]. Qed.
(* base58check: create then verify (hash of >= 4 bytes), verify then re-create (any hash) *)
Theorem C06_base58check : forall (H : bytes -> bytes),
  (forall data, (4 <= length (H data))%nat -> b58_decode_check H (b58_encode_check H data) = Ok58 data) /\
  (forall s data, b58_decode_check H s = Ok58 data -> b58_encode_check H data = s).
Proof. intros H. split; [exact (b58_check_roundtrip H)|exact (b58_check_canonical H)]. Qed.
(* Dispatch (finite sweep, bound in the statement): for each of the nine version bytes x of the three built-in networks and every byte
   string bs of 24 or 58 bytes (hash + checksum, or inner version byte + blinding key + hash + checksum), the base58 text of x :: bs is at
   most 150 characters long and its prefix (everything before the last '1') matches no built-in HRP, so parse_with_params and FromStr take
   the base58check branch.  Proof: the first base58 digit of a number in [x*256^n, (x+1)*256^n) is bounded by evaluation (18 cases)
   and none of the possible characters lower-cases to the first letter of a built-in HRP. *)
Theorem C06_base58_dispatch : forall p x n bs, In p builtin -> x = p_p2pkh p \/ x = p_p2sh p \/ x = p_blinded p -> n = 24%nat \/ n = 58%nat -> length bs = n ->
  too_long_for_base58 (b58_encode (n2b x :: bs)) = false /\
  forall p', In p' builtin -> match_prefix (find_prefix (b58_encode (n2b x :: bs))) (p_bech p') = false /\
                              match_prefix (find_prefix (b58_encode (n2b x :: bs))) (p_blech p') = false.
Proof. intros p x n bs Ip Ex En <-. destruct (b58_text_dispatch p x bs Ip Ex En) as [TL NM]. split; [exact TL|]. intros p' Ip'. split; [exact (NM p' false Ip')|exact (NM p' true Ip')]. Qed.
(* the checksum the encoder appends always verifies — any HRP, any data, each of the four codes — and is the only one that does *)
Theorem C06_checksum_verifies : forall c, In c [bech32; bech32m; blech32; blech32m] ->
  forall pre, sym_word pre -> valid_codeword c (pre ++ checksum_syms c pre) = true.
Proof. exact checksum_valid. Qed.
Theorem C06_checksum_unique : forall c, In c [bech32; bech32m; blech32; blech32m] ->
  forall pre ck, sym_word pre -> sym_word ck -> length ck = c_len c -> valid_codeword c (pre ++ ck) = true -> ck = checksum_syms c pre.
Proof. exact checksum_syms_unique. Qed.
(* regrouping 8 -> 5 -> 8 bits is the identity and produces valid padding — every byte string; 5 -> 8 -> 5 is the identity on every
   symbol string with valid padding *)
Theorem C06_regroup : forall data, fes_to_bytes (bytes_to_fes data) = data /\ validate_padding (bytes_to_fes data) = Ok tt.
Proof. intros data. split; [apply fes_bytes_roundtrip|apply bytes_to_fes_padding]. Qed.
Theorem C06_regroup_back : forall body, sym_word body -> validate_padding body = Ok tt -> bytes_to_fes (fes_to_bytes body) = body.
Proof. exact bytes_fes_roundtrip. Qed.
(* the independent encoder applied to what either segwit decoder returns gives back the lower-case text *)
Theorem C06_segwit_canonical : forall cfg s v data hrp, cfg = cfg_bech \/ cfg = cfg_blech -> segwit_decode cfg s = Ok (v, data) ->
  eq_lower hrp (find_prefix s) = true -> encode_segwit (if v =? 0 then sw_code_v0 cfg else sw_code_v1 cfg) hrp v data = lower s.
Proof. intros cfg s v data hrp C D M. apply (segwit_canonical cfg s v data hrp D); [|exact M]. unfold code_for. destruct C as [->| ->], (v =? 0); cbn; tauto. Qed.

(* non-vacuity: wf_addr is inhabited by a blinded taproot-style address, and the theorem computes on it *)
Example C06_nonvacuous :
  let bl := match bytes_of_hex "0210948777d2b03782158a9334906dbfe63b7b8c57e75e710391bad43e654d7611"%lb with Some b => b | None => [] end in
  let a := mkAddr LIQUID (WitnessProgram 1 (repeat x11 32)) (Some bl) in
  wf_addr pubkey33_valid a /\ is_segwit a /\ from_str (fun _ => []) pubkey33_valid (display (fun _ => []) a) = AOk a.
Proof. cbv zeta. split; [|split].
  - split; [cbn; tauto|]. split; [split; [reflexivity|exact example_key_valid]|]. cbn. repeat split; try lia; try (intros X; discriminate).
  - eexists _, _. reflexivity.
  - (* the parser runs with the key test left symbolic *)
    generalize example_key_valid. generalize pubkey33_valid. intros pkv K. vm_compute in K. vm_compute. rewrite K. reflexivity. Qed.

(* non-vacuity, base58check forms: a blinded p2sh address on LIQUID and an unblinded p2pkh address on ELEMENTS are well formed, are not segwit,
   and the round trip computes on them with the real SHA-256d (whose outputs have 32 >= 4 bytes) *)
Example C06_nonvacuous_base58 :
  let bl := match bytes_of_hex "0210948777d2b03782158a9334906dbfe63b7b8c57e75e710391bad43e654d7611"%lb with Some b => b | None => [] end in
  let a := mkAddr LIQUID (ScriptHash (repeat x11 20)) (Some bl) in let a' := mkAddr ELEMENTS (PubkeyHash (repeat x22 20)) None in
  wf_addr pubkey33_valid a /\ ~ is_segwit a /\ from_str sha256d pubkey33_valid (display sha256d a) = AOk a /\
  wf_addr pubkey33_valid a' /\ ~ is_segwit a' /\ from_str sha256d pubkey33_valid (display sha256d a') = AOk a' /\
  (4 <= length (sha256d []))%nat.
Proof. cbv zeta.
  assert (NS : forall p h b, ~ is_segwit (mkAddr p (ScriptHash h) b) /\ ~ is_segwit (mkAddr p (PubkeyHash h) b))
    by (intros p h b; split; intros (v & prog & E); discriminate E).
  split; [split; [cbn [a_params builtin In]; tauto|split; [split; [reflexivity|exact example_key_valid]|reflexivity]]|].
  split; [apply NS|]. split; [generalize example_key_valid; generalize pubkey33_valid; intros pkv K; vm_compute in K; vm_compute; rewrite K; reflexivity|].
  split; [split; [cbn [a_params builtin In]; tauto|split; [exact I|reflexivity]]|].
  split; [apply NS|]. split; [vm_compute; reflexivity|]. vm_compute. lia. Qed.
(* non-vacuity, canonical form: an upper-case segwit string parses, and displaying the result gives a different (the lower-case) string *)
Example C06_nonvacuous_canonical :
  let s := "ERT1QWHH2N5QYPYPM0EUFAHM2PVJ8RAJ9ZQ5C27CYSU"%lb in
  exists a, parse_with_params (fun _ => []) (fun _ => true) s ELEMENTS = AOk a /\ is_segwit a /\ display (fun _ => []) a = lower s /\ lower s <> s.
Proof. cbv zeta. eexists. split; [vm_compute; reflexivity|]. split; [eexists _, _; reflexivity|]. split; [vm_compute; reflexivity|]. vm_compute. discriminate. Qed.

Check (C06_roundtrip : forall (H : bytes -> bytes) (pk_valid : bytes -> bool), (forall x, 4 <= length (H x))%nat ->
  forall a, wf_addr pk_valid a ->
  (parse_with_params H pk_valid (display H a) (a_params a) = AOk a /\ from_str H pk_valid (display H a) = AOk a) /\
  (is_segwit a -> parse_with_params H pk_valid (upper (display H a)) (a_params a) = AOk a /\ from_str H pk_valid (upper (display H a)) = AOk a)).
Check (C06_roundtrip_segwit : forall (H : bytes -> bytes) (pk_valid : bytes -> bool) a, wf_addr pk_valid a -> is_segwit a ->
  parse_with_params H pk_valid (display H a) (a_params a) = AOk a /\ from_str H pk_valid (display H a) = AOk a).
Check (C06_canonical : forall (H : bytes -> bytes) (pk_valid : bytes -> bool) s p a, parse_with_params H pk_valid s p = AOk a ->
  (is_segwit a /\ display H a = lower s) \/ (~ is_segwit a /\ display H a = s)).
Check (C06_one_network : forall (H : bytes -> bytes) (pk_valid : bytes -> bool) s p1 p2 a1 a2,
  In p1 builtin -> In p2 builtin -> parse_with_params H pk_valid s p1 = AOk a1 -> parse_with_params H pk_valid s p2 = AOk a2 -> p1 = p2).
Check (C06_parsed_shape : forall (H : bytes -> bytes) (pk_valid : bytes -> bool) s p a,
  parse_with_params H pk_valid s p = AOk a -> shape_ok s a /\ a_params a = p).
Check (C06_base58_codec : (forall bs, b58_decode (b58_encode bs) = Ok58 bs) /\ (forall s bs, b58_decode s = Ok58 bs -> b58_encode bs = s)).
Print Assumptions C06_parsed_shape.
Print Assumptions C06_F5_witnesses_rejected.
Print Assumptions C06_from_str_is_parse.
Print Assumptions C06_one_network.
Print Assumptions C06_roundtrip.
Print Assumptions C06_roundtrip_segwit.
Print Assumptions C06_roundtrip_segwit_upper.
Print Assumptions C06_roundtrip_base58.
Print Assumptions C06_canonical.
Print Assumptions C06_canonical_from_str.
Print Assumptions C06_mixed_case_rejected.
Print Assumptions C06_numeral.
Print Assumptions C06_base58_codec.
Print Assumptions C06_base58check.
Print Assumptions C06_base58_dispatch.
Print Assumptions C06_checksum_verifies.
Print Assumptions C06_checksum_unique.
Print Assumptions C06_regroup.
Print Assumptions C06_regroup_back.
Print Assumptions C06_segwit_canonical.

(* C12 — size, weight, vsize and discount weight equal the real serialized sizes. Statements only; proofs in Proofs/Sizes.v.
   tx_size / tx_weight / discount_weight / block_size are the Rust accessors transcribed term by term (Model/Sizes.v);
   enc (c_tx ..) is the consensus encoder of C01. For every curve oracle and every allocation cap. *)
From Coq Require Import List NArith Bool.
From Coq.Strings Require Import Byte.
From EV Require Import Base.Bytes Base.Codec Model.Tx Model.Block Model.Sizes Proofs.Sizes.
Import ListNotations.
Open Scope N_scope.

(* The scale factors and discounts of the model are those of the source now (Gen/Tables.v is regenerated on every run). *)
From EV Require Gen.Tables Proofs.TablesTie.
From EV Require Gen.SrcPreds Gen.SrcSizes Proofs.SrcPreds Proofs.SrcSizes.
Theorem C12_constants_from_source : forall t o,
  tx_weight t = scaled_size Tables.c12_weight_scale t /\ tx_size t = scaled_size Tables.c12_size_scale t
  /\ tx_vsize t = (tx_weight t + (Tables.c12_vsize_div - 1)) / Tables.c12_vsize_div
  /\ discount_vsize t = (discount_weight t + (Tables.c12_discount_vsize_div - 1)) / Tables.c12_discount_vsize_div
  /\ output_discount o = (output_wit o - Tables.c12_discount_witness_keep) + (if value_is_conf (out_value o) then Tables.c12_discount_value else 0)
                         + (if nonce_is_conf (out_nonce o) then Tables.c12_discount_nonce else 0).
Proof. intros t o. repeat split; reflexivity. Qed.

Section C12.
Variable pt_ok : bytes -> bool.
Variables maxvec cap_txin cap_txout cap_vecu8 cap_tx : N.
Notation TX := (c_tx pt_ok maxvec cap_txin cap_txout cap_vecu8).
Notation BLOCK := (c_block pt_ok maxvec cap_txin cap_txout cap_vecu8 cap_tx).

Theorem C12_size : forall t, wf TX t = true -> tx_size t = N.of_nat (length (enc TX t)).
Proof. exact (size_is_length pt_ok maxvec cap_txin cap_txout cap_vecu8). Qed.
(* weight = 3 x witness-stripped length + full length *)
Theorem C12_weight : forall t, wf TX t = true ->
  tx_weight t = 3 * N.of_nat (length (enc TX (strip_tx t))) + N.of_nat (length (enc TX t)).
Proof. exact (weight_is_lengths pt_ok maxvec cap_txin cap_txout cap_vecu8). Qed.
Theorem C12_vsize : forall t, tx_vsize t = (tx_weight t + 3) / 4 /\ 4 * tx_vsize t >= tx_weight t /\ 4 * tx_vsize t < tx_weight t + 4.
Proof. intros t. unfold tx_vsize, div_ceil4. repeat split; Lia.lia. Qed.
(* discount weight: the weight minus, per output, witness bytes beyond 2, 96 for a confidential value, 128 for a confidential nonce;
   the usize subtractions never underflow *)
Theorem C12_discount : forall t,
  discount_weight t = tx_weight t - nsum (map output_discount (tx_out t)) /\ nsum (map output_discount (tx_out t)) <= tx_weight t.
Proof. exact discount_is_weight_minus. Qed.
Theorem C12_discount_vsize : forall t, discount_vsize t = (discount_weight t + 3) / 4.
Proof. reflexivity. Qed.
Theorem C12_block_size : forall b, wf BLOCK b = true -> block_size maxvec cap_vecu8 b = N.of_nat (length (enc BLOCK b)).
Proof. exact (block_size_is_length pt_ok maxvec cap_txin cap_txout cap_vecu8 cap_tx). Qed.
(* a block's weight is four times its header-and-count bytes plus the weights of its transactions *)
Theorem C12_block_weight : forall b,
  block_weight maxvec cap_vecu8 b =
  4 * (N.of_nat (length (enc (c_header maxvec cap_vecu8) (b_header b))) + vi_size (N.of_nat (length (b_txs b)))) + nsum (map tx_weight (b_txs b)).
Proof. reflexivity. Qed.

(* the same statements about the accessors AS TRANSLATED FROM THE SOURCE on every run (Gen/SrcSizes.v, Gen/SrcPreds.v: rust2coq applied to
   Transaction::{scaled_size, size, weight, vsize, discount_weight, discount_vsize}, Block::{size, weight}, and the predicates they call).
   A change of any of those function bodies changes the definitions below; the equalities of Proofs/SrcSizes.v must then be re-proved. *)
Theorem C12_src_is_model : forall t k b,
  SrcSizes.src_Transaction_scaled_size t k = scaled_size k t /\ SrcSizes.src_Transaction_size t = tx_size t /\ SrcSizes.src_Transaction_weight t = tx_weight t
  /\ SrcSizes.src_Transaction_vsize t = tx_vsize t /\ SrcSizes.src_Transaction_discount_weight t = discount_weight t
  /\ SrcSizes.src_Transaction_discount_vsize t = discount_vsize t
  /\ SrcSizes.src_Block_size maxvec cap_vecu8 b = block_size maxvec cap_vecu8 b /\ SrcSizes.src_Block_weight maxvec cap_vecu8 b = block_weight maxvec cap_vecu8 b.
Proof. intros t k b. repeat split; auto using SrcSizes.src_scaled_size, SrcSizes.src_size, SrcSizes.src_weight, SrcSizes.src_vsize,
  SrcSizes.src_discount_weight, SrcSizes.src_discount_vsize, SrcSizes.src_block_size, SrcSizes.src_block_weight. Qed.
Theorem C12_src_size : forall t, wf TX t = true -> SrcSizes.src_Transaction_size t = N.of_nat (length (enc TX t)).
Proof. intros t W. rewrite SrcSizes.src_size. now apply C12_size. Qed.
Theorem C12_src_weight : forall t, wf TX t = true ->
  SrcSizes.src_Transaction_weight t = 3 * N.of_nat (length (enc TX (strip_tx t))) + N.of_nat (length (enc TX t)).
Proof. intros t W. rewrite SrcSizes.src_weight. now apply C12_weight. Qed.
Theorem C12_src_vsize : forall t, 4 * SrcSizes.src_Transaction_vsize t >= SrcSizes.src_Transaction_weight t
  /\ 4 * SrcSizes.src_Transaction_vsize t < SrcSizes.src_Transaction_weight t + 4.
Proof. intros t. rewrite SrcSizes.src_vsize, SrcSizes.src_weight. split; apply C12_vsize. Qed.
Theorem C12_src_discount : forall t,
  SrcSizes.src_Transaction_discount_weight t = SrcSizes.src_Transaction_weight t - nsum (map output_discount (tx_out t))
  /\ nsum (map output_discount (tx_out t)) <= SrcSizes.src_Transaction_weight t
  /\ SrcSizes.src_Transaction_discount_vsize t = (SrcSizes.src_Transaction_discount_weight t + 3) / 4.
Proof. intros t. rewrite SrcSizes.src_discount_weight, SrcSizes.src_weight, SrcSizes.src_discount_vsize. split; [|split]; [apply C12_discount|apply C12_discount|reflexivity]. Qed.
Theorem C12_src_block : forall b, wf BLOCK b = true ->
  SrcSizes.src_Block_size maxvec cap_vecu8 b = N.of_nat (length (enc BLOCK b))
  /\ SrcSizes.src_Block_weight maxvec cap_vecu8 b =
     4 * (N.of_nat (length (enc (c_header maxvec cap_vecu8) (b_header b))) + vi_size (N.of_nat (length (b_txs b)))) + nsum (map SrcSizes.src_Transaction_weight (b_txs b)).
Proof. intros b W. rewrite SrcSizes.src_block_size, SrcSizes.src_block_weight. split; [now apply C12_block_size|].
  rewrite C12_block_weight. f_equal. apply nsum_map_ext. intros x _. symmetry. apply SrcSizes.src_weight. Qed.
(* the accessors never panic: the no-panic conditions the translator generates from their bodies (division by the constant 4; no index, no
   subtraction outside discount_weight, whose subtractions are C12_discount) are true for every transaction and block *)
Theorem C12_src_no_panic : forall t k b,
  SrcSizes.src_Transaction_scaled_size_safe t k = true /\ SrcSizes.src_Transaction_size_safe t = true /\ SrcSizes.src_Transaction_weight_safe t = true
  /\ SrcSizes.src_Transaction_vsize_safe t = true /\ SrcSizes.src_Block_size_safe maxvec cap_vecu8 b = true /\ SrcSizes.src_Block_weight_safe maxvec cap_vecu8 b = true.
Proof. intros t k b. repeat split; auto using SrcSizes.src_scaled_size_safe, SrcSizes.src_size_safe, SrcSizes.src_weight_safe, SrcSizes.src_vsize_safe,
  SrcSizes.src_block_size_safe, SrcSizes.src_block_weight_safe. Qed.
End C12.

Check (C12_size : forall pt_ok maxvec cap_txin cap_txout cap_vecu8 t, wf (c_tx pt_ok maxvec cap_txin cap_txout cap_vecu8) t = true ->
  tx_size t = N.of_nat (length (enc (c_tx pt_ok maxvec cap_txin cap_txout cap_vecu8) t))).
Check (C12_weight : forall pt_ok maxvec cap_txin cap_txout cap_vecu8 t, wf (c_tx pt_ok maxvec cap_txin cap_txout cap_vecu8) t = true ->
  tx_weight t = 3 * N.of_nat (length (enc (c_tx pt_ok maxvec cap_txin cap_txout cap_vecu8) (strip_tx t))) + N.of_nat (length (enc (c_tx pt_ok maxvec cap_txin cap_txout cap_vecu8) t))).

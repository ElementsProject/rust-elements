(* C04 — blinding yields a transaction that verifies and that receivers can unblind.
   LEVEL: proof IN THE IDEAL-COMMITMENT MODEL (Model/Ideal.v) — partial with respect to cryptography: Pedersen commitments are
   formal linear combinations over independent generators, range/surjection proofs are ideal objects, ECDH is an abstract
   symmetric function. What is proved is the protocol logic of Transaction::blind / verify_tx_amt_proofs / TxOut::unblind
   (src/blind.rs) and ValueBlindingFactor::last (src/confidential.rs); nothing about libsecp256k1-zkp itself.
   Statements and examples; the proofs live in Proofs/Blind.v, Proofs/Verify.v, Proofs/Ideal.v (here at most a few lines of derivation). *)
From Coq Require Import List NArith ZArith Bool Lia.
From Coq.Strings Require Import Byte.
From EV Require Import Base.Bytes Base.Zn Base.FreeMod Gen.Tables Model.Script Model.Ideal Model.Verify Model.Blind
  Proofs.ScriptTemplates Proofs.Ideal Proofs.Verify Proofs.Blind.
Import ListNotations.
Open Scope Z_scope.

(* ValueBlindingFactor::last (the negated-inputs sum of secp256k1_pedersen_blind_generator_blind_sum) is the explicit formula
   Σ_in (v·abf+vbf) − Σ_out (v·abf+vbf) − v_last·abf_last  (mod n) *)
Theorem C04_last_vbf_formula : forall value abf ins outs,
  last_vbf value abf ins outs = zsub (zsub (zsum (map vb ins)) (zsum (map vb outs))) (zmul value abf).
Proof. exact last_vbf_formula. Qed.

(* with the last value blinding factor so computed the G-coordinates balance — for every split into inputs and outputs, every
   amounts and blinding factors: as scalars, and as the G-coefficient of the sums of commitments *)
Theorem C04_last_balances : forall (ins outs : list secrets) (a : N) (v abf : Z),
  let last := mkSec a abf v (last_vbf v abf (map value_blind_inputs ins) (map value_blind_inputs outs)) in
  zsum (map svb ins) = zsum (map svb (outs ++ [last]))
  /\ coeff (gsum (map scommit ins)) kG = coeff (gsum (map scommit (outs ++ [last]))) kG.
Proof.
  intros ins outs a v abf last.
  assert (S : zsum (map svb ins) = zsum (map svb (outs ++ [last]))).
  { pose proof (last_balances_scalar (map value_blind_inputs ins) (map value_blind_inputs outs) v abf) as H.
    rewrite map_app, !map_map in H. cbn [map] in H. rewrite map_app. exact H. }
  split; [exact S|]. now rewrite !coeff_gsum, !map_map, !zsum_G_total.
Qed.

(* an explicit transaction with positive amounts, balanced per asset (explicit issuances included), the true secrets of the spent
   outputs (`opens`), at least one marked output, address scripts on the marked outputs, and a surjection domain `ss` (the spent
   outputs and one pseudo-input per explicit issuance / inflation-keys amount) of at most SURJECTIONPROOF_MAX_N_INPUTS entries
   (the limit Asset::blind enforces, regenerated from src/blind.rs; beyond it see the C04_domain_limit theorems): for EVERY randomness,
   blinding succeeds and the result passes amount verification against the spent outputs *)
Theorem C04_blind_verifies : forall (pubk : Z -> Z) (ecdh : Z -> Z -> Z) (p : profile)
  (t : tx) (spent : list txout) (ss : list secrets) (rnd : list Z),
  explicit_positive t -> scripts_addressable t -> opens (t_in t) spent ss -> balanced_per_asset ss t ->
  existsb marked (t_out t) = true -> rnd_ok t rnd ->
  (N.of_nat (length ss) <= CT_SURJECTIONPROOF_MAX_N_INPUTS)%N ->
  exists t' bl, blind pubk ecdh p rnd ss t = OVal (t', bl) /\ verify_tx_amt_proofs t' spent = OVal tt.
Proof. exact blind_verifies. Qed.

(* each marked output is reported with its blinding factors, carries exactly the commitments those factors produce, and
   unblinds with the receiver's secret key to the original asset and value and the reported factors; nothing else changes.
   ECDH symmetry is the only fact about keys that is used. *)
Theorem C04_unblind : forall (pubk : Z -> Z) (ecdh : Z -> Z -> Z) (p : profile),
  (forall a b, ecdh (pubk a) b = ecdh (pubk b) a) ->
  forall (t : tx) (spent : list txout) (ss : list secrets) (rnd : list Z),
  explicit_positive t -> scripts_addressable t -> balanced_per_asset ss t ->
  existsb marked (t_out t) = true -> rnd_ok t rnd ->
  (N.of_nat (length ss) <= CT_SURJECTIONPROOF_MAX_N_INPUTS)%N ->
  exists t' bl, blind pubk ecdh p rnd ss t = OVal (t', bl) /\ length (t_out t') = length (t_out t) /\
    (forall i o, nth_error (t_out t) i = Some o -> marked o = true ->
       exists a v abf vbf esk o', o_asset o = AExp a /\ o_value o = VExp v /\
         In (i, (abf, vbf, esk)) bl /\ nth_error (t_out t') i = Some o' /\
         o_asset o' = AConf (asset_gen a abf) /\ o_value o' = VConf (commit v (asset_gen a abf) vbf) /\
         o_script o' = o_script o /\ o_nonce o' = NConf (pubk esk) /\
         forall rsk, o_nonce o = NConf (pubk rsk) -> unblind ecdh o' rsk = OVal (mkSec a abf v vbf)) /\
    (forall i x, In (i, x) bl -> exists o, nth_error (t_out t) i = Some o /\ marked o = true) /\
    (forall i o, nth_error (t_out t) i = Some o -> marked o = false -> nth_error (t_out t') i = Some o).
Proof. intros pubk ecdh p S t spent ss rnd. exact (blind_unblinds pubk ecdh p S t spent ss rnd). Qed.

(* with NO output marked, Transaction::blind returns BlindError::TooFewBlindingOutputs (repair 8d5600e of finding F12; it used
   to panic at `expect("Internal output calculation error")`) ... *)
Theorem C04_no_marked_error : forall (pubk : Z -> Z) (ecdh : Z -> Z -> Z) p rnd ss t,
  explicit_positive t -> existsb marked (t_out t) = false -> Forall in_zn rnd ->
  blind pubk ecdh p rnd ss t = OFail BTooFewBlindingOutputs.
Proof. exact blind_none_marked_error. Qed.
(* ... and it never panics there, whatever the transaction and the randomness: the outcome is one of the two documented errors *)
Theorem C04_no_marked_never_panics : forall (pubk : Z -> Z) (ecdh : Z -> Z -> Z) p rnd ss t,
  existsb marked (t_out t) = false ->
  blind pubk ecdh p rnd ss t = OFail BTooFewBlindingOutputs \/ blind pubk ecdh p rnd ss t = OFail BMustHaveAllExplicitTxOuts.
Proof.
  intros pubk ecdh p rnd ss t NM. rewrite (blind_none_marked pubk ecdh p rnd ss t NM). destruct (forallb _ (t_out t)); auto.
Qed.

(* ------------------------------------------------------------------ the size limit of the surjection domain
   Asset::blind with more than SURJECTIONPROOF_MAX_N_INPUTS spent entries, every one of which has a surjection target (no
   TxOutError): the targets are collected, then the call is refused with Upstream(CannotProveSurjection) — whatever the asset,
   whether or not any entry carries it *)
Theorem C04_domain_limit_asset_blind : forall (a : N) (abf : Z) (spent : list sinput),
  Forall (fun s => exists t, surjection_target s = OVal t) spent ->
  (CT_SURJECTIONPROOF_MAX_N_INPUTS < N.of_nat (length spent))%N ->
  asset_blind (AExp a) abf spent = OFail BCannotProveSurjection.
Proof. exact asset_blind_over_limit. Qed.
(* in particular for known secrets (TxOutSecrets always have a target) *)
Theorem C04_domain_limit_secrets : forall (a : N) (abf : Z) (ss : list secrets),
  (CT_SURJECTIONPROOF_MAX_N_INPUTS < N.of_nat (length ss))%N ->
  asset_blind (AExp a) abf (map sinput_of_secrets ss) = OFail BCannotProveSurjection.
Proof.
  intros a abf ss L. apply asset_blind_over_limit; [apply secrets_targets_total|now rewrite map_length].
Qed.
(* and Transaction::blind as a whole: with at least one marked output (explicit positive amounts, address scripts, enough
   randomness — balance and `opens` are not needed) the first marked output is reached, its surjection proof over `ss` is
   refused, and the call returns that error. With C04_blind_verifies: under the hypotheses of C04, blinding succeeds exactly
   when the domain is within the limit. *)
Theorem C04_domain_limit_blind : forall (pubk : Z -> Z) (ecdh : Z -> Z -> Z) (p : profile)
  (t : tx) (ss : list secrets) (rnd : list Z),
  explicit_positive t -> scripts_addressable t -> existsb marked (t_out t) = true -> rnd_ok t rnd ->
  (CT_SURJECTIONPROOF_MAX_N_INPUTS < N.of_nat (length ss))%N ->
  blind pubk ecdh p rnd ss t = OFail BCannotProveSurjection.
Proof. intros pubk ecdh p t ss rnd. exact (blind_over_limit pubk ecdh p rnd ss t). Qed.

(* ------------------------------------------------------------------ non-vacuity: a concrete balanced transaction
   2 inputs (explicit asset 1 / amount 100; confidential asset 2 / amount 50 with an explicit issuance of 30 units of asset 9),
   5 outputs: three marked ones, one unmarked, a fee. Keys are the ideal ones of the runner (pubk = id, ecdh = product). *)
Definition ex_pubk (sk : Z) : Z := sk.
Definition ex_ecdh (pk sk : Z) : Z := zmul pk sk.
Definition p2wpkh (b : byte) : bytes := x00 :: x14 :: repeat b 20.
Lemma p2wpkh_addressable b : exists ad, from_script (p2wpkh b) = Script.Val (Some ad).
Proof. apply from_script_some_iff. right. right. left. exists (repeat b 20). split; [apply repeat_length|reflexivity]. Qed.
Definition ex_s0 := mkSec 1 0 100 0.
Definition ex_s1 := mkSec 2 5 50 7.
Definition ex_in0 := mkIn null_issuance.
Definition ex_in1 := mkIn (mkIss (VExp 30) VNull 9 10).
Definition ex_spent := [mkOut (AExp 1) (VExp 100) NNull [x51] None None;
                        mkOut (AConf (sgen ex_s1)) (VConf (scommit ex_s1)) NNull [x51] None None].
Definition ex_ss := [ex_s0; ex_s1; mkSec 9 0 30 0].
Definition ex_outs (k1 k2 k3 : cnonce) :=
  [mkOut (AExp 1) (VExp 60) k1 (p2wpkh x01) None None;
   mkOut (AExp 1) (VExp 39) NNull (p2wpkh x02) None None;
   mkOut (AExp 1) (VExp 1) NNull [] None None;
   mkOut (AExp 2) (VExp 50) k2 (p2wpkh x03) None None;
   mkOut (AExp 9) (VExp 30) k3 (p2wpkh x04) None None].
Definition ex_tx := mkTx [ex_in0; ex_in1] (ex_outs (NConf (ex_pubk 11)) (NConf (ex_pubk 12)) (NConf (ex_pubk 13))).
Definition ex_rnd := [21; 22; 23; 24; 25; 26; 27; 28].

(* whatever the nonces (so whichever outputs are marked), the outputs are explicit and positive and balance the inputs *)
Lemma ex_explicit_positive k1 k2 k3 : explicit_positive (mkTx [ex_in0; ex_in1] (ex_outs k1 k2 k3)).
Proof. repeat constructor; eexists _, _; (split; [reflexivity|]); (split; [reflexivity|]); (split; [split; reflexivity|]); intro; discriminate. Qed.
Lemma ex_balanced k1 k2 k3 : balanced_per_asset ex_ss (mkTx [ex_in0; ex_in1] (ex_outs k1 k2 k3)).
Proof.
  intro b. unfold asset_total, out_total, ex_ss, ex_outs. cbn [t_out map isum fold_right o_asset o_value s_asset s_value ex_s0 ex_s1].
  destruct (N.eqb_spec b 1) as [->|N1]; [reflexivity|]. destruct (N.eqb_spec b 2) as [->|N2]; [reflexivity|].
  destruct (N.eqb_spec b 9) as [->|N9]; reflexivity.
Qed.
Example C04_example_hypotheses :
  explicit_positive ex_tx /\ scripts_addressable ex_tx /\ opens (t_in ex_tx) ex_spent ex_ss /\ balanced_per_asset ex_ss ex_tx
  /\ existsb marked (t_out ex_tx) = true /\ rnd_ok ex_tx ex_rnd /\ (forall a b, ex_ecdh (ex_pubk a) b = ex_ecdh (ex_pubk b) a)
  /\ (N.of_nat (length ex_ss) <= CT_SURJECTIONPROOF_MAX_N_INPUTS)%N.
Proof.
  split; [|split; [|split; [|split; [|split; [|split; [|split]]]]]]; [| | | | | | |vm_compute; discriminate].
  - apply ex_explicit_positive.
  - repeat constructor; intro M; try discriminate M; apply p2wpkh_addressable.
  - change ex_ss with (ex_s0 :: iss_secrets ex_in0 ++ ex_s1 :: iss_secrets ex_in1 ++ []).
    constructor; [left; split; reflexivity|left; repeat split; apply qn_u64; split; reflexivity|split; left; reflexivity|].
    constructor; [right; eexists; split; [reflexivity|reflexivity]|right; eexists; split; [reflexivity|reflexivity]| |constructor].
    split; [right; exists 30; split; [reflexivity|apply qn_u64; split; reflexivity]|left; reflexivity].
  - apply ex_balanced.
  - reflexivity.
  - split; [vm_compute; lia|]. unfold ex_rnd. repeat (constructor; [apply in_znb_spec; vm_compute; reflexivity|]). constructor.
  - intros a b. unfold ex_ecdh, ex_pubk. apply zmul_comm.
Qed.
(* and the model's run on it: blinding succeeds, the result verifies, the three receivers recover their secrets *)
Example C04_example_run :
  match blind ex_pubk ex_ecdh Debug ex_rnd ex_ss ex_tx with
  | OVal (t', bl) => verify_tx_amt_proofs t' ex_spent = OVal tt /\ map fst bl = [0%nat; 3%nat; 4%nat]
                     /\ option_map (fun o => unblind ex_ecdh o 12) (nth_error (t_out t') 3) = Some (OVal (mkSec 2 24 50 25))
  | _ => False end.
Proof.
  destruct C04_example_hypotheses as (EP & SA & OP & BA & EX & RN & _ & SM).
  destruct (C04_blind_verifies ex_pubk ex_ecdh Debug _ _ _ _ EP SA OP BA EX RN SM) as (t' & bl & B & V).
  (* that the result verifies is the theorem; the report and the unblinding are read off the run, which needs no commitment *)
  assert (R : match blind ex_pubk ex_ecdh Debug ex_rnd ex_ss ex_tx with
              | OVal (t', bl) => map fst bl = [0%nat; 3%nat; 4%nat]
                  /\ option_map (fun o => unblind ex_ecdh o 12) (nth_error (t_out t') 3) = Some (OVal (mkSec 2 24 50 25))
              | _ => False end) by (vm_compute; split; reflexivity).
  rewrite B in *. exact (conj V R).
Qed.
(* the former F12 witness: the same balanced transaction with no output marked now yields the error *)
Example C04_no_marked_example : exists t ss rnd,
  explicit_positive t /\ balanced_per_asset ss t /\ existsb marked (t_out t) = false
  /\ blind ex_pubk ex_ecdh Debug rnd ss t = OFail BTooFewBlindingOutputs.
Proof.
  exists (mkTx [ex_in0; ex_in1] (ex_outs NNull NNull NExp)), ex_ss, ex_rnd. split; [|split; [|split]].
  - apply ex_explicit_positive.
  - apply ex_balanced.
  - reflexivity.
  - vm_compute. reflexivity.
Qed.
(* the boundary of the domain limit on a toy instance: SURJECTIONPROOF_MAX_N_INPUTS (= 256 today) copies of the secrets of one
   spent output are accepted — the surjection proof points at the first — and one more is refused; likewise the whole
   Transaction::blind on a one-output transaction (100 units of asset 1 spent per entry, all paid to one marked output) *)
Definition lim_n : nat := N.to_nat CT_SURJECTIONPROOF_MAX_N_INPUTS.
Definition lim_tx (n : nat) : tx :=
  mkTx (repeat ex_in0 n) [mkOut (AExp 1) (VExp (100 * Z.of_nat n)) (NConf (ex_pubk 11)) (p2wpkh x01) None None].
(* n copies of the spent output open lim_tx n, which pays their sum to its one marked output: the hypotheses of C04_blind_verifies
   but the size of the domain hold for every n whose total a range proof can cover *)
Lemma lim_hypotheses n : 0 < 100 * Z.of_nat n <= I64_MAX ->
  explicit_positive (lim_tx n) /\ scripts_addressable (lim_tx n)
  /\ opens (t_in (lim_tx n)) (repeat (mkOut (AExp 1) (VExp 100) NNull [x51] None None) n) (repeat ex_s0 n)
  /\ balanced_per_asset (repeat ex_s0 n) (lim_tx n)
  /\ existsb marked (t_out (lim_tx n)) = true /\ rnd_ok (lim_tx n) [21; 22].
Proof.
  intro V. split; [|split; [|split; [|split; [|split]]]].
  - constructor; [|constructor]. exists 1%N, (100 * Z.of_nat n).
    split; [reflexivity|]. split; [reflexivity|]. split; [|intros _; apply V].
    split; [apply V|]. apply Z.le_lt_trans with I64_MAX; [apply V|reflexivity].
  - constructor; [|constructor]. intros _. apply p2wpkh_addressable.
  - clear V. induction n as [|n IH]; [constructor|].
    apply (opens_cons ex_in0 _ ex_s0 _ _ _); [left|left|split; left|exact IH]; repeat split.
  - clear V. intro b. unfold out_total, lim_tx. cbn [t_out map isum fold_right o_asset o_value].
    induction n as [|n IH]; [now destruct (N.eqb b 1)|]. unfold asset_total in *. cbn [repeat map isum fold_right s_asset s_value ex_s0].
    fold isum. unfold isum in IH. rewrite IH, Nat2Z.inj_succ. destruct (N.eqb b 1); lia.
  - reflexivity.
  - split; [cbn; lia|repeat constructor; easy].
Qed.
Lemma lim_n_fits : 0 < 100 * Z.of_nat lim_n /\ 100 * Z.of_nat (S lim_n) <= I64_MAX.
Proof. unfold lim_n. rewrite Nat2Z.inj_succ, N_nat_Z. split; [reflexivity|discriminate]. Qed.
Example C04_domain_limit_boundary :
  asset_blind (AExp 1) 21 (repeat (sinput_of_secrets ex_s0) lim_n)
    = OVal (AConf (asset_gen 1 21), mkSP (asset_gen 1 21) (repeat (sgen ex_s0) lim_n) 0 21 true)
  /\ asset_blind (AExp 1) 21 (repeat (sinput_of_secrets ex_s0) (S lim_n)) = OFail BCannotProveSurjection
  /\ (exists t' bl, blind ex_pubk ex_ecdh Debug [21; 22] (repeat ex_s0 lim_n) (lim_tx lim_n) = OVal (t', bl)
                    /\ verify_tx_amt_proofs t' (repeat (mkOut (AExp 1) (VExp 100) NNull [x51] None None) lim_n) = OVal tt)
  /\ blind ex_pubk ex_ecdh Debug [21; 22] (repeat ex_s0 (S lim_n)) (lim_tx (S lim_n)) = OFail BCannotProveSurjection.
Proof.
  pose proof (N2Nat.id CT_SURJECTIONPROOF_MAX_N_INPUTS) as E. fold lim_n in E. destruct lim_n_fits as [F0 F1].
  revert E F0 F1. generalize lim_n. intros [|n] E F0 F1; [discriminate F0|].
  assert (AT : (N.of_nat (length (repeat ex_s0 (S n))) <= CT_SURJECTIONPROOF_MAX_N_INPUTS)%N)
    by (rewrite repeat_length, E; apply N.le_refl).
  assert (OV : (CT_SURJECTIONPROOF_MAX_N_INPUTS < N.of_nat (length (repeat ex_s0 (S (S n)))))%N)
    by (rewrite repeat_length, Nat2N.inj_succ, E; apply N.lt_succ_diag_r).
  destruct (lim_hypotheses (S n)) as (EP & SA & OP & BA & EX & RN); [rewrite Nat2Z.inj_succ in F1; lia|].
  destruct (lim_hypotheses (S (S n))) as (EP1 & SA1 & _ & _ & EX1 & RN1); [lia|].
  split; [|split; [|split]].
  - rewrite <- !map_repeat. exact (asset_blind_secrets 1 21 (repeat ex_s0 (S n)) 0 0 AT eq_refl).
  - rewrite <- map_repeat. exact (C04_domain_limit_secrets 1 21 _ OV).
  - exact (C04_blind_verifies ex_pubk ex_ecdh Debug _ _ _ _ EP SA OP BA EX RN AT).
  - exact (C04_domain_limit_blind ex_pubk ex_ecdh Debug _ _ _ EP1 SA1 EX1 RN1 OV).
Qed.

Check (C04_last_balances : forall (ins outs : list secrets) (a : N) (v abf : Z),
  let last := mkSec a abf v (last_vbf v abf (map value_blind_inputs ins) (map value_blind_inputs outs)) in
  zsum (map svb ins) = zsum (map svb (outs ++ [last]))
  /\ coeff (gsum (map scommit ins)) kG = coeff (gsum (map scommit (outs ++ [last]))) kG).
Check (C04_blind_verifies : forall (pubk : Z -> Z) (ecdh : Z -> Z -> Z) (p : profile)
  (t : tx) (spent : list txout) (ss : list secrets) (rnd : list Z),
  explicit_positive t -> scripts_addressable t -> opens (t_in t) spent ss -> balanced_per_asset ss t ->
  existsb marked (t_out t) = true -> rnd_ok t rnd ->
  (N.of_nat (length ss) <= CT_SURJECTIONPROOF_MAX_N_INPUTS)%N ->
  exists t' bl, blind pubk ecdh p rnd ss t = OVal (t', bl) /\ verify_tx_amt_proofs t' spent = OVal tt).
Check (C04_unblind : forall (pubk : Z -> Z) (ecdh : Z -> Z -> Z) (p : profile),
  (forall a b, ecdh (pubk a) b = ecdh (pubk b) a) ->
  forall (t : tx) (spent : list txout) (ss : list secrets) (rnd : list Z),
  explicit_positive t -> scripts_addressable t -> balanced_per_asset ss t ->
  existsb marked (t_out t) = true -> rnd_ok t rnd ->
  (N.of_nat (length ss) <= CT_SURJECTIONPROOF_MAX_N_INPUTS)%N ->
  exists t' bl, blind pubk ecdh p rnd ss t = OVal (t', bl) /\ length (t_out t') = length (t_out t) /\
    (forall i o, nth_error (t_out t) i = Some o -> marked o = true ->
       exists a v abf vbf esk o', o_asset o = AExp a /\ o_value o = VExp v /\
         In (i, (abf, vbf, esk)) bl /\ nth_error (t_out t') i = Some o' /\
         o_asset o' = AConf (asset_gen a abf) /\ o_value o' = VConf (commit v (asset_gen a abf) vbf) /\
         o_script o' = o_script o /\ o_nonce o' = NConf (pubk esk) /\
         forall rsk, o_nonce o = NConf (pubk rsk) -> unblind ecdh o' rsk = OVal (mkSec a abf v vbf)) /\
    (forall i x, In (i, x) bl -> exists o, nth_error (t_out t) i = Some o /\ marked o = true) /\
    (forall i o, nth_error (t_out t) i = Some o -> marked o = false -> nth_error (t_out t') i = Some o)).
Check (C04_no_marked_never_panics : forall (pubk : Z -> Z) (ecdh : Z -> Z -> Z) p rnd ss t,
  existsb marked (t_out t) = false ->
  blind pubk ecdh p rnd ss t = OFail BTooFewBlindingOutputs \/ blind pubk ecdh p rnd ss t = OFail BMustHaveAllExplicitTxOuts).
Print Assumptions C04_last_vbf_formula.
Print Assumptions C04_last_balances.
Print Assumptions C04_blind_verifies.
Print Assumptions C04_unblind.
Print Assumptions C04_no_marked_error.
Check (C04_domain_limit_asset_blind : forall (a : N) (abf : Z) (spent : list sinput),
  Forall (fun s => exists t, surjection_target s = OVal t) spent ->
  (CT_SURJECTIONPROOF_MAX_N_INPUTS < N.of_nat (length spent))%N ->
  asset_blind (AExp a) abf spent = OFail BCannotProveSurjection).
Check (C04_domain_limit_blind : forall (pubk : Z -> Z) (ecdh : Z -> Z -> Z) (p : profile)
  (t : tx) (ss : list secrets) (rnd : list Z),
  explicit_positive t -> scripts_addressable t -> existsb marked (t_out t) = true -> rnd_ok t rnd ->
  (CT_SURJECTIONPROOF_MAX_N_INPUTS < N.of_nat (length ss))%N ->
  blind pubk ecdh p rnd ss t = OFail BCannotProveSurjection).
Print Assumptions C04_no_marked_never_panics.
Print Assumptions C04_domain_limit_asset_blind.
Print Assumptions C04_domain_limit_secrets.
Print Assumptions C04_domain_limit_blind.

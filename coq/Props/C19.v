(* C19 — dynafed parameter roots survive compaction and match the commitment layout: equations between the transcribed functions, by unfolding.
   H (double-SHA256) and cmp (the compression of fast_merkle_root; C18 proves fast_merkle_root is the definitional tree) are universally quantified. *)
From Coq Require Import List NArith Bool.
From Coq.Strings Require Import Byte.
From EV Require Import Base.Bytes Base.Codec Model.Tx Model.Block Model.Ids.
Import ListNotations.
Open Scope N_scope.

Section C19.
Variable H : bytes -> bytes.
Variable cmp : bytes -> bytes -> bytes.
Variables maxvec cap_vecu8 : N.
Notation ROOT := (params_calculate_root H cmp maxvec cap_vecu8).

Theorem C19_compaction_preserves_root : forall f, ROOT (full_into_compact H cmp maxvec cap_vecu8 f) = ROOT (PFull f).
Proof. reflexivity. Qed.
Theorem C19_into_compact : forall p c, params_into_compact H cmp maxvec cap_vecu8 p = Some c -> ROOT c = ROOT p.
Proof. intros [|s l e|f] c [= <-]; reflexivity. Qed.
Theorem C19_two_computations_agree : forall f, full_calculate_root H cmp maxvec cap_vecu8 f = ROOT (PFull f).
Proof. reflexivity. Qed.
(* two-level layout: (signblockscript, witness limit) against (fedpeg program, fedpeg script, extension space) *)
Theorem C19_layout_full : forall f, ROOT (PFull f) =
  cmp (cmp (H (enc (c_script maxvec) (fp_sbs f))) (H (enc c_u32 (fp_limit f))))
      (cmp (cmp (H (enc (c_script maxvec) (fp_program f))) (H (enc (c_script maxvec) (fp_script f)))) (H (enc (c_stack maxvec cap_vecu8) (fp_ext f)))).
Proof. reflexivity. Qed.
Theorem C19_layout_compact : forall s l e, ROOT (PCompact s l e) = cmp (cmp (H (enc (c_script maxvec) s)) (H (enc c_u32 l))) e.
Proof. reflexivity. Qed.
Theorem C19_null_root : ROOT PNull = zero32.
Proof. reflexivity. Qed.
Theorem C19_compact_keeps_signblock : forall f, full_into_compact H cmp maxvec cap_vecu8 f = PCompact (fp_sbs f) (fp_limit f) (full_extra_root H cmp maxvec cap_vecu8 f).
Proof. reflexivity. Qed.
Theorem C19_header_root : forall h c p w, h_ext h = EDynafed c p w -> header_dynafed_root H cmp maxvec cap_vecu8 h = Some (cmp (ROOT c) (ROOT p)).
Proof. intros h c p w E. unfold header_dynafed_root. now rewrite E. Qed.
Theorem C19_header_root_proof : forall h c s, h_ext h = EProof c s -> header_dynafed_root H cmp maxvec cap_vecu8 h = None.
Proof. intros h c s E. unfold header_dynafed_root. now rewrite E. Qed.
End C19.
Check (C19_compaction_preserves_root : forall H cmp maxvec cap_vecu8 f,
  params_calculate_root H cmp maxvec cap_vecu8 (full_into_compact H cmp maxvec cap_vecu8 f) = params_calculate_root H cmp maxvec cap_vecu8 (PFull f)).

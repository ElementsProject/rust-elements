(* C10, allocation: the instrumented decoders of Model/Alloc.v are the decoders of C01 (definitionally; shown layer by layer), and
   what they reserve is bounded by  K + k * |input|  where K counts one MAX_VEC_SIZE per nesting level of length-prefixed vectors.
   The law is compositional:
     al_min  : a successful decode consumed at least m bytes
     al_paid : on success, everything reserved is paid for by consumed input at rate k
     al_fail : on failure, at most K bytes are reserved beyond what the consumed input pays for at rate k *)
From Coq Require Import List NArith ZArith Lia Bool ZifyN ZifyBool ZifyNat.
From Coq.Strings Require Import Byte.
From EV Require Import Base.Bytes Base.Codec Model.Tx Model.Block Model.Alloc Proofs.Tx Proofs.Block.
Import ListNotations.
Ltac Zify.zify_post_hook ::= Z.div_mod_to_equations.
Open Scope N_scope.
Set Default Timeout 60.

Definition len (bs : bytes) : N := N.of_nat (length bs).

Record ALaw {A} (m k K : N) (c : acodec A) : Prop := {
  al_min  : forall bs v rest, dec (ac c) bs = Some (v, rest) -> len rest + m <= len bs;
  al_paid : forall bs v rest, dec (ac c) bs = Some (v, rest) -> rsv c bs + k * len rest <= k * len bs;
  al_fail : forall bs, dec (ac c) bs = None -> rsv c bs <= K + k * len bs }.
Arguments al_min {A m k K c}. Arguments al_paid {A m k K c}. Arguments al_fail {A m k K c}.

(* the three clauses as one statement about the decode of one input, so that a combinator needs one case analysis *)
Definition alaw_on {A} (m k K : N) (c : acodec A) (bs : bytes) : Prop :=
  match dec (ac c) bs with
  | Some (_, rest) => len rest + m <= len bs /\ rsv c bs + k * len rest <= k * len bs
  | None => rsv c bs <= K + k * len bs end.
Lemma alaw_at {A m k K} {c : acodec A} : ALaw m k K c -> forall bs, alaw_on m k K c bs.
Proof. intros [Hm Hp Hf] bs. unfold alaw_on. destruct (dec (ac c) bs) as [[v rest]|] eqn:D; eauto. Qed.
Lemma alaw_of {A} m k K (c : acodec A) : (forall bs, alaw_on m k K c bs) -> ALaw m k K c.
Proof. intros H. split; intros bs; intros; specialize (H bs); unfold alaw_on in H; rewrite H0 in H; apply H. Qed.

Lemma pay_up k k' x y y' r : k <= k' -> x <= y -> y <= y' -> r + k * x <= k * y -> r + k' * x <= k' * y'.
Proof. intros Hk Hx Hy H. apply N.le_exists_sub in Hk as (d & -> & _).
  pose proof (N.mul_le_mono_l x y d Hx). pose proof (N.mul_le_mono_l y y' (d + k) Hy). lia. Qed.

Lemma alaw_weaken {A m k K m' k' K'} {c : acodec A} : ALaw m k K c -> m' <= m -> k <= k' -> K <= K' -> ALaw m' k' K' c.
Proof. intros L L1 L2 L3. apply alaw_of. intros bs. pose proof (alaw_at L bs) as H. unfold alaw_on in *.
  destruct (dec (ac c) bs) as [[v rest]|].
  - split; [lia|]. apply (pay_up k k' _ (len bs)); lia.
  - pose proof (N.mul_le_mono_r k k' (len bs) L2). lia. Qed.
(* the statement of the property: whatever the input, accepted or not *)
Lemma alaw_bound {A} m k K (c : acodec A) : ALaw m k K c -> forall bs, rsv c bs <= K + k * len bs.
Proof. intros L bs. pose proof (alaw_at L bs) as H. unfold alaw_on in H. destruct (dec (ac c) bs) as [[v rest]|]; lia. Qed.

Lemma alaw_leaf {A} m k K (c : codec A) : (forall bs v rest, dec c bs = Some (v, rest) -> len rest + m <= len bs) -> ALaw m k K (a_leaf c).
Proof. intros H. apply alaw_of. intros bs. unfold alaw_on. cbn [a_leaf ac rsv]. specialize (H bs).
  destruct (dec c bs) as [[v rest]|]; [specialize (H v rest eq_refl)|lia]. split; [exact H|]. apply (pay_up 0 k _ (len bs)); lia. Qed.
Lemma lawful_min {A} (c : codec A) m : Lawful c -> (forall v, wf c v = true -> m <= len (enc c v)) ->
  forall bs v rest, dec c bs = Some (v, rest) -> len rest + m <= len bs.
Proof. intros L H bs v rest D. pose proof (l_wf L _ _ _ D) as W. apply (l_exact L) in D. subst bs. specialize (H v W). unfold len in *. rewrite app_length. lia. Qed.
(* an empty encoding would decode from the empty input *)
Lemma lawful_min1 {A} (c : codec A) : Lawful c -> dec c [] = None -> forall bs v rest, dec c bs = Some (v, rest) -> len rest + 1 <= len bs.
Proof. intros L E. apply (lawful_min c 1 L). intros v W. pose proof (l_complete L v [] W) as D.
  destruct (enc c v); [cbn [app] in D; congruence|unfold len; cbn [length]; lia]. Qed.
Lemma alaw_lawful {A} k K (c : codec A) : Lawful c -> ALaw 0 k K (a_leaf c).
Proof. intros L. apply alaw_leaf, (lawful_min c 0 L). intros. apply N.le_0_l. Qed.

Lemma alaw_dep {A B m1 m2 k K} {ca : acodec A} {cb : A -> acodec B} :
  ALaw m1 k K ca -> (forall a, ALaw m2 k K (cb a)) -> ALaw (m1 + m2) k K (a_dep ca cb).
Proof. intros La Lb. apply alaw_of. intros bs. pose proof (alaw_at La bs) as Ha. unfold alaw_on in *. cbn [a_dep ac rsv c_dep dec].
  destruct (dec (ac ca) bs) as [[a r]|]; [|lia]. pose proof (alaw_at (Lb a) r) as Hb. unfold alaw_on in Hb.
  destruct (dec (ac (cb a)) r) as [[b r']|]; lia. Qed.
Lemma alaw_pair {A B m1 m2 k K} {ca : acodec A} {cb : acodec B} : ALaw m1 k K ca -> ALaw m2 k K cb -> ALaw (m1 + m2) k K (a_pair ca cb).
Proof. intros La Lb. apply alaw_of. exact (alaw_at (alaw_dep La (fun _ => Lb))). Qed.
Lemma alaw_conv {A B m k K} {c : acodec A} {to : A -> option B} {from wfB} : ALaw m k K c -> ALaw m k K (a_conv c to from wfB).
Proof. intros L. apply alaw_of. intros bs. pose proof (alaw_at L bs) as H. unfold alaw_on in *. cbn [a_conv ac rsv c_conv dec].
  destruct (dec (ac c) bs) as [[a r]|]; [destruct (to a)|]; lia. Qed.
Lemma alaw_guard {A} m k K (c : acodec A) p : ALaw m k K c -> ALaw m k K (a_guard c p).
Proof. intros L. apply alaw_of. intros bs. pose proof (alaw_at L bs) as H. unfold alaw_on in *. cbn [a_guard ac rsv c_guard dec].
  destruct (dec (ac c) bs) as [[a r]|]; [destruct (p a)|]; lia. Qed.
Lemma alaw_if {A m k K} (b : bool) {x y : acodec A} : ALaw m k K x -> ALaw m k K y -> ALaw m k K (a_if b x y).
Proof. intros Hx Hy. apply alaw_of. destruct b; [exact (alaw_at Hx)|exact (alaw_at Hy)]. Qed.

Lemma alaw_vecn {A m k K} {c : acodec A} : ALaw m k K c -> forall n, ALaw (N.of_nat n * m) k K (a_vecn c n).
Proof. intros L n. apply alaw_of. unfold alaw_on. cbn [a_vecn ac rsv c_vecn dec].
  induction n as [|n IH]; intros bs; cbn [vn_dec rsv_n]; [lia|]. pose proof (alaw_at L bs) as H. unfold alaw_on in H.
  destruct (dec (ac c) bs) as [[a r]|]; [|lia]. specialize (IH r). destruct (vn_dec (ac c) n r) as [[l r']|]; lia. Qed.

Lemma vi_dec_min bs n r : vi_dec bs = Some (n, r) -> len r + 1 <= len bs.
Proof. exact (lawful_min1 c_varint c_varint_lawful eq_refl bs n r). Qed.

(* Vec<T>: the n * sz bytes reserved at once are paid for by the n elements of at least m bytes each, at rate ceil(sz / m);
   when an element fails, what was reserved for the vector is within maxvec *)
Lemma alaw_vec {A m k K sz maxvec k' K'} {c : acodec A} : ALaw m k K c -> 1 <= m -> k + cdiv sz m <= k' -> maxvec + K <= K' ->
  ALaw 1 k' K' (a_vec c sz maxvec).
Proof. intros L M1 Gk GK. assert (Q : sz <= cdiv sz m * m) by (unfold cdiv; nia).
  apply alaw_of. intros bs. unfold alaw_on. cbn [a_vec ac rsv c_vec dec].
  destruct (vi_dec bs) as [[n r]|] eqn:Dv; [|lia]. pose proof (vi_dec_min _ _ _ Dv) as V.
  destruct (N.ltb_spec (maxvec / sz) n) as [|Hn]; [lia|].
  pose proof (alaw_at (alaw_vecn L (N.to_nat n)) r) as H. unfold alaw_on in H. cbn [a_vecn ac rsv c_vecn dec] in H. rewrite Nnat.N2Nat.id in H.
  destruct (vn_dec (ac c) (N.to_nat n) r) as [[l rest]|].
  - destruct H as [Hm Hp]. split; [lia|].
    assert (n * sz + cdiv sz m * len rest <= cdiv sz m * len r).
    { pose proof (N.mul_le_mono_l _ _ n Q). pose proof (N.mul_le_mono_l _ _ (cdiv sz m) Hm). lia. }
    apply (pay_up (k + cdiv sz m) k' _ (len r)); lia.
  - assert (n * sz <= maxvec).
    { destruct (N.eq_dec sz 0) as [->|NZ]; [lia|]. pose proof (N.mul_div_le maxvec sz NZ). pose proof (N.mul_le_mono_l _ _ sz Hn). lia. }
    pose proof (N.mul_le_mono k k' (len r) (len bs)). lia. Qed.

Lemma alaw_varbytes maxvec : ALaw 1 1 maxvec (a_varbytes maxvec).
Proof. apply alaw_of. intros bs. unfold alaw_on. cbn [a_varbytes ac rsv c_varbytes dec].
  destruct (vi_dec bs) as [[n r]|] eqn:Dv; [|lia]. pose proof (vi_dec_min _ _ _ Dv).
  destruct (N.ltb_spec maxvec n); [lia|]. destruct (take (N.to_nat n) r) as [[v rest]|] eqn:T; [|lia].
  apply take_spec in T as [-> Hl]. unfold len in *. rewrite app_length in *. lia. Qed.

Section ATX.
Variable pt_ok : bytes -> bool.
Variable maxvec : N.
Variables sz_txin sz_txout sz_vecu8 sz_tx : N.
Notation cap_txin := (maxvec / sz_txin). Notation cap_txout := (maxvec / sz_txout).
Notation cap_vecu8 := (maxvec / sz_vecu8). Notation cap_tx := (maxvec / sz_tx).
Notation A_TX := (a_tx pt_ok maxvec sz_txin sz_txout sz_vecu8).
Notation A_BLOCK := (a_block pt_ok maxvec sz_txin sz_txout sz_vecu8 sz_tx).

(* the instrumented decoders ARE the decoders C01 is about.  Each equation holds by computation; the composite ones are
   shown one layer at a time from those of their parts, since comparing the fully unfolded records is slow to check *)
Lemma a_txin_is_c_txin : ac (a_txin_nowit pt_ok maxvec) = c_txin pt_ok maxvec. Proof. reflexivity. Qed.
Lemma a_txout_is_c_txout : ac (a_txout_nowit pt_ok maxvec) = c_txout pt_ok maxvec. Proof. reflexivity. Qed.
Lemma a_tx_is_c_tx : ac A_TX = c_tx pt_ok maxvec cap_txin cap_txout cap_vecu8.
Proof. unfold a_tx, c_tx, a_tx_wire, c_tx_wire, a_tx_head, c_tx_head. cbn [ac a_conv a_dep a_pair a_vec].
  rewrite a_txin_is_c_txin, a_txout_is_c_txout. reflexivity. Qed.
Lemma a_params_is_c_params : ac (a_params maxvec sz_vecu8) = c_params maxvec cap_vecu8. Proof. reflexivity. Qed.
Lemma a_header_is_c_header : ac (a_header maxvec sz_vecu8) = c_header maxvec cap_vecu8.
Proof. unfold a_header, c_header, a_header_wire, c_header_wire, a_ext_dynafed, c_ext_dynafed. cbn [ac a_conv a_dep a_if a_pair].
  rewrite a_params_is_c_params. reflexivity. Qed.
Lemma a_block_is_c_block : ac A_BLOCK = c_block pt_ok maxvec cap_txin cap_txout cap_vecu8 cap_tx.
Proof. unfold a_block, c_block. cbn [ac a_conv a_pair a_vec]. rewrite a_header_is_c_header, a_tx_is_c_tx. reflexivity. Qed.

Lemma min_fixed k bs v rest : dec (c_fixed k) bs = Some (v, rest) -> len rest + N.of_nat k <= len bs.
Proof. cbn. intros D. apply take_spec in D as [-> L]. unfold len. rewrite app_length. lia. Qed.
Lemma min_le k bs v rest : dec (c_le k) bs = Some (v, rest) -> len rest + N.of_nat k <= len bs.
Proof. cbn. intros D. apply le_dec_exact in D as [-> _]. unfold len. rewrite app_length, le_enc_length. lia. Qed.
Lemma min_value bs v rest : dec (c_value pt_ok) bs = Some (v, rest) -> len rest + 1 <= len bs.
Proof. exact (lawful_min1 _ (c_value_lawful pt_ok) eq_refl bs v rest). Qed.

Lemma al_hash32 k K : ALaw 32 k K a_hash32. Proof. exact (alaw_leaf 32 k K _ (min_fixed 32)). Qed.
Lemma al_u32 k K : ALaw 4 k K a_u32. Proof. exact (alaw_leaf 4 k K _ (min_le 4)). Qed.
Lemma al_script k K : 1 <= k -> maxvec <= K -> ALaw 1 k K (a_script maxvec).
Proof. intros. apply (alaw_weaken (alaw_varbytes maxvec)); lia. Qed.
Lemma al_optproof ok k K : 1 <= k -> maxvec <= K -> ALaw 1 k K (a_optproof maxvec ok).
Proof. intros Hk HK. apply alaw_conv, (al_script k K Hk HK). Qed.
Lemma al_stack k K : k_stack sz_vecu8 <= k -> 2 * maxvec <= K -> ALaw 1 k K (a_stack maxvec sz_vecu8).
Proof. intros Hk HK. apply (alaw_vec (alaw_varbytes maxvec)); unfold k_stack, cdiv in *; lia. Qed.

Lemma al_inwit k K : k_stack sz_vecu8 <= k -> 2 * maxvec <= K -> ALaw 4 k K (a_inwit maxvec sz_vecu8).
Proof. intros Hk HK. assert (P : forall ok, ALaw 1 k K (a_optproof maxvec ok)) by (intros ok; apply al_optproof; unfold k_stack in Hk; lia).
  exact (alaw_conv (alaw_pair (P _) (alaw_pair (P _) (alaw_pair (al_stack k K Hk HK) (al_stack k K Hk HK))))). Qed.
Lemma al_outwit k K : 1 <= k -> maxvec <= K -> ALaw 2 k K (a_outwit maxvec).
Proof. intros Hk HK. exact (alaw_conv (alaw_pair (al_optproof _ k K Hk HK) (al_optproof _ k K Hk HK))). Qed.

Lemma al_txin k K : 1 <= k -> maxvec <= K -> ALaw 41 k K (a_txin_nowit pt_ok maxvec).
Proof. intros Hk HK. apply alaw_conv, (alaw_dep (m1 := 41) (m2 := 0)).
  - exact (alaw_pair (alaw_pair (al_hash32 k K) (al_u32 k K)) (alaw_pair (al_script k K Hk HK) (al_u32 k K))).
  - intros h. apply alaw_if; apply alaw_lawful; [apply c_issuance_lawful|apply c_noiss_lawful]. Qed.
Lemma al_txout k K : 1 <= k -> maxvec <= K -> ALaw 4 k K (a_txout_nowit pt_ok maxvec).
Proof. intros Hk HK.
  exact (alaw_conv (alaw_pair (alaw_leaf 1 k K _ (lawful_min1 _ (c_asset_lawful pt_ok) eq_refl))
    (alaw_pair (alaw_leaf 1 k K _ min_value) (alaw_pair (alaw_leaf 1 k K _ (lawful_min1 _ (c_nonce_lawful pt_ok) eq_refl)) (al_script k K Hk HK))))). Qed.

Theorem al_tx k K : k_tx sz_txin sz_txout sz_vecu8 <= k -> 2 * maxvec <= K -> ALaw 11 k K A_TX.
Proof. intros Hk HK. unfold k_tx in Hk.
  assert (I : ALaw 1 k K (a_vec (a_txin_nowit pt_ok maxvec) sz_txin maxvec))
    by (apply (alaw_vec (al_txin 1 maxvec (N.le_refl _) (N.le_refl _))); lia).
  assert (O : ALaw 1 k K (a_vec (a_txout_nowit pt_ok maxvec) sz_txout maxvec))
    by (apply (alaw_vec (al_txout 1 maxvec (N.le_refl _) (N.le_refl _))); lia).
  assert (W : ALaw 4 k K (a_inwit maxvec sz_vecu8) /\ ALaw 2 k K (a_outwit maxvec))
    by (split; [apply al_inwit|apply al_outwit]; unfold k_stack in *; lia).
  apply alaw_conv, (alaw_dep (m1 := 11) (m2 := 0)).
  - exact (alaw_pair (al_u32 k K) (alaw_pair (alaw_leaf 1 k K _ (lawful_min1 _ c_u8_lawful eq_refl)) (alaw_pair I (alaw_pair O (al_u32 k K))))).
  - intros h. apply alaw_if; [|apply alaw_lawful, c_nowits_lawful].
    apply (alaw_weaken (alaw_pair (alaw_vecn (proj1 W) _) (alaw_vecn (proj2 W) _))); lia. Qed.

Lemma al_fullparams k K : k_stack sz_vecu8 <= k -> 2 * maxvec <= K -> ALaw 8 k K (a_fullparams maxvec sz_vecu8).
Proof. intros Hk HK. assert (S : ALaw 1 k K (a_script maxvec)) by (apply al_script; unfold k_stack in Hk; lia).
  exact (alaw_conv (alaw_pair S (alaw_pair (al_u32 k K) (alaw_pair S (alaw_pair S (al_stack k K Hk HK)))))). Qed.
Lemma al_params k K : k_stack sz_vecu8 <= k -> 2 * maxvec <= K -> ALaw 0 k K (a_params maxvec sz_vecu8).
Proof. intros Hk HK. assert (S : ALaw 1 k K (a_script maxvec)) by (apply al_script; unfold k_stack in Hk; lia).
  apply alaw_conv, (alaw_dep (m1 := 0) (m2 := 0)); [apply alaw_lawful, c_u8_lawful|]. intros tag. unfold a_params_body.
  apply alaw_if; [|apply alaw_if; [|apply alaw_if]].
  - apply alaw_leaf. intros bs v rest D. cbn in D. inversion D; subst. lia.
  - apply alaw_conv. apply (alaw_weaken (alaw_pair S (alaw_pair (al_u32 k K) (al_hash32 k K)))); lia.
  - apply alaw_conv. apply (alaw_weaken (al_fullparams k K Hk HK)); lia.
  - apply alaw_leaf. discriminate. Qed.
Theorem al_header k K : k_stack sz_vecu8 <= k -> 2 * maxvec <= K -> ALaw 0 k K (a_header maxvec sz_vecu8).
Proof. intros Hk HK. assert (S : ALaw 1 k K (a_script maxvec)) by (apply al_script; unfold k_stack in Hk; lia).
  apply alaw_conv, (alaw_dep (m1 := 0) (m2 := 0)).
  - apply (alaw_weaken (alaw_pair (al_u32 k K) (alaw_pair (al_hash32 k K) (alaw_pair (al_hash32 k K) (alaw_pair (al_u32 k K) (al_u32 k K)))))); lia.
  - intros h. apply alaw_if; apply alaw_conv.
    + apply (alaw_weaken (alaw_pair (al_params k K Hk HK) (alaw_pair (al_params k K Hk HK) (al_stack k K Hk HK)))); lia.
    + apply (alaw_weaken (alaw_pair S S)); lia. Qed.

Theorem al_block : ALaw 0 (k_block sz_txin sz_txout sz_vecu8 sz_tx) (3 * maxvec) A_BLOCK.
Proof. assert (H : ALaw 0 (k_block sz_txin sz_txout sz_vecu8 sz_tx) (3 * maxvec) (a_header maxvec sz_vecu8)) by (apply al_header; unfold k_block; lia).
  assert (V : ALaw 1 (k_block sz_txin sz_txout sz_vecu8 sz_tx) (3 * maxvec) (a_vec A_TX sz_tx maxvec))
    by (apply (alaw_vec (al_tx _ _ (N.le_refl _) (N.le_refl _))); unfold k_block; lia).
  apply alaw_conv. apply (alaw_weaken (alaw_pair H V)); lia. Qed.
End ATX.

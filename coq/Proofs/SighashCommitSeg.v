(* C03 — segwit v0: equal messages give equal committed views, or a collision, or a preimage of the zero hash; equal views give equal
   messages.  The hash type stands last, so the last three fields (40 bytes) are split off first. *)
From Coq Require Import List Arith NArith Bool Lia.
From Coq.Strings Require Import Byte.
From EV Require Import Base.Bytes Base.Codec Model.Tx Model.SighashSpec Model.SighashCommit Proofs.Tx Proofs.Sighash Proofs.SighashCanon Proofs.SighashCommit.
Import ListNotations.
Open Scope N_scope.
Set Default Timeout 120.

Definition Preimage (H : bytes -> bytes) (y : bytes) : Prop := exists x, H x = y.

Section SEGWIT.
Variable pt_ok : bytes -> bool.
Variable H : bytes -> bytes.
Hypothesis Hlen : forall x, length (H x) = 32%nat.
Notation canon_in := (canon_in pt_ok). Notation canon_out := (canon_out pt_ok). Notation canon_tx := (canon_tx pt_ok).
Notation Field := (Field (Collision H)).

Lemma issuance_nonempty i : wf (c_issuance pt_ok) i = true -> ser_issuance pt_ok i <> [].
Proof. intros W E. apply wf_conv in W as [_ W]. apply wf_pair in W as [W _]. apply wf_guard in W as [W _]. apply Nat.eqb_eq in W. unfold ser_issuance in E. apply app_eq_nil in E as [E _]. rewrite E in W. discriminate. Qed.
Lemma len32_if (b : bool) x : length (if b then zero256 else H x) = 32%nat.
Proof. destruct b; [reflexivity|apply Hlen]. Qed.

(* the signed input's issuance, which nothing delimits but the end of the part before the last three fields *)
Lemma iss_opt_inj me me' : canon_in me = true -> canon_in me' = true ->
  (if issuance_null me then [] else ser_issuance pt_ok (in_iss me)) = (if issuance_null me' then [] else ser_issuance pt_ok (in_iss me')) ->
  fv_iss_opt me = fv_iss_opt me'.
Proof. intros C C' E. destruct (canon_in_facts pt_ok me C) as (_ & _ & _ & Is & _). destruct (canon_in_facts pt_ok me' C') as (_ & _ & _ & Is' & _).
  unfold fv_iss_opt. destruct (issuance_null me), (issuance_null me'); try reflexivity.
  - symmetry in E. now apply issuance_nonempty in E; [|apply Is'].
  - now apply issuance_nonempty in E; [|apply Is].
  - apply (enc_inj _ (c_issuance_lawful pt_ok)) in E; [now rewrite E|now apply Is|now apply Is']. Qed.

Definition seg_outputs_msg (t : tx) (idx : nat) (ht : N) : list byte :=
  if negb (hash_single ht) && negb (hash_none ht) then hash_outputs pt_ok H t
  else if hash_single ht then match nth_error (tx_out t) idx with Some o => sha256d H (ser_txout pt_ok o) | None => zero256 end else zero256.
Definition seg_outputs_view (t : tx) (idx : nat) (ht : N) : fv :=
  if negb (hash_single ht) && negb (hash_none ht) then FSome (FList (map fv_txout (tx_out t)))
  else if hash_single ht then match nth_error (tx_out t) idx with Some o => FSome (fv_txout o) | None => FNone end else FNone.
Lemma seg_outputs_len t idx ht : length (seg_outputs_msg t idx ht) = 32%nat.
Proof. unfold seg_outputs_msg, hash_outputs, sha256d. destruct (negb (hash_single ht) && negb (hash_none ht)); [apply Hlen|].
  destruct (hash_single ht); [|reflexivity]. destruct (nth_error (tx_out t) idx); [apply Hlen|reflexivity]. Qed.
Lemma outputs_field_inj t t' idx idx' ht : forallb canon_out (tx_out t) = true -> forallb canon_out (tx_out t') = true ->
  seg_outputs_msg t idx ht = seg_outputs_msg t' idx' ht ->
  seg_outputs_view t idx ht = seg_outputs_view t' idx' ht \/ Collision H \/ Preimage H zero256.
Proof. unfold seg_outputs_msg, seg_outputs_view. intros CO CO' E. destruct (negb (hash_single ht) && negb (hash_none ht)).
  - destruct (field_stop (field_dhash H Hlen (field_outputs pt_ok H Hlen _ _ CO CO')) (fun p => or_introl p) E) as [->|K]; auto.
  - destruct (hash_single ht); [|now left]. destruct (nth_error (tx_out t) idx) as [o|] eqn:No, (nth_error (tx_out t') idx') as [o'|] eqn:No'.
    + destruct (field_stop (field_dhash H Hlen (field_txout_hash pt_ok H Hlen o o' (forallb_nth _ _ _ _ CO No) (forallb_nth _ _ _ _ CO' No'))) (fun p => or_introl p) E) as [->|K]; auto.
    + right. right. eexists. exact E.
    + right. right. eexists. symmetry. exact E.
    + now left. Qed.
Lemma outputs_field_back t t' idx idx' ht : seg_outputs_view t idx ht = seg_outputs_view t' idx' ht -> seg_outputs_msg t idx ht = seg_outputs_msg t' idx' ht.
Proof. unfold seg_outputs_msg, seg_outputs_view. destruct (negb (hash_single ht) && negb (hash_none ht)).
  - intros E%FSome_inj%FList_inj. unfold hash_outputs. now rewrite (map_factor _ _ (fv_txout_ser pt_ok) _ _ E).
  - destruct (hash_single ht); [|reflexivity]. destruct (nth_error (tx_out t) idx), (nth_error (tx_out t') idx'); try discriminate; [|reflexivity].
    intros E%FSome_inj. now rewrite (fv_txout_ser pt_ok _ _ E). Qed.

Lemma seg_query_facts sc v ht : seg_query_ok pt_ok sc v ht = true -> wf (c_varbytes BIG) sc = true /\ wf (c_value pt_ok) v = true /\ ht < 4294967296.
Proof. unfold seg_query_ok. intros Q. apply andb_true_iff in Q as [Q Qh]. apply andb_true_iff in Q as [Qs Qv]. apply N.ltb_lt in Qh. apply len_ok_wf in Qs. auto. Qed.

Theorem segwit_msg_sensitive t t' idx idx' sc sc' v v' ht ht' m :
  spec_segwit_msg pt_ok H t idx sc v ht = Some m -> spec_segwit_msg pt_ok H t' idx' sc' v' ht' = Some m ->
  canon_tx t = true -> canon_tx t' = true -> seg_query_ok pt_ok sc v ht = true -> seg_query_ok pt_ok sc' v' ht' = true ->
  segwit_committed pt_ok t idx sc v ht = segwit_committed pt_ok t' idx' sc' v' ht' \/ Collision H \/ Preimage H zero256.
Proof. unfold spec_segwit_msg, segwit_committed. intros S S' C C' Q Q'.
  destruct (canon_tx_facts pt_ok t C) as (Vv & Vl & CI & CO & _). destruct (canon_tx_facts pt_ok t' C') as (Vv' & Vl' & CI' & CO' & _).
  destruct (seg_query_facts _ _ _ Q) as (Qs & Qv & Qh). destruct (seg_query_facts _ _ _ Q') as (Qs' & Qv' & Qh').
  destruct (nth_error (tx_in t) idx) as [me|] eqn:Nme; [|discriminate]. destruct (nth_error (tx_in t') idx') as [me'|] eqn:Nme'; [|discriminate].
  pose proof (forallb_nth _ _ _ _ CI Nme) as Cme. pose proof (forallb_nth _ _ _ _ CI' Nme') as Cme'.
  destruct (canon_in_facts pt_ok me Cme) as (_ & _ & Sq & _). destruct (canon_in_facts pt_ok me' Cme') as (_ & _ & Sq' & _).
  apply Some_inj in S. apply Some_inj in S'. rewrite <- S' in S. clear S' m.
  (* hash type, lock time and the outputs field from the back *)
  rewrite !app_assoc in S. apply app_eq_len_r in S as [S Eh]; [|now rewrite !ser_u32_len]. apply ser_u32_inj in Eh as <-; auto.
  apply app_eq_len_r in S as [S El]; [|now rewrite !ser_u32_len]. apply ser_u32_inj in El as ->; auto.
  apply app_eq_len_r in S as [S Eo]; [|exact (eq_trans (seg_outputs_len _ _ _) (eq_sym (seg_outputs_len _ _ _)))].
  destruct (outputs_field_inj _ _ _ _ _ CO CO' Eo) as [Fo|K]; [|now right]. unfold seg_outputs_view in Fo. rewrite Fo. apply or_assoc. left.
  (* the rest from the front *)
  revert S. rewrite <- !app_assoc. apply (field_step (field_u32 _ _ Vv Vv')); intros ->.
  apply (field_step (field_ite _ FNone FNone _ _ (field_same zero256) (field_dhash H Hlen (field_prevouts pt_ok H Hlen _ _ CI CI'))
                               (fun _ => eq_refl) (fun E => f_equal (fun l => FSome (FList l)) E))); intros ->.
  apply (field_step (field_ite _ _ _ FNone FNone (field_dhash H Hlen (field_sequences pt_ok H Hlen _ _ CI CI')) (field_same zero256)
                               (fun E => f_equal (fun l => FSome (FList l)) E) (fun _ => eq_refl))); intros ->.
  apply (field_step (field_ite _ FNone FNone _ _ (field_same zero256) (field_dhash H Hlen (field_hash H Hlen _ _))
                               (fun _ => eq_refl) (fun E => f_equal (fun b => FSome (FBytes b)) E))); intros ->.
  apply (field_step (field_enc c_outpoint _ _ c_outpoint_lawful (wf_outpoint pt_ok _ Cme) (wf_outpoint pt_ok _ Cme'))); intros ->.
  apply (field_step (field_enc (c_varbytes BIG) _ _ (c_varbytes_lawful BIG) Qs Qs')); intros ->.
  apply (field_step (field_enc (c_value pt_ok) _ _ (c_value_lawful pt_ok) Qv Qv')); intros ->.
  apply (field_step (field_u32 _ _ Sq Sq')); intros -> ->%iss_opt_inj; auto. Qed.

Theorem segwit_committed_complete t t' idx idx' sc sc' v v' ht ht' m m' :
  spec_segwit_msg pt_ok H t idx sc v ht = Some m -> spec_segwit_msg pt_ok H t' idx' sc' v' ht' = Some m' ->
  segwit_committed pt_ok t idx sc v ht = segwit_committed pt_ok t' idx' sc' v' ht' -> m = m'.
Proof. unfold spec_segwit_msg, segwit_committed. intros S S' E.
  destruct (nth_error (tx_in t) idx) as [me|]; [|discriminate]. destruct (nth_error (tx_in t') idx') as [me'|]; [|discriminate].
  apply Some_inj in S. apply Some_inj in S'. subst m m'. apply or_False. revert E.
  apply field_head; intros [= ->]. apply field_head; intros E1. apply field_head; intros E2. apply field_head; intros E3.
  apply field_head; intros ->%fv_outpoint_inj. apply field_head; intros [= ->]. apply field_head; intros [= ->]. apply field_head; intros [= ->].
  apply field_head; intros ->%(fv_iss_opt_cases _ _ [] (ser_issuance pt_ok)). apply field_head; intros E4. apply field_head; intros [= ->]. apply field_head; intros [= <-] _.
  apply outputs_field_back in E4. unfold seg_outputs_msg in E4. rewrite E4. left. f_equal. f_equal; [|f_equal; [|f_equal]].
  - destruct (anyone_can_pay ht); [reflexivity|]. apply FSome_inj, FList_inj in E1. unfold hash_prevouts.
    now rewrite (map_factor _ (fun i => ser_outpoint (in_prev i)) (fun a b E => f_equal ser_outpoint (fv_outpoint_inj _ _ E)) _ _ E1).
  - destruct (negb (anyone_can_pay ht) && negb (hash_single ht) && negb (hash_none ht)); [|reflexivity]. apply FSome_inj, FList_inj in E2. unfold hash_sequence.
    now rewrite (map_factor _ (fun i => ser_u32 (in_seq i)) (fun a b E => f_equal ser_u32 (FNum_inj _ _ E)) _ _ E2).
  - destruct (anyone_can_pay ht); [reflexivity|]. apply FSome_inj, FBytes_inj in E3. unfold hash_issuance. now rewrite E3. Qed.
End SEGWIT.

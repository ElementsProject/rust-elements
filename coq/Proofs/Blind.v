(* Proofs for C04: Transaction::blind in the ideal-commitment world produces a transaction that verifies and unblinds. *)
From Coq Require Import List NArith ZArith Bool Lia Setoid Morphisms Permutation.
From Coq.Strings Require Import Byte.
From EV Require Import Base.Bytes Base.Zn Base.FreeMod Gen.Tables Model.Script Model.Ideal Model.Verify Model.Blind
  Proofs.ScriptTemplates Proofs.Ideal Proofs.Verify.
Import ListNotations.
Open Scope Z_scope.

Inductive Forall3 {A B C} (R : A -> B -> C -> Prop) : list A -> list B -> list C -> Prop :=
  | Forall3_nil : Forall3 R [] [] []
  | Forall3_cons a b c la lb lc : R a b c -> Forall3 R la lb lc -> Forall3 R (a :: la) (b :: lb) (c :: lc).
Lemma Forall3_app {A B C} (R : A -> B -> C -> Prop) la lb lc la' lb' lc' :
  Forall3 R la lb lc -> Forall3 R la' lb' lc' -> Forall3 R (la ++ la') (lb ++ lb') (lc ++ lc').
Proof. induction 1; cbn; [auto|]. intro. constructor; auto. Qed.
Lemma Forall3_length {A B C} (R : A -> B -> C -> Prop) la lb lc :
  Forall3 R la lb lc -> length lb = length la /\ length lc = length la.
Proof. induction 1; cbn; [auto|]. destruct IHForall3. split; congruence. Qed.
Lemma Forall3_nth {A B C} (R : A -> B -> C -> Prop) la lb lc : Forall3 R la lb lc -> forall i a, nth_error la i = Some a ->
  exists b c, nth_error lb i = Some b /\ nth_error lc i = Some c /\ R a b c.
Proof.
  induction 1 as [|a b c la lb lc r F IH]; intros [|i] x NE; cbn in *; try discriminate.
  - injection NE as <-. now exists b, c. - now apply IH.
Qed.

(* the guard of Asset::blind on the size of the surjection domain (SURJECTIONPROOF_MAX_N_INPUTS, Gen/Tables.v); nothing below
   depends on the value of the constant. `within_limit` only keeps the bound out of the sight of `lia` where it is a section
   hypothesis (so that exactly the lemmas that use it get it as a premise); the theorems state the inequality itself. *)
Definition within_limit (n : nat) : Prop := (N.of_nat n <= CT_SURJECTIONPROOF_MAX_N_INPUTS)%N.
Lemma dom_guard_ok n : within_limit n -> (CT_SURJECTIONPROOF_MAX_N_INPUTS <? N.of_nat n)%N = false.
Proof. intro H. apply N.ltb_ge. exact H. Qed.
Lemma dom_guard_over n : (CT_SURJECTIONPROOF_MAX_N_INPUTS < N.of_nat n)%N -> (CT_SURJECTIONPROOF_MAX_N_INPUTS <? N.of_nat n)%N = true.
Proof. intro H. apply N.ltb_lt. exact H. Qed.

Definition nmarked (outs : list txout) : nat := length (filter marked outs).
Lemma nmarked_cons o outs : nmarked (o :: outs) = ((if marked o then 1 else 0) + nmarked outs)%nat.
Proof. unfold nmarked. cbn [filter]. destruct (marked o); reflexivity. Qed.
Lemma nmarked_app a b : nmarked (a ++ b) = (nmarked a + nmarked b)%nat.
Proof. unfold nmarked. now rewrite filter_app, app_length. Qed.
Lemma nmarked_zero outs : existsb marked outs = false <-> nmarked outs = 0%nat.
Proof.
  unfold nmarked. induction outs as [|o r IH]; cbn [existsb filter]; [tauto|].
  destruct (marked o); cbn [orb length]; [split; [discriminate|lia]|exact IH].
Qed.

Lemma split_last_marked outs : existsb marked outs = true ->
  exists A L B, outs = A ++ L :: B /\ marked L = true /\ nmarked B = 0%nat.
Proof.
  induction outs as [|o outs IH]; cbn [existsb]; [discriminate|].
  destruct (existsb marked outs) eqn:E.
  - intros _. destruct (IH eq_refl) as (A & L & B & -> & M & Z). exists (o :: A), L, B. auto.
  - rewrite orb_false_r. intro M. exists [], o, outs. repeat split; [assumption|]. now apply nmarked_zero.
Qed.
Lemma split_first_marked outs : existsb marked outs = true ->
  exists A M B, outs = A ++ M :: B /\ marked M = true /\ existsb marked A = false.
Proof.
  induction outs as [|o outs IH]; cbn [existsb]; [discriminate|].
  destruct (marked o) eqn:MO.
  - intros _. exists [], o, outs. auto.
  - cbn [orb]. intro E. destruct (IH E) as (A & M & B & -> & MM & NA). exists (o :: A), M, B. cbn [existsb app]. rewrite MO. auto.
Qed.

(* per-output report: the secrets assigned to the output and, for a blinded output, the ephemeral key *)
Definition osec := (secrets * option Z)%type.
Fixpoint blinds_of (i : nat) (l : list osec) : list (nat * (Z * Z * Z)) :=
  match l with
  | [] => []
  | (s, Some e) :: r => (i, (s_abf s, s_vbf s, e)) :: blinds_of (S i) r
  | (_, None) :: r => blinds_of (S i) r
  end.
Lemma blinds_of_app l1 l2 i : blinds_of i (l1 ++ l2) = blinds_of i l1 ++ blinds_of (i + length l1) l2.
Proof.
  revert i. induction l1 as [|[s [e|]] r IH]; intro i; cbn [app blinds_of length].
  - now rewrite Nat.add_0_r.
  - rewrite IH. cbn [app]. do 3 f_equal. lia.
  - rewrite IH. do 2 f_equal. lia.
Qed.
Lemma blinds_of_in l : forall k i s e, nth_error l i = Some (s, Some e) -> In ((k + i)%nat, (s_abf s, s_vbf s, e)) (blinds_of k l).
Proof.
  induction l as [|[s' [e'|]] r IH]; intros k [|i] s e NE; cbn [nth_error blinds_of] in *; try discriminate.
  - injection NE as <- <-. rewrite Nat.add_0_r. now left.
  - right. replace (k + S i)%nat with (S k + i)%nat by lia. now apply IH.
  - replace (k + S i)%nat with (S k + i)%nat by lia. now apply IH.
Qed.
Lemma blinds_of_inv l : forall k j x, In (j, x) (blinds_of k l) ->
  exists i s e, j = (k + i)%nat /\ nth_error l i = Some (s, Some e) /\ x = (s_abf s, s_vbf s, e).
Proof.
  induction l as [|[s' [e'|]] r IH]; intros k j x I; cbn [blinds_of] in I; [destruct I| |].
  - destruct I as [[= <- <-]|I].
    + exists 0%nat, s', e'. rewrite Nat.add_0_r. auto.
    + destruct (IH _ _ _ I) as (i & s & e & -> & NE & ->). exists (S i), s, e. repeat split; [lia|exact NE].
  - destruct (IH _ _ _ I) as (i & s & e & -> & NE & ->). exists (S i), s, e. repeat split; [lia|exact NE].
Qed.

Lemma asset_blind_targets a abf spent tg : surjection_targets spent 0 = OVal tg ->
  asset_blind (AExp a) abf spent =
  if (CT_SURJECTIONPROOF_MAX_N_INPUTS <? N.of_nat (length tg))%N then OFail BCannotProveSurjection else
  match sp_new a abf tg with Some sp => OVal (AConf (asset_gen a abf), sp) | None => OFail BCannotProveSurjection end.
Proof. intro ST. unfold asset_blind. now rewrite ST. Qed.
Definition tg_ok (tg : list sdom) : Prop := forall i g t bf, nth_error tg i = Some (g, Some t, bf) -> g = asset_gen t bf.
Lemma surjection_targets_ok : forall l k tg, surjection_targets l k = OVal tg -> tg_ok tg.
Proof.
  induction l as [|s l IH]; intros k tg; cbn [surjection_targets].
  - intros [= <-] [|i] ? ? ? H; discriminate H.
  - destruct (surjection_target s) as [t| |] eqn:T; cbn [map_err obind]; try discriminate.
    destruct (surjection_targets l (S k)) as [ts| |] eqn:R; cbn [obind]; try discriminate. intros [= <-].
    intros [|i] g tag bf NE; cbn [nth_error] in NE.
    + injection NE as ->. destruct s as [[|a|g0]|a b]; cbn in T; try discriminate; injection T as <- ? ?; try discriminate; subst; reflexivity.
    + exact (IH _ _ R i g tag bf NE).
Qed.
Lemma surjection_targets_secrets : forall l i,
  surjection_targets (map sinput_of_secrets l) i = OVal (map (fun s => (sgen s, Some (s_asset s), s_abf s)) l).
Proof.
  induction l as [|s l IH]; intro i; cbn [map surjection_targets]. - reflexivity.
  - unfold sinput_of_secrets at 1. cbn [surjection_target map_err obind]. rewrite IH. reflexivity.
Qed.
Lemma surjection_targets_index : forall l k k' tg, surjection_targets l k = OVal tg -> surjection_targets l k' = OVal tg.
Proof.
  induction l as [|s l IH]; intros k k' tg; cbn [surjection_targets]; [auto|].
  destruct (surjection_target s) as [t| |]; cbn [map_err obind]; try discriminate.
  destruct (surjection_targets l (S k)) as [ts| |] eqn:R; cbn [obind]; try discriminate. rewrite (IH _ (S k') _ R). auto.
Qed.
Lemma surjection_targets_app : forall l1 l2 t1 t2 k, surjection_targets l1 k = OVal t1 -> surjection_targets l2 k = OVal t2 ->
  surjection_targets (l1 ++ l2) k = OVal (t1 ++ t2).
Proof.
  induction l1 as [|s l1 IH]; intros l2 t1 t2 k; cbn [app surjection_targets]. - intros [= <-] H. exact H.
  - destruct (surjection_target s) as [t| |]; cbn [map_err obind]; try discriminate.
    destruct (surjection_targets l1 (S k)) as [ts| |] eqn:R; cbn [obind]; try discriminate. intros [= <-] H2.
    rewrite (IH l2 ts t2 (S k) R (surjection_targets_index _ _ _ _ H2)). reflexivity.
Qed.
Lemma surjection_targets_total : forall l i, Forall (fun s => exists t, surjection_target s = OVal t) l ->
  exists tg, surjection_targets l i = OVal tg /\ length tg = length l.
Proof.
  induction l as [|s l IH]; intros i F; cbn [surjection_targets]. - now exists [].
  - inversion F as [|? ? [t T] Fr]; subst. rewrite T. cbn [map_err obind].
    destruct (IH (S i) Fr) as (tg & -> & L). cbn [obind]. exists (t :: tg). split; [reflexivity|]. cbn [length]. now rewrite L.
Qed.
Lemma secrets_targets_total ss : Forall (fun s => exists t, surjection_target s = OVal t) (map sinput_of_secrets ss).
Proof. apply Forall_forall. intros s I. apply in_map_iff in I as (x & <- & _). eexists. reflexivity. Qed.
Lemma asset_blind_secrets a abf ss i bf : within_limit (length ss) ->
  find_tag a (map (fun s => (sgen s, Some (s_asset s), s_abf s)) ss) 0 = Some (i, bf) ->
  asset_blind (AExp a) abf (map sinput_of_secrets ss)
  = OVal (AConf (asset_gen a abf), mkSP (asset_gen a abf) (map sgen ss) i (zsub abf bf) true).
Proof.
  intros L F. rewrite (asset_blind_targets a abf _ _ (surjection_targets_secrets ss 0)), map_length, (dom_guard_ok _ L).
  unfold sp_new. rewrite F, map_map. reflexivity.
Qed.

Lemma pedersen_new_ok {E} v a abf vbf : 0 < v < qn ->
  @pedersen_new E v vbf (asset_gen a abf) = OVal (commit v (asset_gen a abf) vbf).
Proof.
  intro V. unfold pedersen_new. destruct (geqb _ gzero) eqn:Z; [|reflexivity].
  exfalso. apply geqb_spec in Z. revert Z. now apply commit_nonzero.
Qed.

Section Output.
  Variable pubk : Z -> Z.
  Variable ecdh : Z -> Z -> Z.

  Lemma value_blind_ok v vbf rk esk spk a abf : 1 <= v <= I64_MAX ->
    value_blind pubk ecdh (VExp v) vbf rk esk spk (a, abf) =
    OVal (VConf (commit v (asset_gen a abf) vbf), NConf (pubk esk),
          mkRP (commit v (asset_gen a abf) vbf) spk (asset_gen a abf) v vbf (a, abf) (ecdh rk esk) true).
  Proof.
    intro V. unfold value_blind, value_blind_with_shared_secret. cbn [fst snd].
    rewrite min_guard by apply V. rewrite pedersen_new_ok by (pose proof qn_big; unfold I64_MAX in V; lia). cbn [obind].
    rewrite rp_new_some by exact V. reflexivity.
  Qed.
  (* TxOut::with_txout_secrets within the domain limit: it fails only if no target carries the asset; the output holds the
     generator and the commitment of the secrets with the proofs made for them *)
  Lemma wts_made spk rk esk s spent tg : surjection_targets spent 0 = OVal tg -> within_limit (length tg) ->
    1 <= s_value s <= I64_MAX ->
    with_txout_secrets pubk ecdh spk rk esk s spent =
    match sp_new (s_asset s) (s_abf s) tg with
    | Some sp => OVal (mkOut (AConf (sgen s)) (VConf (scommit s)) (NConf (pubk esk)) spk
                   (Some (mkRP (scommit s) spk (sgen s) (s_value s) (s_vbf s) (s_asset s, s_abf s) (ecdh rk esk) true)) (Some sp))
    | None => OFail BCannotProveSurjection end.
  Proof.
    intros ST L V. unfold with_txout_secrets. rewrite (asset_blind_targets _ _ _ _ ST), (dom_guard_ok _ L).
    destruct (sp_new (s_asset s) (s_abf s) tg); [|reflexivity]. cbn [obind]. rewrite value_blind_ok by exact V. reflexivity.
  Qed.
  Lemma wts_over_limit spk rk esk s spent tg : surjection_targets spent 0 = OVal tg ->
    (CT_SURJECTIONPROOF_MAX_N_INPUTS < N.of_nat (length tg))%N ->
    with_txout_secrets pubk ecdh spk rk esk s spent = OFail BCannotProveSurjection.
  Proof. intros ST L. unfold with_txout_secrets. rewrite (asset_blind_targets _ _ _ _ ST), (dom_guard_over _ L). reflexivity. Qed.

  (* an output that carries the proofs rp_new / sp_new make for its own generator and commitment passes the per-output checks in
     every domain equal to the target generators ... *)
  Lemma verify_output_made domain k s nonce spk key tg rp sp :
    rp_new (scommit s) (s_value s) (s_vbf s) (s_asset s, s_abf s) spk key (sgen s) = Some rp ->
    sp_new (s_asset s) (s_abf s) tg = Some sp -> tg_ok tg -> Forall2 geq domain (map (fun e => fst (fst e)) tg) ->
    verify_output domain k (mkOut (AConf (sgen s)) (VConf (scommit s)) nonce spk (Some rp) (Some sp)) = OVal (scommit s).
  Proof.
    intros RP SP TO D. unfold verify_output, get_value_commit, get_asset_gen. cbn [o_value o_asset o_rp o_sp o_script map_err obind].
    rewrite (rp_new_verify _ _ _ _ _ _ _ _ RP) by reflexivity. cbn [obind].
    assert (SV : sp_verify sp (sgen s) domain = true); [|now rewrite SV].
    apply (sp_verify_new _ _ _ _ _ SP D). intros i bf F. destruct (find_tag_spec _ _ _ _ _ F) as (g & NE & _). rewrite Nat.sub_0_r in NE.
    exists g. split; [exact NE|]. now rewrite (TO _ _ _ _ NE).
  Qed.
  (* ... and its receiver rewinds the secrets out of the range proof *)
  Lemma unblind_made spk rsk esk s rp sp : (forall a b, ecdh (pubk a) b = ecdh (pubk b) a) ->
    rp_new (scommit s) (s_value s) (s_vbf s) (s_asset s, s_abf s) spk (ecdh (pubk rsk) esk) (sgen s) = Some rp -> in_zn (s_abf s) ->
    unblind ecdh (mkOut (AConf (sgen s)) (VConf (scommit s)) (NConf (pubk esk)) spk (Some rp) sp) rsk = OVal s.
  Proof.
    intros SYM RP Zabf. unfold unblind. cbn [o_value o_asset o_nonce o_rp o_script].
    rewrite SYM in RP. rewrite (rp_rewind_new _ _ _ _ _ _ _ _ RP) by reflexivity.
    apply in_znb_spec in Zabf. rewrite Zabf. cbn [negb]. fold (sgen s). rewrite geqb_refl. cbn [negb]. now rewrite secrets_eta.
  Qed.
End Output.

Section Keys.
  Variable pubk : Z -> Z.
  Variable ecdh : Z -> Z -> Z.
  Variable p : profile.
  Variable ss : list secrets.            (* spent_utxo_secrets *)
  Let dom := map sinput_of_secrets ss.
  (* the surjection domain (spent outputs and issuance pseudo-inputs) is within the limit of Asset::blind; a premise of exactly
     the lemmas below that need a surjection proof to be made *)
  Hypothesis ss_small : within_limit (length ss).

  (* an explicit output as C04 requires it: positive amount; a marked one within the rangeproof limit, on an address
     script, and of an asset some input carries *)
  Definition out_good (o : txout) : Prop :=
    exists a v, o_asset o = AExp a /\ o_value o = VExp v /\ 0 < v < qn
      /\ (marked o = true -> v <= I64_MAX /\ (exists ad, from_script (o_script o) = Script.Val (Some ad))
                             /\ In a (map s_asset ss)).
  Definition out_rel (o o' : txout) (s : osec) : Prop :=
    exists a v, o_asset o = AExp a /\ o_value o = VExp v /\ s_asset (fst s) = a /\ s_value (fst s) = v /\
    match snd s with
    | None => marked o = false /\ o' = o /\ fst s = mkSec a 0 v 0 /\ 0 < v < qn
    | Some esk => marked o = true /\ in_zn (s_abf (fst s)) /\
                  exists rk, o_nonce o = NConf rk /\ with_txout_secrets pubk ecdh (o_script o) rk esk (fst s) dom = OVal o'
    end.

  Lemma address_spk_ok s ad : from_script s = Script.Val (Some ad) -> address_spk p s = OVal (Some s).
  Proof. intro F. unfold address_spk. rewrite F, (from_script_spk p s ad F). reflexivity. Qed.

  Definition wts_out spk rk esk (s : secrets) (i : nat) (bf : Z) : txout :=
    mkOut (AConf (sgen s)) (VConf (scommit s)) (NConf (pubk esk)) spk
      (Some (mkRP (scommit s) spk (sgen s) (s_value s) (s_vbf s) (s_asset s, s_abf s) (ecdh rk esk) true))
      (Some (mkSP (sgen s) (map sgen ss) i (zsub (s_abf s) bf) true)).
  Lemma wts_ok spk rk esk s : In (s_asset s) (map s_asset ss) -> 1 <= s_value s <= I64_MAX ->
    exists i bf, find_tag (s_asset s) (map (fun s => (sgen s, Some (s_asset s), s_abf s)) ss) 0 = Some (i, bf)
      /\ with_txout_secrets pubk ecdh spk rk esk s dom = OVal (wts_out spk rk esk s i bf).
  Proof.
    intros I V.
    destruct (find_tag_some (s_asset s) (map (fun s => (sgen s, Some (s_asset s), s_abf s)) ss)) with (k := 0%nat) as (i & bf & F).
    { apply in_map_iff in I as (s' & E & I). exists (sgen s'), (s_abf s'). apply in_map_iff. exists s'. split; [now rewrite E|exact I]. }
    exists i, bf. split; [exact F|]. unfold dom.
    rewrite (wts_made pubk ecdh spk rk esk s _ _ (surjection_targets_secrets ss 0)); [|now rewrite map_length|exact V].
    unfold sp_new. rewrite F, map_map. reflexivity.
  Qed.
  Lemma wts_inv spk rk esk s o' : with_txout_secrets pubk ecdh spk rk esk s dom = OVal o' ->
    exists i bf, find_tag (s_asset s) (map (fun s => (sgen s, Some (s_asset s), s_abf s)) ss) 0 = Some (i, bf)
      /\ o' = wts_out spk rk esk s i bf /\ 1 <= s_value s <= I64_MAX.
  Proof.
    unfold with_txout_secrets, asset_blind, dom. rewrite surjection_targets_secrets. cbn [obind].
    destruct (N.ltb CT_SURJECTIONPROOF_MAX_N_INPUTS _); [cbn [obind]; discriminate|].
    unfold sp_new. destruct (find_tag _ _ 0) as [[i bf]|] eqn:F; [|discriminate]. cbn [obind].
    unfold value_blind, value_blind_with_shared_secret, pedersen_new. cbn [fst snd].
    destruct (s_value s <? RANGEPROOF_MIN_VALUE); [discriminate|].
    destruct (geqb _ gzero); [discriminate|]. cbn [obind]. unfold rp_new.
    destruct ((RANGEPROOF_MIN_VALUE <=? s_value s) && (s_value s <=? I64_MAX)) eqn:R; [|discriminate]. cbn [obind].
    intros [= <-]. exists i, bf. split; [reflexivity|]. split.
    - unfold wts_out, scommit, sgen. rewrite map_map. reflexivity.
    - apply andb_true_iff in R as [R1 R2]. apply Z.leb_le in R1, R2. rewrite rp_min_value in R1. lia.
  Qed.

  Lemma marked_cond o : is_fee o || negb (nonce_is_conf (o_nonce o)) = negb (marked o).
  Proof. unfold marked. destruct (is_fee o), (nonce_is_conf (o_nonce o)); reflexivity. Qed.
  Lemma marked_nonce o : marked o = true -> exists rk, o_nonce o = NConf rk.
  Proof. unfold marked. rewrite andb_true_iff. intros [_ N]. destruct (o_nonce o); try discriminate. now eexists. Qed.

  Lemma step_unmarked ntb st i o : marked o = false -> out_good o ->
    exists a v, o_asset o = AExp a /\ o_value o = VExp v /\ 0 < v < qn /\
    blind_step pubk ecdh p ntb ss st i o =
      OVal (mkBS (bs_outs st ++ [o]) (bs_secrets st ++ [mkSec a 0 v 0]) (bs_last st) (bs_blinds st) (bs_num_blinded st) (bs_rnd st)).
  Proof.
    intros M (a & v & A & V & R & _). exists a, v. repeat split; try assumption; try lia.
    unfold blind_step. rewrite marked_cond, M. cbn [negb]. unfold explicit_asset, explicit_value. rewrite A, V. reflexivity.
  Qed.
  (* a marked output with an address script: blinded at once unless it is the last marked one, which is only remembered *)
  Lemma step_marked ntb st i o rk ad : marked o = true -> o_nonce o = NConf rk -> from_script (o_script o) = Script.Val (Some ad) ->
    blind_step pubk ecdh p ntb ss st i o =
    if (bs_num_blinded st + 1 <? ntb)%nat then
      let* v := explicit_value o in
      let* a := explicit_asset o in
      let* (o', abf, vbf, esk, rnd) := new_not_last_confidential pubk ecdh (bs_rnd st) v (o_script o) rk a dom in
      OVal (mkBS (bs_outs st ++ [o']) (bs_secrets st ++ [mkSec a abf v vbf]) (bs_last st)
                 (bs_blinds st ++ [(i, (abf, vbf, esk))]) (S (bs_num_blinded st)) rnd)
    else OVal (mkBS (bs_outs st ++ [o]) (bs_secrets st) (Some i) (bs_blinds st) (S (bs_num_blinded st)) (bs_rnd st)).
  Proof.
    intros M NK AD. unfold blind_step. rewrite marked_cond, M. cbn [negb]. unfold nonce_commitment. rewrite NK. cbn [obind].
    rewrite (address_spk_ok _ ad AD). reflexivity.
  Qed.
  Lemma step_nonlast ntb st i o abf vbf esk rnd' : marked o = true -> out_good o ->
    (bs_num_blinded st + 1 < ntb)%nat -> bs_rnd st = abf :: vbf :: esk :: rnd' ->
    exists a v rk o', o_asset o = AExp a /\ o_value o = VExp v /\ o_nonce o = NConf rk /\
      with_txout_secrets pubk ecdh (o_script o) rk esk (mkSec a abf v vbf) dom = OVal o' /\
      blind_step pubk ecdh p ntb ss st i o =
        OVal (mkBS (bs_outs st ++ [o']) (bs_secrets st ++ [mkSec a abf v vbf]) (bs_last st)
                   (bs_blinds st ++ [(i, (abf, vbf, esk))]) (S (bs_num_blinded st)) rnd').
  Proof.
    intros M (a & v & A & V & R & G) L RN. destruct (G M) as (VM & (ad & AD) & IN).
    destruct (marked_nonce o M) as (rk & NK).
    destruct (wts_ok (o_script o) rk esk (mkSec a abf v vbf)) as (j & bf & F & W); cbn [s_asset s_value]; [exact IN|lia|].
    exists a, v, rk, (wts_out (o_script o) rk esk (mkSec a abf v vbf) j bf). repeat split; try assumption.
    apply Nat.ltb_lt in L. rewrite (step_marked ntb st i o rk ad M NK AD), L.
    unfold explicit_value, explicit_asset. rewrite A, V. cbn [obind].
    unfold new_not_last_confidential. rewrite RN. cbn [draw obind]. rewrite W. reflexivity.
  Qed.
  Lemma step_last ntb st i o : marked o = true -> out_good o -> ~ (bs_num_blinded st + 1 < ntb)%nat ->
    blind_step pubk ecdh p ntb ss st i o =
      OVal (mkBS (bs_outs st ++ [o]) (bs_secrets st) (Some i) (bs_blinds st) (S (bs_num_blinded st)) (bs_rnd st)).
  Proof.
    intros M (a & v & A & V & R & G) L. destruct (G M) as (VM & (ad & AD) & IN).
    destruct (marked_nonce o M) as (rk & NK).
    apply Nat.ltb_nlt in L. rewrite (step_marked ntb st i o rk ad M NK AD), L. reflexivity.
  Qed.

  Lemma blind_loop_app ntb l1 : forall l2 st i,
    blind_loop pubk ecdh p ntb ss st i (l1 ++ l2) =
    let* st' := blind_loop pubk ecdh p ntb ss st i l1 in blind_loop pubk ecdh p ntb ss st' (i + length l1) l2.
  Proof.
    induction l1 as [|o l1 IH]; intros l2 st i; cbn [app blind_loop length obind].
    - now rewrite Nat.add_0_r.
    - destruct (blind_step pubk ecdh p ntb ss st i o) as [st'| |]; cbn [obind]; try reflexivity.
      rewrite IH. replace (S i + length l1)%nat with (i + S (length l1))%nat by lia. reflexivity.
  Qed.

  (* a run of the loop over outputs none of which is the last marked one *)
  Lemma loop_phase ntb : forall outs st i,
    Forall out_good outs ->
    (nmarked outs = 0 \/ bs_num_blinded st + nmarked outs < ntb)%nat ->
    (3 * nmarked outs <= length (bs_rnd st))%nat -> Forall in_zn (bs_rnd st) ->
    exists news osecs rnd',
      blind_loop pubk ecdh p ntb ss st i outs =
        OVal (mkBS (bs_outs st ++ news) (bs_secrets st ++ map fst osecs) (bs_last st) (bs_blinds st ++ blinds_of i osecs)
                   (bs_num_blinded st + nmarked outs) rnd')
      /\ Forall3 out_rel outs news osecs
      /\ (length rnd' + 3 * nmarked outs = length (bs_rnd st))%nat /\ Forall in_zn rnd'.
  Proof.
    induction outs as [|o outs IH]; intros st i G C RL RZ.
    - exists [], [], (bs_rnd st). cbn [blind_loop map blinds_of nmarked filter length]. rewrite !app_nil_r, Nat.add_0_r.
      destruct st; cbn. repeat split; try constructor; try assumption. lia.
    - inversion G as [|? ? Go Gr]; subst. rewrite nmarked_cons in *. cbn [blind_loop].
      destruct (marked o) eqn:M.
      + assert (L : (bs_num_blinded st + 1 < ntb)%nat) by lia.
        destruct (bs_rnd st) as [|abf [|vbf [|esk rnd']]] eqn:RN; cbn [length] in RL; try lia.
        destruct (step_nonlast ntb st i o abf vbf esk rnd' M Go L RN) as (a & v & rk & o' & A & V & NK & W & ->). cbn [obind].
        inversion RZ as [|? ? Z1 RZ1]; subst. inversion RZ1 as [|? ? Z2 RZ2]; subst. inversion RZ2 as [|? ? Z3 RZ3]; subst.
        edestruct (IH (mkBS (bs_outs st ++ [o']) (bs_secrets st ++ [mkSec a abf v vbf]) (bs_last st)
                       (bs_blinds st ++ [(i, (abf, vbf, esk))]) (S (bs_num_blinded st)) rnd') (S i) Gr)
          as (news & osecs & rnd'' & -> & F3 & LR & RZ'); cbn [bs_num_blinded bs_rnd]; try assumption; try lia.
        exists (o' :: news), ((mkSec a abf v vbf, Some esk) :: osecs), rnd''.
        cbn [bs_outs bs_secrets bs_last bs_blinds bs_num_blinded map fst blinds_of s_abf s_vbf]. rewrite <- !app_assoc. cbn [app].
        split; [do 2 f_equal; lia|]. split; [|split; [cbn [length bs_rnd] in *; lia|assumption]].
        constructor; [|assumption]. exists a, v. cbn [fst snd s_asset s_value s_abf].
        do 4 (split; [first [assumption|reflexivity]|]). split; [assumption|]. split; [assumption|]. exists rk. split; assumption.
      + destruct (step_unmarked ntb st i o M Go) as (a & v & A & V & R & ->). cbn [obind].
        edestruct (IH (mkBS (bs_outs st ++ [o]) (bs_secrets st ++ [mkSec a 0 v 0]) (bs_last st) (bs_blinds st)
                       (bs_num_blinded st) (bs_rnd st)) (S i) Gr)
          as (news & osecs & rnd'' & -> & F3 & LR & RZ'); cbn [bs_num_blinded bs_rnd]; try assumption; try lia.
        exists (o :: news), ((mkSec a 0 v 0, None) :: osecs), rnd''.
        cbn [bs_outs bs_secrets bs_last bs_blinds bs_num_blinded bs_rnd map fst blinds_of] in *. rewrite <- !app_assoc. cbn [app].
        split; [reflexivity|]. split; [|split; [lia|assumption]].
        constructor; [|assumption]. exists a, v. cbn [fst snd s_asset s_value]. repeat split; try assumption; try reflexivity; lia.
  Qed.

  Lemma blinds_of_unmarked outs news osecs : Forall3 out_rel outs news osecs -> nmarked outs = 0%nat -> forall i, blinds_of i osecs = [].
  Proof.
    induction 1 as [|o o' [s e] lo lo' ls (a & v & _ & _ & _ & _ & R) F IH]; intros Z i; [reflexivity|].
    rewrite nmarked_cons in Z. cbn [snd] in R. destruct e as [esk|]; [destruct R as [M _]; rewrite M in Z; lia|].
    cbn [blinds_of]. apply IH. lia.
  Qed.

  Lemma map_vbi l : map vb (map value_blind_inputs l) = map svb l.
  Proof. rewrite map_map. reflexivity. Qed.

  Theorem blind_char (t : tx) (rnd : list Z) :
    Forall out_good (t_out t) -> existsb marked (t_out t) = true ->
    (3 * nmarked (t_out t) <= length rnd + 1)%nat -> Forall in_zn rnd ->
    exists news osecs,
      blind pubk ecdh p rnd ss t = OVal (mkTx (t_in t) news, blinds_of 0 osecs)
      /\ Forall3 out_rel (t_out t) news osecs
      /\ zsum (map svb ss) = zsum (map svb (map fst osecs)).
  Proof.
    intros G EX RL RZ. unfold blind.
    assert (AE : forallb (fun o => asset_is_explicit (o_asset o) && value_is_explicit (o_value o)) (t_out t) = true).
    { apply forallb_forall. intros o I. rewrite Forall_forall in G. destruct (G o I) as (a & v & -> & -> & _). reflexivity. }
    rewrite AE. cbn [negb]. fold (nmarked (t_out t)).
    destruct (split_last_marked _ EX) as (A & L & B & E & ML & ZB). rewrite E in *.
    apply Forall_app in G as [GA GLB]. inversion GLB as [|? ? GL GB]; subst.
    rewrite nmarked_app, nmarked_cons, ML, ZB in *. rewrite Nat.add_0_r in *.
    rewrite blind_loop_app.
    destruct (loop_phase (nmarked A + 1) A (mkBS [] [] None [] 0 rnd) 0%nat GA) as (newsA & osA & rndA & -> & FA & LA & ZA);
      cbn [bs_num_blinded bs_rnd]; try assumption; try lia.
    cbn [obind bs_outs bs_secrets bs_last bs_blinds bs_num_blinded app blind_loop].
    rewrite step_last; cbn [bs_num_blinded]; try assumption; try lia. cbn [obind bs_outs bs_secrets bs_last bs_blinds bs_rnd bs_num_blinded].
    cbn [Nat.add].
    edestruct (loop_phase (nmarked A + 1) B (mkBS (newsA ++ [L]) (map fst osA) (Some (length A)) (blinds_of 0 osA)
                 (S (nmarked A)) rndA) (S (length A)) GB) as (newsB & osB & rndB & -> & FB & LB & ZBr);
      cbn [bs_num_blinded bs_rnd]; try assumption; try lia.
    cbn [obind bs_outs bs_secrets bs_last bs_blinds bs_rnd bs_num_blinded]. rewrite ZB in LB.
    destruct (Forall3_length _ _ _ _ FA) as [LnA LoA]. rewrite <- app_assoc. cbn [app Nat.add].
    rewrite <- LnA, nth_error_mid.
    destruct GL as (a & v & AL & VL & RV & GM). destruct (GM ML) as (VM & (ad & AD) & IN).
    destruct (marked_nonce L ML) as (rk & NK).
    unfold nonce_commitment, explicit_value, explicit_asset. rewrite NK, VL, AL. cbn [obind].
    unfold new_last_confidential.
    cbn [bs_rnd] in LA, LB.
    destruct rndB as [|abf [|esk rndC]]; cbn [length] in *; try lia. cbn [draw obind].
    assert (Zabf : in_zn abf) by (inversion ZBr; assumption).
    unfold with_secrets_last.
    set (lv := last_vbf v abf (map value_blind_inputs ss) (map value_blind_inputs (map fst osA ++ map fst osB))).
    destruct (wts_ok (o_script L) rk esk (mkSec a abf v lv)) as (j & bf & F & W); cbn [s_asset s_value]; [exact IN|lia|].
    fold dom. rewrite W. cbn [obind]. rewrite set_nth_app.
    exists (newsA ++ wts_out (o_script L) rk esk (mkSec a abf v lv) j bf :: newsB), (osA ++ (mkSec a abf v lv, Some esk) :: osB).
    split; [|split].
    - do 2 f_equal. rewrite blinds_of_app. cbn [blinds_of s_abf s_vbf Nat.add].
      rewrite !(blinds_of_unmarked B newsB osB FB ZB), app_nil_r, LoA, LnA. reflexivity.
    - apply Forall3_app; [exact FA|]. constructor; [|exact FB].
      exists a, v. cbn [fst snd s_asset s_value s_abf].
      do 4 (split; [first [assumption|reflexivity]|]). split; [assumption|]. split; [assumption|]. exists rk. split; assumption.
    - (* the last output's factor is last_vbf over all the others, wherever it stands among them *)
      rewrite <- !map_vbi, (last_balances_scalar _ (map value_blind_inputs (map fst osA ++ map fst osB)) v abf). fold lv.
      apply zsum_perm, Permutation_map. rewrite !map_app, <- app_assoc. symmetry. apply Permutation_app_head, Permutation_cons_append.
  Qed.

  Lemma verify_output_wts domain k spk rk esk s i bf :
    Forall2 geq domain (map sgen ss) -> find_tag (s_asset s) (map (fun s => (sgen s, Some (s_asset s), s_abf s)) ss) 0 = Some (i, bf) ->
    1 <= s_value s <= I64_MAX ->
    verify_output domain k (wts_out spk rk esk s i bf) = OVal (scommit s).
  Proof.
    intros D F V. apply (verify_output_made domain k s _ spk (ecdh rk esk) (map (fun s => (sgen s, Some (s_asset s), s_abf s)) ss)).
    - now apply rp_new_some.
    - unfold sp_new. now rewrite F, map_map.
    - exact (surjection_targets_ok _ _ _ (surjection_targets_secrets ss 0)).
    - now rewrite map_map.
  Qed.
  Lemma verify_output_rel domain k o o' s : Forall2 geq domain (map sgen ss) -> out_rel o o' s ->
    exists c, verify_output_step domain k o' = OVal (Some c) /\ geq c (scommit (fst s)).
  Proof.
    intros D (a & v & A & V & SA & SV & R). destruct (snd s) as [esk|].
    - destruct R as (M & Zabf & rk & NK & W). destruct (wts_inv _ _ _ _ _ W) as (i & bf & F & -> & RV).
      exists (scommit (fst s)). split; [|reflexivity]. apply step_live; [eapply skipped_conf; reflexivity|]. now apply verify_output_wts.
    - destruct R as (M & -> & -> & RV). exists (commit v (gH a) 0). split; [now apply verify_step_explicit|apply scommit_iss].
  Qed.
  Lemma verify_outputs_ok domain outs news osecs : Forall2 geq domain (map sgen ss) -> Forall3 out_rel outs news osecs ->
    forall k, exists coms, verify_outputs domain news k = OVal (map Some coms) /\ Forall2 geq coms (map scommit (map fst osecs)).
  Proof.
    intros D F. induction F as [|o o' s lo lo' ls R F IH]; intro k; cbn [verify_outputs map].
    - exists []. split; constructor.
    - destruct (verify_output_rel domain k o o' s D R) as (c & -> & C). destruct (IH (S k)) as (cs & -> & CS).
      cbn [obind]. exists (c :: cs). split; [reflexivity|]. now constructor.
  Qed.

  Definition out_total (b : N) (outs : list txout) : Z :=
    isum (map (fun o => match o_asset o, o_value o with AExp a, VExp v => if N.eqb b a then v else 0 | _, _ => 0 end) outs).
  Lemma out_total_rel b outs news osecs : Forall3 out_rel outs news osecs -> asset_total b (map fst osecs) = out_total b outs.
  Proof.
    unfold asset_total, out_total. induction 1 as [|o o' s lo lo' ls (a & v & A & V & SA & SV & _) F IH]; cbn [map isum fold_right].
    - reflexivity.
    - fold isum in *. unfold isum in IH. rewrite IH, A, V, SA, SV. reflexivity.
  Qed.
End Keys.

Section C04.
  Variable pubk : Z -> Z.
  Variable ecdh : Z -> Z -> Z.
  Variable p : profile.

  (* every output explicit with a positive u64 amount; marked ones within the rangeproof limit (<= i64::MAX) *)
  Definition explicit_positive (t : tx) : Prop :=
    Forall (fun o => exists a v, o_asset o = AExp a /\ o_value o = VExp v /\ 0 < v < 2 ^ 64 /\ (marked o = true -> v <= I64_MAX)) (t_out t).
  Definition scripts_addressable (t : tx) : Prop :=
    Forall (fun o => marked o = true -> exists ad, from_script (o_script o) = Script.Val (Some ad)) (t_out t).
  (* per asset: inputs + explicit issuances = outputs + fee, as integers *)
  Definition balanced_per_asset (ss : list secrets) (t : tx) : Prop := forall b, asset_total b ss = out_total b (t_out t).
  Definition rnd_ok (t : tx) (rnd : list Z) : Prop := (3 * nmarked (t_out t) <= length rnd + 1)%nat /\ Forall in_zn rnd.

  Lemma out_total_ge b outs : Forall (fun o => exists a v, o_asset o = AExp a /\ o_value o = VExp v /\ 0 < v) outs ->
    0 <= out_total b outs /\ forall o v, In o outs -> o_asset o = AExp b -> o_value o = VExp v -> v <= out_total b outs.
  Proof.
    unfold out_total. induction 1 as [|o outs (a & v & A & V & P) F [IH0 IH]]; cbn [map isum fold_right In].
    - split; [lia|]. intros ? ? [].
    - fold isum in *. unfold isum in *. rewrite A, V. split.
      + destruct (N.eqb b a); lia.
      + intros o1 v1 [<-|I] A1 V1.
        * rewrite A in A1. injection A1 as <-. rewrite V in V1. injection V1 as <-. rewrite N.eqb_refl. lia.
        * specialize (IH o1 v1 I A1 V1). destruct (N.eqb b a); lia.
  Qed.

  Lemma hyps_out_good ss t : explicit_positive t -> scripts_addressable t -> balanced_per_asset ss t ->
    Forall (out_good ss) (t_out t).
  Proof.
    intros EP SA BA. unfold explicit_positive, scripts_addressable in *. rewrite Forall_forall in *.
    intros o I. destruct (EP o I) as (a & v & A & V & R & M). exists a, v. pose proof qn_big.
    split; [exact A|]. split; [exact V|]. split; [lia|]. intro MK.
    split; [now apply M|]. split; [now apply SA|].
    apply asset_total_pos. rewrite BA.
      assert (F : Forall (fun o => exists a v, o_asset o = AExp a /\ o_value o = VExp v /\ 0 < v) (t_out t)).
      { apply Forall_forall. intros o1 I1. destruct (EP o1 I1) as (a1 & v1 & ? & ? & ? & _). exists a1, v1. repeat split; try assumption; lia. }
      destruct (out_total_ge a _ F) as [_ G]. specialize (G o v I A V). lia.
  Qed.

  Theorem blind_verifies (t : tx) (spent : list txout) (ss : list secrets) (rnd : list Z) :
    explicit_positive t -> scripts_addressable t -> opens (t_in t) spent ss -> balanced_per_asset ss t ->
    existsb marked (t_out t) = true -> rnd_ok t rnd ->
    (N.of_nat (length ss) <= CT_SURJECTIONPROOF_MAX_N_INPUTS)%N ->
    exists t' bl, blind pubk ecdh p rnd ss t = OVal (t', bl) /\ verify_tx_amt_proofs t' spent = OVal tt.
  Proof.
    intros EP SA OP BA EX [RL RZ] SM.
    destruct (blind_char pubk ecdh p ss SM t rnd (hyps_out_good ss t EP SA BA) EX RL RZ) as (news & osecs & B & F3 & GB).
    exists (mkTx (t_in t) news), (blinds_of 0 osecs). split; [exact B|].
    destruct (verify_inputs_ok _ _ _ OP 0%nat) as (dom & com & VI & D & C).
    destruct (verify_outputs_ok pubk ecdh ss dom _ _ _ D F3 0%nat) as (coms & VO & CS).
    apply (verifies_by_balance (mkTx (t_in t) news) spent ss (map fst osecs) dom com coms (opens_length _ _ _ OP) VI C VO CS GB).
    intro b. rewrite (out_total_rel pubk ecdh ss b _ _ _ F3). apply BA.
  Qed.

  Hypothesis ecdh_sym : forall a b, ecdh (pubk a) b = ecdh (pubk b) a.

  Theorem blind_unblinds (t : tx) (spent : list txout) (ss : list secrets) (rnd : list Z) :
    explicit_positive t -> scripts_addressable t -> balanced_per_asset ss t ->
    existsb marked (t_out t) = true -> rnd_ok t rnd ->
    (N.of_nat (length ss) <= CT_SURJECTIONPROOF_MAX_N_INPUTS)%N ->
    exists t' bl, blind pubk ecdh p rnd ss t = OVal (t', bl) /\ length (t_out t') = length (t_out t) /\
      (* every marked output is reported, blinded with the reported factors, and unblinds to the original asset and value *)
      (forall i o, nth_error (t_out t) i = Some o -> marked o = true ->
         exists a v abf vbf esk o', o_asset o = AExp a /\ o_value o = VExp v /\
           In (i, (abf, vbf, esk)) bl /\ nth_error (t_out t') i = Some o' /\
           o_asset o' = AConf (asset_gen a abf) /\ o_value o' = VConf (commit v (asset_gen a abf) vbf) /\
           o_script o' = o_script o /\ o_nonce o' = NConf (pubk esk) /\
           forall rsk, o_nonce o = NConf (pubk rsk) -> unblind ecdh o' rsk = OVal (mkSec a abf v vbf)) /\
      (* nothing else is reported or changed *)
      (forall i x, In (i, x) bl -> exists o, nth_error (t_out t) i = Some o /\ marked o = true) /\
      (forall i o, nth_error (t_out t) i = Some o -> marked o = false -> nth_error (t_out t') i = Some o).
  Proof.
    intros EP SA BA EX [RL RZ] SM.
    destruct (blind_char pubk ecdh p ss SM t rnd (hyps_out_good ss t EP SA BA) EX RL RZ) as (news & osecs & B & F3 & GB).
    exists (mkTx (t_in t) news), (blinds_of 0 osecs). split; [exact B|]. cbn [t_out].
    destruct (Forall3_length _ _ _ _ F3) as [LN LO]. split; [exact LN|]. split; [|split].
    - intros i o NE M. destruct (Forall3_nth _ _ _ _ F3 i o NE) as (o' & [s oe] & NE' & NS & (a & v & A & V & SA' & SV & R)).
      cbn [fst snd] in *. destruct oe as [esk|]; [|destruct R as [M' _]; congruence].
      destruct R as (_ & Zabf & rk & NK & W). destruct (wts_inv _ _ _ _ _ _ _ _ W) as (j & bf & F & -> & RV).
      exists a, v, (s_abf s), (s_vbf s), esk. eexists. split; [exact A|]. split; [exact V|].
      split; [exact (blinds_of_in osecs 0 i s esk NS)|]. split; [exact NE'|].
      unfold wts_out at 1 2 3 4. cbn [o_asset o_value o_script o_nonce]. unfold scommit, sgen. rewrite SA', SV.
      repeat split. intros rsk NK'. rewrite NK in NK'. injection NK' as ->.
      rewrite <- SA', <- SV, secrets_eta. apply (unblind_made pubk ecdh); [exact ecdh_sym|now apply rp_new_some|exact Zabf].
    - intros i x I. destruct (blinds_of_inv _ _ _ _ I) as (j & s & e & -> & NS & _). cbn [Nat.add].
      assert (L : (j < length (t_out t))%nat). { rewrite <- LO. apply nth_error_Some. congruence. }
      destruct (nth_error (t_out t) j) as [o|] eqn:NE; [|apply nth_error_None in NE; lia].
      exists o. split; [reflexivity|]. destruct (Forall3_nth _ _ _ _ F3 j o NE) as (o' & s' & _ & NS' & (a & v & _ & _ & _ & _ & R)).
      rewrite NS in NS'. injection NS' as <-. cbn [snd] in R. tauto.
    - intros i o NE M. destruct (Forall3_nth _ _ _ _ F3 i o NE) as (o' & [s oe] & NE' & NS & (a & v & A & V & SA' & SV & R)).
      cbn [snd] in R. destruct oe; [destruct R as [M' _]; congruence|]. destruct R as (_ & -> & _). exact NE'.
  Qed.
End C04.

Section NoMarked.
  Variable pubk : Z -> Z.
  Variable ecdh : Z -> Z -> Z.
  (* the loop over outputs none of which is marked: every one is kept and its explicit secrets recorded; nothing is drawn,
     nothing is blinded (so neither amounts, randomness nor the size of the surjection domain matter) *)
  Lemma loop_unmarked_state p ntb ss : forall outs st i,
    forallb (fun o => asset_is_explicit (o_asset o) && value_is_explicit (o_value o)) outs = true -> existsb marked outs = false ->
    exists secs, blind_loop pubk ecdh p ntb ss st i outs =
      OVal (mkBS (bs_outs st ++ outs) (bs_secrets st ++ secs) (bs_last st) (bs_blinds st) (bs_num_blinded st) (bs_rnd st)).
  Proof.
    induction outs as [|o outs IH]; intros st i AE NM; cbn [blind_loop].
    - exists []. rewrite !app_nil_r. now destruct st.
    - cbn [forallb existsb] in AE, NM. apply andb_true_iff in AE as [AO AE]. apply orb_false_iff in NM as [MO NM].
      unfold blind_step. rewrite marked_cond, MO. cbn [negb]. apply andb_true_iff in AO as [A V]. unfold explicit_asset, explicit_value.
      destruct (o_asset o) as [|a|]; try discriminate. destruct (o_value o) as [|v|]; try discriminate. cbn [obind].
      destruct (IH (mkBS (bs_outs st ++ [o]) (bs_secrets st ++ [mkSec a 0 v 0]) (bs_last st) (bs_blinds st) (bs_num_blinded st) (bs_rnd st)) (S i) AE NM) as (secs & ->).
      exists (mkSec a 0 v 0 :: secs). cbn [bs_outs bs_secrets bs_last bs_blinds bs_num_blinded bs_rnd]. rewrite <- !app_assoc. reflexivity.
  Qed.
  Lemma explicit_positive_explicit t : explicit_positive t ->
    forallb (fun o => asset_is_explicit (o_asset o) && value_is_explicit (o_value o)) (t_out t) = true.
  Proof.
    intro EP. apply forallb_forall. intros o I. unfold explicit_positive in EP. rewrite Forall_forall in EP.
    destruct (EP o I) as (a & v & -> & -> & _). reflexivity.
  Qed.
  Lemma blind_none_marked p rnd ss t : existsb marked (t_out t) = false ->
    blind pubk ecdh p rnd ss t =
    if forallb (fun o => asset_is_explicit (o_asset o) && value_is_explicit (o_value o)) (t_out t)
    then OFail BTooFewBlindingOutputs else OFail BMustHaveAllExplicitTxOuts.
  Proof.
    intro NM. unfold blind.
    destruct (forallb (fun o => asset_is_explicit (o_asset o) && value_is_explicit (o_value o)) (t_out t)) eqn:AE; cbn [negb]; [|reflexivity].
    destruct (loop_unmarked_state p (length (filter marked (t_out t))) ss (t_out t) (mkBS [] [] None [] 0 rnd) 0%nat AE NM) as (secs & ->).
    reflexivity.
  Qed.
  Theorem blind_none_marked_error p rnd ss t :
    explicit_positive t -> existsb marked (t_out t) = false -> Forall in_zn rnd ->
    blind pubk ecdh p rnd ss t = OFail BTooFewBlindingOutputs.
  Proof. intros EP NM _. now rewrite (blind_none_marked p rnd ss t NM), (explicit_positive_explicit t EP). Qed.
End NoMarked.

Section DomainLimit.
  Variable pubk : Z -> Z.
  Variable ecdh : Z -> Z -> Z.

  (* Asset::blind refuses: every target is computed (no TxOutError), then the size check fails *)
  Theorem asset_blind_over_limit a abf spent : Forall (fun s => exists t, surjection_target s = OVal t) spent ->
    (CT_SURJECTIONPROOF_MAX_N_INPUTS < N.of_nat (length spent))%N ->
    asset_blind (AExp a) abf spent = OFail BCannotProveSurjection.
  Proof.
    intros F L. destruct (surjection_targets_total spent 0%nat F) as (tg & ST & LT).
    rewrite (asset_blind_targets a abf spent tg ST), LT, (dom_guard_over _ L). reflexivity.
  Qed.
  (* Transaction::blind with at least one marked output: the first marked output is reached (the outputs before it are only
     recorded), and blinding it — as a non-last output inside the loop, or as the last one after the loop — asks Asset::blind
     for a surjection proof over all of `ss`, which is refused. The whole call returns that error. *)
  Theorem blind_over_limit p rnd ss t :
    explicit_positive t -> scripts_addressable t -> existsb marked (t_out t) = true -> rnd_ok t rnd ->
    (CT_SURJECTIONPROOF_MAX_N_INPUTS < N.of_nat (length ss))%N ->
    blind pubk ecdh p rnd ss t = OFail BCannotProveSurjection.
  Proof.
    intros EP SA EX [RL _] OV.
    assert (W : forall spk rk esk s, with_txout_secrets pubk ecdh spk rk esk s (map sinput_of_secrets ss) = OFail BCannotProveSurjection).
    { intros. apply (wts_over_limit pubk ecdh _ _ _ _ _ _ (surjection_targets_secrets ss 0)). now rewrite map_length. }
    unfold blind. pose proof (explicit_positive_explicit t EP) as AE. rewrite AE. cbn [negb].
    fold (nmarked (t_out t)). unfold scripts_addressable in SA.
    destruct (split_first_marked _ EX) as (A & M & B & E & MM & NA). rewrite E in *.
    rewrite forallb_app in AE. apply andb_true_iff in AE as [AEA AEMB]. cbn [forallb] in AEMB. apply andb_true_iff in AEMB as [AEM AEB].
    apply Forall_app in SA as [_ SA]. inversion SA as [|? ? SAM _]; subst. destruct (SAM MM) as (ad & AD).
    destruct (marked_nonce M MM) as (rk & NK).
    apply andb_true_iff in AEM as [AM VM].
    destruct (o_asset M) as [|a|] eqn:EA; try discriminate AM. destruct (o_value M) as [|v|] eqn:EV; try discriminate VM.
    pose proof (proj1 (nmarked_zero A) NA) as ZA. rewrite nmarked_app, nmarked_cons, MM, ZA in *. cbn [Nat.add] in *.
    rewrite blind_loop_app.
    destruct (loop_unmarked_state pubk ecdh p (S (nmarked B)) ss A (mkBS [] [] None [] 0 rnd) 0%nat AEA NA) as (secsA & ->).
    cbn [obind bs_outs bs_secrets bs_last bs_blinds bs_num_blinded bs_rnd app Nat.add blind_loop].
    rewrite (step_marked pubk ecdh p ss _ _ _ M rk ad MM NK AD). cbn [bs_num_blinded Nat.add].
    destruct (1 <? S (nmarked B))%nat eqn:LT.
    - (* another marked output follows: this one is blinded inside the loop *)
      apply Nat.ltb_lt in LT. unfold explicit_value, explicit_asset. rewrite EA, EV. cbn [obind bs_rnd].
      unfold new_not_last_confidential.
      destruct rnd as [|x1 [|x2 [|x3 rnd']]]; cbn [length] in RL; try lia. cbn [draw obind].
      rewrite W. reflexivity.
    - (* it is the only marked output: it is blinded after the loop, as the last one *)
      apply Nat.ltb_ge in LT. assert (ZB : nmarked B = 0%nat) by lia. pose proof (proj2 (nmarked_zero B) ZB) as NB.
      cbn [obind bs_outs bs_secrets bs_last bs_blinds bs_num_blinded bs_rnd].
      destruct (loop_unmarked_state pubk ecdh p (S (nmarked B)) ss B (mkBS (A ++ [M]) secsA (Some (length A)) [] 1 rnd) (S (length A)) AEB NB) as (secsB & ->).
      cbn [obind bs_outs bs_secrets bs_last bs_blinds bs_num_blinded bs_rnd]. rewrite <- app_assoc. cbn [app].
      rewrite nth_error_mid. unfold nonce_commitment, explicit_value, explicit_asset. rewrite NK, EA, EV. cbn [obind].
      unfold new_last_confidential. rewrite ZB in RL.
      destruct rnd as [|x1 [|x2 rnd']]; cbn [length] in RL; try lia. cbn [draw obind].
      unfold with_secrets_last. rewrite W. reflexivity.
  Qed.
End DomainLimit.

(* C07 — raw key/pair/proprietary-key framing laws and the total-order laws of the transcribed comparators. *)
From Coq Require Import List Arith NArith ZArith Lia Bool ZifyN ZifyBool ZifyNat.
From Coq.Strings Require Import Byte.
From EV Require Import Base.Bytes Base.Codec Model.PsetRaw.
Import ListNotations.
Ltac Zify.zify_post_hook ::= Z.div_mod_to_equations.
Open Scope N_scope.
Set Default Timeout 30.

Section LEX.
Context {A : Type} (c : A -> A -> comparison).
Hypothesis c_eq : forall x y, c x y = Eq <-> x = y.
Hypothesis c_anti : forall x y, c y x = CompOpp (c x y).
Hypothesis c_trans : forall x y z, c x y = Lt -> c y z = Lt -> c x z = Lt.
Lemma lex_cmp_eq : forall a b, lex_cmp c a b = Eq <-> a = b.
Proof. induction a as [|x a IH]; intros [|y b]; cbn [lex_cmp]; try (split; discriminate); [tauto|].
  destruct (c x y) eqn:E.
  - apply c_eq in E. subst. rewrite IH. split; [intros ->; reflexivity|intros H; now inversion H].
  - split; [discriminate|]. intros H; inversion H; subst. assert (c y y = Eq) by now apply c_eq. congruence.
  - split; [discriminate|]. intros H; inversion H; subst. assert (c y y = Eq) by now apply c_eq. congruence. Qed.
Lemma lex_cmp_anti : forall a b, lex_cmp c b a = CompOpp (lex_cmp c a b).
Proof. induction a as [|x a IH]; intros [|y b]; cbn [lex_cmp]; try reflexivity.
  rewrite (c_anti x y). destruct (c x y); cbn [CompOpp]; auto. Qed.
Lemma lex_cmp_trans : forall a b d, lex_cmp c a b = Lt -> lex_cmp c b d = Lt -> lex_cmp c a d = Lt.
Proof. induction a as [|x a IH]; intros [|y b] [|z d]; cbn [lex_cmp]; try discriminate; try reflexivity.
  destruct (c x y) eqn:E1; try discriminate.
  - apply c_eq in E1. subst y. destruct (c x z); try discriminate; auto. intros H1 H2. eapply IH; eauto.
  - intros _. destruct (c y z) eqn:E2; try discriminate.
    + apply c_eq in E2. subst z. now rewrite E1.
    + intros _. now rewrite (c_trans _ _ _ E1 E2). Qed.
End LEX.

Lemma bcmp_eq x y : bcmp x y = Eq <-> x = y.
Proof. unfold bcmp. rewrite N.compare_eq_iff. split; [apply b2n_inj|now intros ->]. Qed.
Lemma bcmp_anti x y : bcmp y x = CompOpp (bcmp x y). Proof. unfold bcmp. apply N.compare_antisym. Qed.
Lemma bcmp_trans x y z : bcmp x y = Lt -> bcmp y z = Lt -> bcmp x z = Lt.
Proof. unfold bcmp. rewrite !N.compare_lt_iff. lia. Qed.
Lemma bscmp_eq a b : bscmp a b = Eq <-> a = b. Proof. apply lex_cmp_eq, bcmp_eq. Qed.
Lemma bscmp_anti a b : bscmp b a = CompOpp (bscmp a b). Proof. apply lex_cmp_anti, bcmp_anti. Qed.
Lemma bscmp_trans a b d : bscmp a b = Lt -> bscmp b d = Lt -> bscmp a d = Lt.
Proof. apply lex_cmp_trans; [apply bcmp_eq|apply bcmp_trans]. Qed.
Lemma tcmp_eq a b : tcmp a b = Eq <-> a = b. Proof. apply lex_cmp_eq, bscmp_eq. Qed.
Lemma tcmp_anti a b : tcmp b a = CompOpp (tcmp a b). Proof. apply lex_cmp_anti, bscmp_anti. Qed.
Lemma tcmp_trans a b d : tcmp a b = Lt -> tcmp b d = Lt -> tcmp a d = Lt.
Proof. apply lex_cmp_trans; [apply bscmp_eq|apply bscmp_trans]. Qed.
Lemma tcmp_refl a : tcmp a a = Eq. Proof. now apply tcmp_eq. Qed.

Section RAW.
Variable maxvec : N.
Hypothesis Hmax : maxvec + 1 < 2 ^ 64.

Definition fitsb (b : bytes) : bool := N.of_nat (length b) <=? maxvec.
Definition fits (p : rpair) : Prop := fitsb (snd (fst p)) = true /\ fitsb (snd p) = true.

Lemma c_key_lawful : Lawful (c_key maxvec).
Proof. unfold c_key. apply c_conv_lawful.
  - unfold c_keybody. apply c_dep_lawful; [apply c_guard_lawful, c_varint_lawful|intros; apply c_fixed_lawful].
  - intros [n b] [t k] W H. apply wf_dep in W as [_ W]. apply Nat.eqb_eq in W. unfold key_of_body, body_of_key in *. cbn [snd fst] in *.
    destruct b as [|t' k']; [discriminate|]. injection H as -> ->. split; [|reflexivity]. cbn [length] in W. f_equal. lia.
  - intros [t k] _ _. reflexivity. Qed.
Lemma c_rawpair_lawful : Lawful (c_rawpair maxvec).
Proof. apply c_pair_lawful; [apply c_key_lawful|apply c_varbytes_lawful]. Qed.

Lemma rawpair_wf_iff p : wf (c_rawpair maxvec) p = true <-> fits p.
Proof. destruct p as [[t k] v]. unfold fits, fitsb. cbn [c_rawpair c_pair wf c_key c_conv c_keybody c_dep c_keylen c_guard c_varint c_fixed c_varbytes body_of_key fst snd length].
  rewrite Nat2N.id, Nat.eqb_refl. lia. Qed.

Lemma vi_enc_head n : 1 <= n -> exists b r, vi_enc n = b :: r /\ b <> x00.
Proof. intros H. unfold vi_enc. destruct (N.ltb_spec n 0xFD).
  - exists (n2b n), []. split; [reflexivity|]. intros E. assert (b2n (n2b n) = 0) by now rewrite E. rewrite b2n_n2b_small in H1; lia.
  - destruct (n <? 0x10000); [|destruct (n <? 0x100000000)]; eexists _, _; (split; [reflexivity|]); intros E; discriminate E. Qed.
Lemma enc_pair_head p : exists b r, enc_pair maxvec p = b :: r /\ b <> x00.
Proof. destruct p as [[t k] v]. unfold enc_pair. cbn [c_rawpair c_pair enc c_key c_conv c_keybody c_dep c_keylen c_guard c_varint c_fixed body_of_key fst snd].
  destruct (vi_enc_head (N.of_nat (S (length k)))) as (b & r & E & Hb); [lia|]. rewrite E. cbn [app]. eauto. Qed.
Lemma enc_pair_nonempty p : (1 <= length (enc_pair maxvec p))%nat.
Proof. destruct (enc_pair_head p) as (b & r & -> & _). cbn [length]. lia. Qed.

Lemma dec_pair_nz b r : b <> x00 ->
  dec_pair maxvec (b :: r) = match dec (c_rawpair maxvec) (b :: r) with Some (p, rest) => POk (Some p, rest) | None => PErr EInvalid end.
Proof. intros H. destruct b; [now elim H|reflexivity ..]. Qed.
Lemma dec_pair_enc p rest : fits p -> dec_pair maxvec (enc_pair maxvec p ++ rest) = POk (Some p, rest).
Proof. intros F. apply rawpair_wf_iff in F. destruct (enc_pair_head p) as (b & r & E & Hb).
  pose proof (l_complete c_rawpair_lawful p rest F) as D. unfold enc_pair in *. rewrite E in *. cbn [app] in *.
  rewrite dec_pair_nz by exact Hb. now rewrite D. Qed.
Lemma dec_pair_sep rest : dec_pair maxvec (x00 :: rest) = POk (None, rest). Proof. reflexivity. Qed.
Lemma dec_pair_some bs p rest : dec_pair maxvec bs = POk (Some p, rest) -> bs = enc_pair maxvec p ++ rest /\ fits p.
Proof. intros H.
  assert (D : dec (c_rawpair maxvec) bs = Some (p, rest)).
  { destruct bs as [|b r]; [cbn in H; discriminate|]. destruct (byte_eqb_spec b x00) as [->|Hb]; [cbn in H; discriminate|].
    rewrite dec_pair_nz in H by exact Hb. destruct (dec (c_rawpair maxvec) (b :: r)) as [[p' r']|]; [now inversion H|discriminate]. }
  split; [now apply (l_exact c_rawpair_lawful)|]. apply rawpair_wf_iff. eapply (l_wf c_rawpair_lawful); eauto. Qed.
Lemma dec_pair_none bs rest : dec_pair maxvec bs = POk (None, rest) -> bs = x00 :: rest.
Proof. intros H. destruct bs as [|b r]; [cbn in H; discriminate|]. destruct (byte_eqb_spec b x00) as [->|Hb]; [cbn in H; now inversion H|].
  rewrite dec_pair_nz in H by exact Hb. destruct (dec (c_rawpair maxvec) (b :: r)) as [[p' r']|]; discriminate. Qed.

Lemma prop_dec_enc pfx s kd : fitsb pfx = true -> prop_dec maxvec (prop_enc maxvec pfx s kd) = Some (pfx, s, kd).
Proof. intros F. unfold prop_dec, prop_enc, fitsb in *.
  assert (W : wf (c_varbytes maxvec) pfx = true) by (cbn; apply andb_true_iff; split; lia).
  now rewrite (l_complete (c_varbytes_lawful maxvec) pfx (s :: kd) W). Qed.
Lemma prop_dec_exact k pfx s kd : prop_dec maxvec k = Some (pfx, s, kd) -> k = prop_enc maxvec pfx s kd /\ fitsb pfx = true.
Proof. unfold prop_dec, prop_enc. destruct (dec (c_varbytes maxvec) k) as [[p [|s' d]]|] eqn:D; try discriminate.
  intros H; inversion H; subst. split; [now apply (l_exact (c_varbytes_lawful maxvec)) in D|].
  apply (l_wf (c_varbytes_lawful maxvec)) in D. cbn in D. apply andb_true_iff in D as [D _]. exact D. Qed.
Lemma prop_enc_length pfx s kd : length (prop_enc maxvec pfx s kd) = (length (enc (c_varbytes maxvec) pfx) + S (length kd))%nat.
Proof. unfold prop_enc. now rewrite app_length. Qed.
End RAW.

(* The hand-written size arithmetic of Transaction/Block equals the length of the consensus encoding. *)
From Coq Require Import List NArith ZArith Lia Bool ZifyN ZifyBool ZifyNat.
From Coq.Strings Require Import Byte.
From EV Require Import Base.Bytes Base.Codec Model.Tx Model.Block Model.Sizes Proofs.Flags Proofs.Tx Proofs.Block.
Import ListNotations.
Open Scope N_scope.
Set Default Timeout 30.

Lemma nsum_map_add {A} (f g : A -> N) l : nsum (map (fun x => f x + g x) l) = nsum (map f l) + nsum (map g l).
Proof. induction l as [|x l IH]; cbn [map nsum fold_right]; [reflexivity|]. unfold nsum in *. rewrite IH. lia. Qed.
Lemma nsum_map_mul {A} k (f : A -> N) l : nsum (map (fun x => k * f x) l) = k * nsum (map f l).
Proof. induction l as [|x l IH]; cbn [map nsum fold_right]; [lia|]. unfold nsum in *. rewrite IH. lia. Qed.
Lemma nsum_map_if {A} (b : bool) (f : A -> N) l : nsum (map (fun x => if b then f x else 0) l) = if b then nsum (map f l) else 0.
Proof. destruct b; [reflexivity|]. induction l as [|x l IH]; [reflexivity|exact IH]. Qed.
Lemma nsum_map_le {A} (f g : A -> N) l : (forall x, In x l -> f x <= g x) -> nsum (map f l) <= nsum (map g l).
Proof. induction l as [|x l IH]; intros H; cbn [map nsum fold_right]; [lia|]. unfold nsum in *. pose proof (H x (or_introl eq_refl)). pose proof (IH (fun y Hy => H y (or_intror Hy))). lia. Qed.
Lemma nsum_map_ext {A} (f g : A -> N) l : (forall x, In x l -> f x = g x) -> nsum (map f l) = nsum (map g l).
Proof. intros H. apply N.le_antisymm; apply nsum_map_le; intros x Hx; rewrite (H x Hx); lia. Qed.
Lemma vn_len_nsum {A} (c : codec A) l : vn_len c l = nsum (map (elen c) l).
Proof. induction l as [|x l IH]; cbn [map vn_len nsum fold_right]; [reflexivity|]. unfold vn_len, nsum in *. now rewrite IH. Qed.

Section SIZES.
Variable pt_ok : bytes -> bool.
Variables maxvec cap_txin cap_txout cap_vecu8 cap_tx : N.
Notation TXIN := (c_txin_nowit pt_ok maxvec).
Notation TXOUT := (c_txout_nowit pt_ok maxvec).
Notation TX := (c_tx pt_ok maxvec cap_txin cap_txout cap_vecu8).

Lemma elen_txin j : wf TXIN j = true -> elen TXIN j = input_base j.
Proof. intros W. apply wf_conv in W as [Wb Ww]. apply wf_dep in Ww as [Wh Wi]. apply wf_pair in Wh as [W1 _]. apply wf_pair in W1 as [Wt _].
  apply fixed32_len in Wt. destruct (wire_vout_read j Wb) as (_ & E & _). cbn [fst snd] in Wi. rewrite E in Wi.
  cbn [c_txin_nowit c_conv c_txin_wire c_dep c_txin_head c_pair c_hash32 c_fixed c_u32 c_le c_script c_varbytes elen]. unfold wire_of_txin. cbn [fst snd].
  rewrite E, Wt. unfold input_base, blen. destruct (has_issuance j).
  - apply wf_conv in Wi as [_ Wi]. apply wf_pair in Wi as [Wn Wi]. apply wf_pair in Wi as [We _]. apply wf_guard in Wn as [Wn _].
    apply fixed32_len in Wn. apply fixed32_len in We. cbn [c_issuance c_conv c_pair c_tweak c_guard c_hash32 c_fixed c_value elen]. rewrite Wn, We. lia.
  - cbn [c_conv elen c_unit]. lia. Qed.
Lemma elen_txout o : elen TXOUT o = output_base o.
Proof. cbn [c_txout_nowit c_conv elen c_pair c_asset c_value c_nonce c_script c_varbytes]. unfold output_base, blen. lia. Qed.
Lemma elen_optproof ok o : elen (c_optproof maxvec ok) o = vi_size (optlen o) + optlen o.
Proof. cbn [c_optproof c_conv elen c_varbytes]. destruct o; reflexivity. Qed.
Lemma elen_stack s : elen (c_stack maxvec cap_vecu8) s = stack_size s.
Proof. cbn [c_stack c_vec elen]. now rewrite vn_len_nsum. Qed.
Lemma elen_inwit i : elen (c_inwit maxvec cap_vecu8) (in_wit i) = input_wit i.
Proof. cbn [c_inwit c_conv elen c_pair]. unfold c_rangeproof. rewrite !elen_optproof, !elen_stack. unfold input_wit. lia. Qed.
Lemma elen_outwit o : elen (c_outwit maxvec) (out_wit o) = output_wit o.
Proof. cbn [c_outwit c_conv elen c_pair]. unfold c_rangeproof, c_surjproof. rewrite !elen_optproof. unfold output_wit. lia. Qed.

Definition tx_formula (t : tx) : N :=
  9 + vi_size (N.of_nat (length (tx_in t))) + vi_size (N.of_nat (length (tx_out t)))
  + nsum (map input_base (tx_in t)) + nsum (map output_base (tx_out t))
  + (if has_witness t then nsum (map input_wit (tx_in t)) + nsum (map output_wit (tx_out t)) else 0).
Lemma scaled_formula k t : scaled_size k t =
  k * (9 + vi_size (N.of_nat (length (tx_in t))) + vi_size (N.of_nat (length (tx_out t))) + nsum (map input_base (tx_in t)) + nsum (map output_base (tx_out t)))
  + (if has_witness t then nsum (map input_wit (tx_in t)) + nsum (map output_wit (tx_out t)) else 0).
Proof. unfold scaled_size. rewrite !nsum_map_add, !nsum_map_mul, !nsum_map_if. destruct (has_witness t); lia. Qed.
Lemma wf_tx_parts t : wf TX t = true ->
  forallb (wf TXIN) (map strip_in (tx_in t)) = true /\ forallb (wf TXOUT) (map strip_out (tx_out t)) = true.
Proof. intros W. apply wf_conv in W as [_ W]. apply wf_dep in W as [Wh _]. exact (wf_tx_head_parts _ _ _ _ _ _ _ _ _ Wh). Qed.
Lemma elen_tx t : wf TX t = true -> elen TX t = tx_formula t.
Proof. intros W. destruct (wf_tx_parts t W) as [Wi Wo]. cbn [c_tx c_conv elen]. unfold wire_of_tx.
  cbn [c_tx_wire c_dep elen fst snd]. unfold c_tx_wits, head_flag, head_ins, head_outs. cbn [fst snd].
  cbn [c_tx_head c_pair elen c_u32 c_le c_u8 c_vec]. rewrite !map_length, !vn_len_nsum, !map_map.
  rewrite (nsum_map_ext (fun x => elen TXIN (strip_in x)) input_base) by (intros x Hx; exact (elen_txin (strip_in x) (forallb_In _ _ Wi _ (in_map _ _ _ Hx)))).
  rewrite (nsum_map_ext (fun x => elen TXOUT (strip_out x)) output_base) by (intros; exact (elen_txout (strip_out _))).
  unfold tx_formula. destruct (has_witness t).
  - cbn [N.eqb Pos.eqb]. cbn [c_pair c_vecn elen]. rewrite !vn_len_nsum, !map_map.
    rewrite (nsum_map_ext (fun x => elen (c_inwit maxvec cap_vecu8) (in_wit x)) input_wit) by (intros; apply elen_inwit).
    rewrite (nsum_map_ext (fun x => elen (c_outwit maxvec) (out_wit x)) output_wit) by (intros; apply elen_outwit). lia.
  - cbn [N.eqb]. cbn [c_conv elen c_unit]. lia. Qed.

Lemma size_is_elen t : wf TX t = true -> tx_size t = elen TX t.
Proof. intros W. rewrite (elen_tx t W). unfold tx_size. rewrite scaled_formula. unfold tx_formula. lia. Qed.
Theorem size_is_length t : wf TX t = true -> tx_size t = N.of_nat (length (enc TX t)).
Proof. intros W. rewrite (size_is_elen t W). exact (l_len (c_tx_lawful pt_ok maxvec cap_txin cap_txout cap_vecu8) t W). Qed.
Lemma strip_in_idem i : strip_in (strip_in i) = strip_in i. Proof. reflexivity. Qed.
Lemma strip_out_idem o : strip_out (strip_out o) = strip_out o. Proof. reflexivity. Qed.
Lemma weight_split t : tx_weight t = 3 * tx_size (strip_tx t) + tx_size t.
Proof. unfold tx_weight, tx_size. rewrite !scaled_formula, has_witness_strip. unfold strip_tx. cbn [tx_in tx_out]. rewrite !map_length, !map_map.
  change (fun x => input_base (strip_in x)) with input_base. change (fun x => output_base (strip_out x)) with output_base. lia. Qed.
Lemma wf_strip t : wf TX t = true -> wf TX (strip_tx t) = true.
Proof. intros W. apply wf_conv in W as [_ W]. apply wf_dep in W as [Wh _]. unfold wire_of_tx in Wh. cbn [fst] in Wh.
  apply wf_pair in Wh as [Wv Wh]. apply wf_pair in Wh as [_ Wh].
  (* the same version, the flag 0 with no witness part, and the inputs, outputs and lock time of t, stripping being idempotent *)
  apply wf_conv. split; [reflexivity|]. unfold wire_of_tx. rewrite has_witness_strip. apply wf_dep. split; [|reflexivity].
  apply wf_pair. split; [exact Wv|]. apply wf_pair. split; [reflexivity|].
  unfold strip_tx. cbn [tx_in tx_out tx_lock]. rewrite !map_map. exact Wh. Qed.
Theorem weight_is_lengths t : wf TX t = true ->
  tx_weight t = 3 * N.of_nat (length (enc TX (strip_tx t))) + N.of_nat (length (enc TX t)).
Proof. intros W. rewrite weight_split, (size_is_length t W), (size_is_length (strip_tx t) (wf_strip t W)). reflexivity. Qed.

Notation BLOCK := (c_block pt_ok maxvec cap_txin cap_txout cap_vecu8 cap_tx).
Theorem block_size_is_length b : wf BLOCK b = true -> block_size maxvec cap_vecu8 b = N.of_nat (length (enc BLOCK b)).
Proof. intros W. apply wf_conv in W as [_ W]. apply wf_pair in W as [Wh Wt]. apply wf_vec in Wt as (_ & _ & Wt).
  cbn [c_block c_conv c_pair c_vec enc]. rewrite !app_length, !Nnat.Nat2N.inj_add, <- vi_size_length. unfold block_size, blen.
  rewrite <- (vn_len_ok TX (c_tx_lawful pt_ok maxvec cap_txin cap_txout cap_vecu8) (b_txs b) Wt), vn_len_nsum.
  rewrite (nsum_map_ext tx_size (elen TX)) by (intros t Ht; apply size_is_elen, (forallb_In _ _ Wt), Ht). lia. Qed.
End SIZES.

Lemma fold_sub {A} (d : A -> N) (step : N -> A -> N) :
  (forall w o, d o <= w -> step w o = w - d o) ->
  forall l w0, nsum (map d l) <= w0 -> fold_left step l w0 = w0 - nsum (map d l).
Proof. intros Hs. induction l as [|o l IH]; intros w0 H; cbn [fold_left map nsum fold_right] in *; [lia|].
  unfold nsum in *. rewrite Hs by lia. rewrite IH by lia. lia. Qed.
(* a confidential value or nonce is 33 bytes long, which pays for its discount; the witness bytes are counted only when the
   transaction has witnesses, and an output without one has the two bytes that are kept *)
Lemma discount_le o : output_discount o <= 4 * output_base o + (output_wit o - 2).
Proof. unfold output_discount, output_base. destruct (out_value o), (out_nonce o); cbn [value_is_conf nonce_is_conf value_len nonce_len]; lia. Qed.
Lemma output_wit_empty o : outwit_is_empty (out_wit o) = true -> output_wit o = 2.
Proof. intros H. apply outwit_empty_eq in H. unfold output_wit. now rewrite H. Qed.
Lemma discount_bounded t : nsum (map output_discount (tx_out t)) <= tx_weight t.
Proof. unfold tx_weight. rewrite scaled_formula.
  assert (H : nsum (map output_discount (tx_out t)) <= nsum (map (fun o => 4 * output_base o + (if has_witness t then output_wit o else 0)) (tx_out t))).
  { apply nsum_map_le. intros o Ho. pose proof (discount_le o). destruct (has_witness t) eqn:HW; [lia|].
    apply no_witness_parts in HW as [_ HW].
    rewrite (output_wit_empty o (forallb_In _ _ HW o Ho)) in *. lia. }
  rewrite nsum_map_add, nsum_map_mul, nsum_map_if in H. destruct (has_witness t); lia. Qed.
Theorem discount_is_weight_minus t :
  discount_weight t = tx_weight t - nsum (map output_discount (tx_out t)) /\ nsum (map output_discount (tx_out t)) <= tx_weight t.
Proof. split; [|apply discount_bounded]. unfold discount_weight. apply fold_sub; [|apply discount_bounded].
  intros w o H. unfold output_discount in *. lia. Qed.


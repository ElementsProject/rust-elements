(* C03 — canonical transactions (`canon_tx`, Model/SighashCommit.v): what the predicate gives field by field, in the form the sensitivity
   proofs use it, and that every transaction the consensus decoder can return (`wf (c_tx ..)`, C01_tx_decode_exact) is canonical,
   provided MAX_VEC_SIZE and the element caps are below 2^64. *)
From Coq Require Import List Arith NArith Bool Lia.
From Coq.Strings Require Import Byte.
From EV Require Import Base.Bytes Base.Codec Model.Tx Model.SighashSpec Model.SighashCommit Proofs.Tx.
Import ListNotations.
Open Scope N_scope.
Set Default Timeout 120.

Lemma wf_txin_eq pt_ok mv x : wf (c_txin pt_ok mv) x =
  txin_wfB x && (wf c_hash32 (o_txid (in_prev x)) && wf c_u32 (wire_vout x) && (wf (c_varbytes mv) (in_script x) && wf c_u32 (in_seq x))
                 && wf (if wire_has_issuance (wire_vout x) then c_issuance pt_ok else c_noiss) (in_iss x)).
Proof. reflexivity. Qed.
Lemma wf_txout_eq pt_ok mv x : wf (c_txout pt_ok mv) x =
  outwit_is_empty (out_wit x) && (wf (c_asset pt_ok) (out_asset x) && (wf (c_value pt_ok) (out_value x) && (wf (c_nonce pt_ok) (out_nonce x) && wf (c_varbytes mv) (out_script x)))).
Proof. reflexivity. Qed.

Section FACTS.
Variable pt_ok : bytes -> bool.
Notation canon_in := (canon_in pt_ok). Notation canon_out := (canon_out pt_ok). Notation canon_tx := (canon_tx pt_ok).

Lemma canon_in_facts i : canon_in i = true ->
  length (o_txid (in_prev i)) = 32%nat /\ o_vout (in_prev i) < 4294967296 /\ in_seq i < 4294967296 /\
  (issuance_null i = false -> wf (c_issuance pt_ok) (in_iss i) = true) /\
  len_ok (proof_bytes (w_amount_rp (in_wit i))) = true /\ len_ok (proof_bytes (w_keys_rp (in_wit i))) = true /\
  wf (c_txin pt_ok BIG) (strip_in i) = true.
Proof. unfold SighashCommit.canon_in. intros C. apply andb_true_iff in C as [C P2]. apply andb_true_iff in C as [W P1].
  pose proof W as W0. rewrite wf_txin_eq in W. apply andb_true_iff in W as [Wb W]. apply andb_true_iff in W as [W Wi]. apply andb_true_iff in W as [Wtv W].
  apply andb_true_iff in Wtv as [Wt _]. apply andb_true_iff in W as [_ Wq]. destruct (wire_vout_read _ Wb) as (_ & Hi & _). rewrite Hi in Wi.
  apply txin_wfB_parts in Wb as (Wr & _). repeat split; auto.
  - cbn [c_hash32 c_fixed wf] in Wt. now apply Nat.eqb_eq in Wt.
  - apply orb_true_iff in Wr as [Wr|Wr]; apply andb_true_iff in Wr as [Wr _].
    + apply N.ltb_lt in Wr. unfold Flags.B30 in Wr. cbn [strip_in in_prev] in Wr. lia.
    + apply andb_true_iff in Wr as [Wr _]. apply N.eqb_eq in Wr. unfold Flags.ALL1 in Wr. cbn [strip_in in_prev] in Wr. lia.
  - apply u32_wf_lt in Wq. exact Wq.
  - unfold issuance_null. intros Z. unfold has_issuance in Wi. cbn [strip_in in_iss] in Wi. now rewrite Z in Wi. Qed.

Lemma canon_out_facts o : canon_out o = true ->
  wf (c_asset pt_ok) (out_asset o) = true /\ wf (c_value pt_ok) (out_value o) = true /\ wf (c_nonce pt_ok) (out_nonce o) = true /\
  wf (c_varbytes BIG) (out_script o) = true /\
  len_ok (proof_bytes (w_surj (out_wit o))) = true /\ len_ok (proof_bytes (w_range (out_wit o))) = true.
Proof. unfold SighashCommit.canon_out. intros C. apply andb_true_iff in C as [C P2]. apply andb_true_iff in C as [W P1]. rewrite wf_txout_eq in W.
  apply andb_true_iff in W as [_ W]. apply andb_true_iff in W as [Wa W]. apply andb_true_iff in W as [Wv W]. apply andb_true_iff in W as [Wn Ws]. auto 10. Qed.

Lemma canon_tx_facts t : canon_tx t = true ->
  tx_version t < 4294967296 /\ tx_lock t < 4294967296 /\ forallb canon_in (tx_in t) = true /\ forallb canon_out (tx_out t) = true /\
  N.of_nat (length (tx_in t)) < BIG /\ N.of_nat (length (tx_out t)) < BIG.
Proof. unfold SighashCommit.canon_tx. intros C. apply andb_true_iff in C as [C L2]. apply andb_true_iff in C as [C L1].
  apply andb_true_iff in C as [C CO]. apply andb_true_iff in C as [C CI]. apply andb_true_iff in C as [V L].
  apply N.ltb_lt in V, L, L1, L2. auto 10. Qed.
End FACTS.

Section CANON.
Variable pt_ok : bytes -> bool.
Variables maxvec ci co cv : N.
Hypothesis Hmax : maxvec < BIG.
Hypothesis Hci : ci < BIG.
Hypothesis Hco : co < BIG.

Lemma varbytes_mono b : wf (c_varbytes maxvec) b = true -> wf (c_varbytes BIG) b = true /\ len_ok b = true.
Proof. unfold len_ok. cbn [c_varbytes wf]. intros W. apply andb_true_iff in W as [W1 W2]. rewrite W2, andb_true_r. apply N.leb_le in W1.
  split; [apply N.leb_le|apply N.ltb_lt]; unfold BIG in *; lia. Qed.
Lemma txin_mono x : wf (c_txin pt_ok maxvec) x = true -> wf (c_txin pt_ok BIG) x = true.
Proof. rewrite !wf_txin_eq. intros W. apply andb_true_iff in W as [Wb W]. apply andb_true_iff in W as [W Wi]. apply andb_true_iff in W as [Wtv W].
  apply andb_true_iff in W as [Ws Wq]. now rewrite Wb, Wi, Wtv, Wq, (proj1 (varbytes_mono _ Ws)). Qed.
Lemma txout_mono x : wf (c_txout pt_ok maxvec) x = true -> wf (c_txout pt_ok BIG) x = true.
Proof. rewrite !wf_txout_eq. intros W. apply andb_true_iff in W as [Wb W]. apply andb_true_iff in W as [Wa W]. apply andb_true_iff in W as [Wv W].
  apply andb_true_iff in W as [Wn Ws]. now rewrite Wb, Wa, Wv, Wn, (proj1 (varbytes_mono _ Ws)). Qed.
Lemma optproof_len ok o : wf (c_optproof maxvec ok) o = true -> len_ok (proof_bytes o) = true.
Proof. intros W. apply wf_conv in W as [_ W]. apply varbytes_mono. destruct o; exact W. Qed.

(* the proofs carried by the witnesses of a decoded transaction, which are absent when the transaction has no witness *)
Lemma decoded_proofs_len t : wf (c_tx_wits maxvec cv (fst (wire_of_tx t))) (snd (wire_of_tx t)) = true ->
  (forall i, In i (tx_in t) -> len_ok (proof_bytes (w_amount_rp (in_wit i))) = true /\ len_ok (proof_bytes (w_keys_rp (in_wit i))) = true) /\
  (forall o, In o (tx_out t) -> len_ok (proof_bytes (w_surj (out_wit o))) = true /\ len_ok (proof_bytes (w_range (out_wit o))) = true).
Proof. unfold c_tx_wits, head_flag, wire_of_tx. cbn [fst snd]. destruct (has_witness t) eqn:HW.
  - cbn [N.eqb Pos.eqb]. intros W. apply wf_pair in W as [Wi Wo]. apply wf_vecn in Wi as [_ Wi]. apply wf_vecn in Wo as [_ Wo].
    rewrite forallb_map, forallb_forall in Wi. rewrite forallb_map, forallb_forall in Wo. split; intros x Ix; [specialize (Wi x Ix)|specialize (Wo x Ix)].
    + apply wf_conv in Wi as [_ Wi]. apply wf_pair in Wi as [Wa Wi]. apply wf_pair in Wi as [Wk _]. eauto using optproof_len.
    + apply wf_conv in Wo as [_ Wo]. apply wf_pair in Wo as [Wa Wk]. eauto using optproof_len.
  - intros _. apply no_witness_parts in HW as [Hi Ho]. rewrite forallb_forall in Hi, Ho.
    split; intros x Ix; [rewrite (inwit_empty_eq _ (Hi x Ix))|rewrite (outwit_empty_eq _ (Ho x Ix))]; auto. Qed.

Theorem decoded_tx_canonical t : wf (c_tx pt_ok maxvec ci co cv) t = true -> canon_tx pt_ok t = true.
Proof. intros W. apply wf_conv in W as [_ W]. apply wf_dep in W as [Wh Ww].
  destruct (decoded_proofs_len t Ww) as [PI PO].
  apply wf_pair in Wh as [Wver Wh]. apply wf_pair in Wh as [_ Wh]. apply wf_pair in Wh as [Wins Wh]. apply wf_pair in Wh as [Wouts Wlock].
  apply wf_vec in Wins as (Wil & _ & Wins). apply wf_vec in Wouts as (Wol & _ & Wouts).
  rewrite map_length in Wil, Wol. rewrite forallb_map, forallb_forall in Wins. rewrite forallb_map, forallb_forall in Wouts.
  unfold SighashCommit.canon_tx. apply u32_wf_lt in Wver, Wlock. change (2 ^ 32) with 4294967296 in *.
  repeat (apply andb_true_iff; split); try (apply N.ltb_lt; unfold BIG in *; lia); apply forallb_forall; intros x Ix.
  - unfold SighashCommit.canon_in. destruct (PI x Ix) as [-> ->]. now rewrite (txin_mono _ (Wins x Ix)).
  - unfold SighashCommit.canon_out. destruct (PO x Ix) as [-> ->]. now rewrite (txout_mono _ (Wouts x Ix)). Qed.
End CANON.

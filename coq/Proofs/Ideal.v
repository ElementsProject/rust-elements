(* Lemmas about the ideal objects of Model/Ideal.v: coefficient calculus of generators and commitments; completeness,
   soundness and binding of ideal range / surjection proofs, rewind; the list operation set_nth. *)
From Coq Require Import List NArith ZArith Bool Lia Setoid Morphisms.
From Coq.Strings Require Import Byte.
From EV Require Import Base.Bytes Base.Zn Base.FreeMod Model.Ideal.
Import ListNotations.
Open Scope Z_scope.

Definition sgen (s : secrets) : gel := asset_gen (s_asset s) (s_abf s).
Definition scommit (s : secrets) : gel := commit (s_value s) (sgen s) (s_vbf s).
Definition svb (s : secrets) : Z := vb (s_value s, s_abf s, s_vbf s).
Lemma secrets_eta s : mkSec (s_asset s) (s_abf s) (s_value s) (s_vbf s) = s. Proof. now destruct s. Qed.

Global Instance commit_geq : Proper (eq ==> geq ==> eq ==> geq) commit.
Proof. intros v v' -> g g' E b b' ->. unfold commit. now rewrite E. Qed.

Lemma svb_zero_bf a v : svb (mkSec a 0 v 0) = 0.
Proof. unfold svb, vb. cbn. unfold zadd, zmul. rewrite Z.mul_0_r. reflexivity. Qed.
Lemma zsum_zero {A} (f : A -> Z) l : Forall (fun x => f x = 0) l -> zsum (map f l) = 0.
Proof. induction 1 as [|x l E F IH]; cbn [map]; [reflexivity|]. now rewrite zsum_cons, E, IH. Qed.

Lemma nth_set_eq {A} (l : list A) : forall j x y, nth_error l j = Some x -> nth_error (set_nth l j y) j = Some y.
Proof. induction l as [|a l IH]; intros [|j] x y NE; cbn in *; try discriminate; eauto. Qed.
Lemma nth_set_neq {A} (l : list A) : forall j k y, j <> k -> nth_error (set_nth l j y) k = nth_error l k.
Proof. induction l as [|a l IH]; intros [|j] [|k] y NE; cbn; auto; try congruence. Qed.
Lemma set_nth_same {A} (l : list A) : forall j x, nth_error l j = Some x -> set_nth l j x = l.
Proof. induction l as [|a l IH]; intros [|j] x NE; cbn in *; try discriminate. - now injection NE as <-. - f_equal. now apply IH. Qed.
Lemma set_nth_length {A} (l : list A) : forall j y, length (set_nth l j y) = length l.
Proof. induction l as [|a l IH]; intros [|j] y; cbn; auto. Qed.
Lemma set_nth_split {A} (l : list A) : forall j x y, nth_error l j = Some x ->
  l = firstn j l ++ x :: skipn (S j) l /\ set_nth l j y = firstn j l ++ y :: skipn (S j) l /\ length (firstn j l) = j.
Proof.
  induction l as [|a l IH]; intros [|j] x y NE; cbn in *; try discriminate.
  - injection NE as <-. auto.
  - destruct (IH j x y NE) as (E1 & E2 & E3). repeat split; f_equal; assumption.
Qed.
Lemma set_nth_app {A} (l1 : list A) x y l2 : set_nth (l1 ++ x :: l2) (length l1) y = l1 ++ y :: l2.
Proof. induction l1; cbn; [reflexivity|]. now rewrite IHl1. Qed.
Lemma nth_error_mid {A} (l1 : list A) x l2 : nth_error (l1 ++ x :: l2) (length l1) = Some x.
Proof. induction l1; cbn; auto. Qed.
Lemma set_nth_parts {A} (l : list A) y : forall i, firstn i (set_nth l i y) = firstn i l /\ skipn (S i) (set_nth l i y) = skipn (S i) l.
Proof. induction l as [|a l IH]; intros [|i]; cbn [set_nth firstn skipn]; auto. destruct (IH i) as [-> E]. auto. Qed.
Lemma map_set_nth {A B} (f : A -> B) l : forall j y, map f (set_nth l j y) = set_nth (map f l) j (f y).
Proof. induction l as [|a l IH]; intros [|j] y; cbn; auto. now rewrite IH. Qed.
Lemma Forall_set_nth {A} (P : A -> Prop) l : forall j y, Forall P l -> P y -> Forall P (set_nth l j y).
Proof. induction l as [|a l IH]; intros [|j] y F Py; cbn [set_nth]; inversion F; subst; constructor; auto. Qed.
Lemma Forall2_nth_error {A B} (R : A -> B -> Prop) l l' : Forall2 R l l' ->
  forall i a, nth_error l i = Some a -> exists b, nth_error l' i = Some b /\ R a b.
Proof. induction 1 as [|x y l l' E F IH]; intros [|i] a NE; cbn in *; try discriminate. - injection NE as <-. now exists y. - now apply IH. Qed.
Lemma Forall2_sym {A} (R : A -> A -> Prop) `{Symmetric A R} l l' : Forall2 R l l' -> Forall2 R l' l.
Proof. induction 1; constructor; [now symmetry|assumption]. Qed.
Lemma Forall2_trans {A} (R : A -> A -> Prop) `{Transitive A R} l m n : Forall2 R l m -> Forall2 R m n -> Forall2 R l n.
Proof. intro F. revert n. induction F; intros n F'; inversion F'; subst; constructor; [etransitivity; eassumption|auto]. Qed.

Lemma asset_gen_0 a : geq (asset_gen a 0) (gH a).
Proof.
  intro k. unfold asset_gen. rewrite coeff_add, coeff_scale, coeff_G. unfold zadd, zmul.
  rewrite Z.mul_0_l, Zmod_0_l, Z.add_0_r. apply coeff_mod.
Qed.
Lemma asset_gen_inj a abf a' abf' : geq (asset_gen a abf) (asset_gen a' abf') -> a = a'.
Proof.
  intro G. specialize (G (kH a)). rewrite !coeff_asset_gen_H, N.eqb_refl in G.
  destruct (N.eqb_spec a a'); [assumption|discriminate].
Qed.
Lemma asset_gen_shift a abf bf : geq (asset_gen a abf) (gadd (asset_gen a bf) (gscale (zsub abf bf) gG)).
Proof.
  intro k. unfold asset_gen. rewrite !coeff_add, !coeff_scale, coeff_G, coeff_H.
  destruct (N.eqb k (kH a)), (N.eqb k kG); zn_ring.
Qed.
Lemma asset_gen_add a abf r : geq (gadd (asset_gen a abf) (gscale r gG)) (asset_gen a (zadd abf r)).
Proof.
  intro k. unfold asset_gen. rewrite !coeff_add, !coeff_scale, coeff_G, coeff_H.
  destruct (N.eqb k (kH a)), (N.eqb k kG); zn_ring.
Qed.

Lemma coeff_scommit_G s : coeff (scommit s) kG = svb s.
Proof.
  unfold scommit, sgen, svb, vb. rewrite coeff_commit, coeff_asset_gen_G, N.eqb_refl. zn_ring.
Qed.
Lemma coeff_commit_H v g vbf a abf b : geq g (asset_gen a abf) ->
  coeff (commit v g vbf) (kH b) = if N.eqb b a then v mod qn else 0.
Proof.
  intro G. rewrite coeff_commit, G, coeff_asset_gen_H, kH_not_G.
  destruct (N.eqb b a); unfold zadd, zmul.
  - rewrite Z.mul_1_r, Z.add_0_r. apply zn_idem.
  - rewrite Z.mul_0_r. reflexivity.
Qed.
Lemma coeff_scommit_H s b :
  coeff (scommit s) (kH b) = if N.eqb b (s_asset s) then (s_value s) mod qn else 0.
Proof. apply coeff_commit_H with (abf := s_abf s). reflexivity. Qed.
Lemma commit_opened_binds v v' g g' a a' abf abf' vbf vbf' :
  geq g (asset_gen a abf) -> geq g' (asset_gen a' abf') -> 0 < v < qn -> 0 <= v' < qn ->
  geq (commit v g vbf) (commit v' g' vbf') -> a = a' /\ v = v'.
Proof.
  intros G G' V V' E. specialize (E (kH a)).
  rewrite (coeff_commit_H _ _ _ _ _ _ G), (coeff_commit_H _ _ _ _ _ _ G'), N.eqb_refl, Z.mod_small in E by lia.
  destruct (N.eqb_spec a a'); [rewrite Z.mod_small in E by lia; auto|lia].
Qed.
Lemma commit_H_binds a a' v v' vbf vbf' : 0 < v < qn -> 0 <= v' < qn -> geq (commit v (gH a) vbf) (commit v' (gH a') vbf') -> a = a' /\ v = v'.
Proof. apply commit_opened_binds with (abf := 0) (abf' := 0); symmetry; apply asset_gen_0. Qed.
Lemma commit_opened_nonzero v g a abf vbf : geq g (asset_gen a abf) -> 0 < v < qn -> ~ geq (commit v g vbf) gzero.
Proof.
  intros G V E. specialize (E (kH a)). rewrite (coeff_commit_H _ _ _ _ _ _ G), N.eqb_refl, coeff_zero, Z.mod_small in E by lia. lia.
Qed.
Lemma commit_nonzero v a abf vbf : 0 < v < qn -> ~ geq (commit v (asset_gen a abf) vbf) gzero.
Proof. apply commit_opened_nonzero with (a := a) (abf := abf). reflexivity. Qed.
Lemma commit_0 g : geq (commit 0 g 0) gzero.
Proof. intro k. rewrite coeff_commit, coeff_zero. unfold zadd, zmul. destruct (N.eqb k kG); reflexivity. Qed.

(* the regenerated constant TxOut::RANGEPROOF_MIN_VALUE; if it changes in the source this lemma, and with it C04, stops checking *)
Lemma rp_min_value : RANGEPROOF_MIN_VALUE = 1. Proof. reflexivity. Qed.
Lemma rp_verify_own c v vbf msg spk key gen : geq c (commit v gen vbf) -> 0 <= v < 2 ^ 64 ->
  rp_verify (mkRP c spk gen v vbf msg key true) c spk gen = true.
Proof.
  intros E [L U]. unfold rp_verify. cbn [rp_intact rp_commit rp_script rp_gen rp_value rp_vbf].
  apply geqb_spec in E. apply Z.leb_le in L. apply Z.ltb_lt in U. now rewrite !geqb_refl, bytes_eqb_refl, E, L, U.
Qed.
Lemma rp_new_verify c v vbf msg spk key gen rp :
  rp_new c v vbf msg spk key gen = Some rp -> geq c (commit v gen vbf) -> rp_verify rp c spk gen = true.
Proof.
  unfold rp_new. destruct ((RANGEPROOF_MIN_VALUE <=? v) && (v <=? I64_MAX)) eqn:R; [|discriminate].
  intros [= <-] E. apply andb_true_iff in R as [R1 R2]. apply Z.leb_le in R1, R2. rewrite rp_min_value in R1. unfold I64_MAX in *.
  apply rp_verify_own; [exact E|lia].
Qed.
(* the guard of Value::blind_with_shared_secret (since 17278a0) passes exactly for values the range proof can cover from below *)
Lemma min_guard v : 1 <= v -> (v <? RANGEPROOF_MIN_VALUE) = false.
Proof. intro H. apply Z.ltb_ge. rewrite rp_min_value. exact H. Qed.
Lemma rp_new_some c v vbf msg spk key gen :
  1 <= v <= I64_MAX -> rp_new c v vbf msg spk key gen = Some (mkRP c spk gen v vbf msg key true).
Proof.
  intros V. unfold rp_new. rewrite rp_min_value. destruct (1 <=? v) eqn:A, (v <=? I64_MAX) eqn:B; try reflexivity;
    try apply Z.leb_gt in A; try apply Z.leb_gt in B; lia.
Qed.
Lemma rp_rewind_new c v vbf msg spk key gen rp :
  rp_new c v vbf msg spk key gen = Some rp -> geq c (commit v gen vbf) ->
  rp_rewind rp c key spk gen = Some (v, vbf, msg).
Proof.
  intros N E. unfold rp_rewind. rewrite (rp_new_verify _ _ _ _ _ _ _ _ N E).
  unfold rp_new in N. destruct (_ && _); [|discriminate]. injection N as <-. cbn. now rewrite Z.eqb_refl.
Qed.
Lemma rp_verify_sound rp c spk gen : rp_verify rp c spk gen = true ->
  geq c (commit (rp_value rp) gen (rp_vbf rp)) /\ 0 <= rp_value rp < 2 ^ 64 /\ spk = rp_script rp /\ rp_intact rp = true
  /\ geq c (rp_commit rp) /\ geq gen (rp_gen rp).
Proof.
  unfold rp_verify. rewrite !andb_true_iff. intros [[[[[[I C] S] G] O] L] U].
  apply geqb_spec in C, G, O. apply Z.leb_le in L. apply Z.ltb_lt in U.
  destruct (bytes_eqb_spec spk (rp_script rp)) as [->|]; [|discriminate].
  repeat split; try assumption; try lia. rewrite C, O. now rewrite <- G.
Qed.
Lemma rp_verify_binds rp c spk gen c' spk' gen' : rp_verify rp c spk gen = true -> rp_verify rp c' spk' gen' = true ->
  geq c c' /\ spk = spk' /\ geq gen gen'.
Proof.
  intros V V'. apply rp_verify_sound in V as (_ & _ & -> & _ & C & G). apply rp_verify_sound in V' as (_ & _ & -> & _ & C' & G').
  rewrite C, C', G, G'. repeat split; reflexivity.
Qed.

Lemma sp_verify_new tag abf d sp domain :
  sp_new tag abf d = Some sp -> Forall2 geq domain (map (fun e => fst (fst e)) d) ->
  (forall i bf, find_tag tag d 0 = Some (i, bf) -> exists g, nth_error d i = Some (g, Some tag, bf) /\ geq g (asset_gen tag bf)) ->
  sp_verify sp (asset_gen tag abf) domain = true.
Proof.
  unfold sp_new. destruct (find_tag tag d 0) as [[i bf]|] eqn:F; [|discriminate]. intros [= <-] D W.
  destruct (W i bf eq_refl) as (g & NE & G).
  unfold sp_verify. cbn [sp_intact sp_gen sp_domain sp_idx sp_diff]. rewrite geqb_refl. cbn [andb].
  apply andb_true_iff. split. - now apply geqb_list_spec.
  - rewrite nth_error_map. unfold sdom in *. rewrite NE. cbn [option_map fst]. apply geqb_spec. rewrite G. apply asset_gen_shift.
Qed.
Lemma find_tag_spec tag d : forall k i bf, find_tag tag d k = Some (i, bf) ->
  exists g, nth_error d (i - k) = Some (g, Some tag, bf) /\ (k <= i)%nat.
Proof.
  induction d as [|[[g ot] b] r IH]; intros k i bf F; cbn [find_tag] in F. - discriminate.
  - destruct ot as [t'|].
    + destruct (N.eqb_spec tag t') as [<-|NE].
      * injection F as <- <-. exists g. rewrite Nat.sub_diag. split; [reflexivity|lia].
      * destruct (IH _ _ _ F) as (g' & NE' & L). exists g'. split; [|lia].
        replace (i - k)%nat with (S (i - S k)) by lia. exact NE'.
    + destruct (IH _ _ _ F) as (g' & NE' & L). exists g'. split; [|lia].
      replace (i - k)%nat with (S (i - S k)) by lia. exact NE'.
Qed.
Lemma find_tag_some tag d : (exists g bf, In (g, Some tag, bf) d) -> forall k, exists i bf, find_tag tag d k = Some (i, bf).
Proof.
  intros (g & bf & I). induction d as [|[[g' ot] b] r IH]; intro k; [destruct I|].
  cbn [find_tag]. destruct ot as [t'|].
  - destruct (N.eqb_spec tag t') as [<-|NE]. + now exists k, b.
    + destruct I as [E|I]; [congruence|]. apply IH, I.
  - destruct I as [E|I]; [congruence|]. apply IH, I.
Qed.
Lemma sp_verify_sound sp gen domain : sp_verify sp gen domain = true ->
  exists d, nth_error domain (sp_idx sp) = Some d /\ geq gen (gadd d (gscale (sp_diff sp) gG)) /\ sp_intact sp = true
            /\ geq gen (sp_gen sp) /\ Forall2 geq domain (sp_domain sp).
Proof.
  unfold sp_verify. rewrite !andb_true_iff. intros [[[I G] D] W].
  apply geqb_spec in G. apply geqb_list_spec in D.
  destruct (nth_error (sp_domain sp) (sp_idx sp)) as [d'|] eqn:NE; [|discriminate]. apply geqb_spec in W.
  destruct (Forall2_nth_error _ _ _ (Forall2_sym _ _ _ D) _ _ NE) as (d & ND & E).
  exists d. repeat split; try assumption. now rewrite G, W, E.
Qed.
Lemma sp_verify_binds sp gen domain gen' domain' : sp_verify sp gen domain = true -> sp_verify sp gen' domain' = true ->
  geq gen gen' /\ Forall2 geq domain domain'.
Proof.
  intros V V'. apply sp_verify_sound in V as (_ & _ & _ & _ & G & D). apply sp_verify_sound in V' as (_ & _ & _ & _ & G' & D').
  split; [now rewrite G, G'|]. exact (Forall2_trans _ _ _ _ D (Forall2_sym _ _ _ D')).
Qed.

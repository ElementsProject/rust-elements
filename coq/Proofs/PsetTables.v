(* C07 — the generated tables satisfy the hypotheses of the generic theory (Proofs/PsetMaps.v); the instantiated theorems. *)
From Coq Require Import List Arith NArith ZArith Lia Bool ZifyN ZifyBool ZifyNat.
From Coq.Strings Require Import Byte.
From EV Require Import Base.Bytes Base.Codec Base.Base64 Gen.Tables Model.Tx Model.Taproot Model.PsetRaw Model.PsetMaps Model.PsetValues Model.PsetTables.
From EV Require Import Proofs.PsetRaw Proofs.PsetMaps Proofs.PsetValues.
Import ListNotations.
Open Scope N_scope.
Set Default Timeout 120.

Lemma in_combine_seq {A} (l : list A) : forall j d s, nth_error l j = Some d -> In ((s + j)%nat, d) (List.combine (seq s (length l)) l).
Proof. induction l as [|x l IH]; intros j d s H; [destruct j; discriminate|]. destruct j as [|j]; cbn in *.
  - inversion H; subst. left. f_equal. lia.
  - right. replace (s + S j)%nat with (S s + j)%nat by lia. now apply IH. Qed.
Section ROUTE.
Variable maxvec : N.
Hypothesis Hmax : maxvec + 1 < 2 ^ 64.
Hypothesis Hmin : 4 <= maxvec.
Variable T : table.
Hypothesis RT : route_ok T = true.
Lemma route_row i r : nth_error T i = Some r ->
  match r_addr r with
  | APlain t => find_idx (is_plain t) T = Some i /\ t <> xfc
  | APset s => find_idx (is_pset s) T = Some i
  | AProp => find_idx is_prop T = Some i
  | AUnk => find_idx is_unk T = Some i end.
Proof. intros H. unfold route_ok in RT. rewrite forallb_forall in RT. specialize (RT _ (in_combine_seq T i r 0%nat H)). cbn [fst snd] in RT.
  destruct (r_addr r) as [t|s| |]; [|destruct (find_idx _ T) as [j|]; [|discriminate]; apply Nat.eqb_eq in RT; now subst ..].
  apply andb_true_iff in RT as [A B]. destruct (find_idx (is_plain t) T) as [j|]; [|discriminate]. apply Nat.eqb_eq in A. subst j. split; [reflexivity|].
  intros ->. rewrite byte_eqb_refl in B. discriminate. Qed.
Lemma no_plain_fc : find_idx (is_plain xfc) T = None.
Proof. destruct (find_idx (is_plain xfc) T) as [j|] eqn:F; [|reflexivity]. exfalso.
  destruct (find_idx_some _ _ _ F) as (r & R & P). pose proof (route_row _ _ R) as X. unfold is_plain in P.
  destruct (r_addr r) as [t| | |]; try discriminate. apply byte_eqb_true in P. subst t. now destruct X. Qed.
(* in a table that passes `route_ok`, a field addressed by a type byte or by a "pset" subtype is reachable: the key `get_pairs` builds
   for it classifies back to it, whatever the key data *)
Theorem field_reachable i r k v : nth_error T i = Some r -> (exists t, r_addr r = APlain t) \/ (exists s, r_addr r = APset s) ->
  classify maxvec T (mk_key maxvec T (i, k, v)) = POk (i, k).
Proof. intros R A. pose proof (route_row _ _ R) as X. unfold mk_key. cbn [slot ekey fst snd]. rewrite R. destruct A as [[t A]|[s A]]; rewrite A in *.
  - destruct X as [X _]. unfold classify. now rewrite X.
  - unfold classify. rewrite no_plain_fc, byte_eqb_refl.
    rewrite (prop_dec_enc maxvec Hmax pset_prefix s k (pset_prefix_fits maxvec Hmax Hmin)). now rewrite bytes_eqb_refl, X. Qed.
End ROUTE.

(* a foreign proprietary key (prefix other than "pset") set through BTreeMap::insert keeps a map well-formed *)
Definition foreign (maxvec : N) (k : bytes) : Prop := exists pfx s d, prop_dec maxvec k = Some (pfx, s, d) /\ bytes_eqb pfx pset_prefix = false.
Section PROPSET.
Variable maxvec : N.
Hypothesis Hmax : maxvec + 1 < 2 ^ 64.
Hypothesis Hmin : 4 <= maxvec.
Variable T : table.
Variable post : pmap -> option perr.
Hypothesis RT : route_ok T = true.
Hypothesis RO : rows_ok T.
Variable ip : nat.
Variable rp : row.
Hypothesis Hrow : nth_error T ip = Some rp.
Hypothesis Haddr : r_addr rp = AProp.
Hypothesis Hv : forall k v, r_vcanon rp k v = POk v.
Lemma foreign_entry k v pfx s d : fitsb maxvec k = true -> fitsb maxvec v = true ->
  prop_dec maxvec k = Some (pfx, s, d) -> bytes_eqb pfx pset_prefix = false -> wf_entry maxvec T (ip, k, v).
Proof using Hmax Hmin RT RO Hrow Haddr Hv. intros Fk Fv PD NP. destruct (ro_whole _ (RO _ _ Hrow) (or_introl Haddr)) as [KM KC].
  assert (Kn : k <> []). { intros ->. unfold prop_dec in PD. cbn in PD. discriminate. }
  assert (MK : mk_key maxvec T (ip, k, v) = (xfc, k)). { unfold mk_key. cbn [slot ekey fst snd]. now rewrite Hrow, Haddr. }
  split.
  - exists rp. cbn [slot ekey evalue fst snd]. split; [exact Hrow|]. split; [unfold kvalid; rewrite KM; split; [exact Kn|now apply KC]|].
    rewrite MK. split; [|split; assumption].
    pose proof (route_row T RT _ _ Hrow) as X. rewrite Haddr in X.
    unfold classify. now rewrite (no_plain_fc T RT), byte_eqb_refl, PD, NP, X.
  - exists rp. cbn [slot ekey evalue fst snd]. split; [exact Hrow|apply Hv]. Qed.
Hypothesis Hpost : forall m k v, post (set_keyed T m ip k v) = post m.
Theorem foreign_set_wf m k v : wf_map maxvec T post m -> fitsb maxvec k = true -> fitsb maxvec v = true -> foreign maxvec k ->
  wf_map maxvec T post (set_keyed T m ip k v).
Proof. intros [W P] Fk Fv (pfx & s & d & PD & NP). split; [|now rewrite Hpost]. apply set_keyed_wf; auto. eapply foreign_entry; eauto. Qed.
End PROPSET.

Lemma Forall_upd_nth {A} (P : A -> Prop) f : (forall x, P x -> P (f x)) -> forall n l, Forall P l -> Forall P (upd_nth n f l).
Proof. intros H n. induction n as [|n IH]; intros [|x l] F; cbn; auto; inversion F; subst; constructor; auto. Qed.
Lemma upd_nth_length {A} (f : A -> A) : forall n l, length (upd_nth n f l) = length l.
Proof. induction n as [|n IH]; intros [|x l]; cbn; auto. Qed.
Lemma nth_upd_nth {A} (f : A -> A) : forall n l x, nth_error l n = Some x -> nth_error (upd_nth n f l) n = Some (f x).
Proof. induction n as [|n IH]; intros [|y l] x H; cbn in *; try discriminate; [now inversion H|now apply IH]. Qed.

Section ELIPKEYS.
Variable maxvec : N.
Hypothesis Hmax : maxvec + 1 < 2 ^ 64.
Hypothesis Hmin16 : 16 <= maxvec.
Lemma hww_foreign sub asset : foreign maxvec (hww_key maxvec sub asset).
Proof. exists C07_PSET_HWW_PREFIX, (n2b sub), asset. split; [|reflexivity]. apply prop_dec_enc; [exact Hmax|]. unfold fitsb. cbn [length C07_PSET_HWW_PREFIX]. lia. Qed.
Lemma liquidex_foreign sub : foreign maxvec (liquidex_key maxvec sub).
Proof. exists C07_PSET_LIQUIDEX_PREFIX, (n2b sub), []. split; [|reflexivity]. apply prop_dec_enc; [exact Hmax|]. unfold fitsb. cbn [length C07_PSET_LIQUIDEX_PREFIX]. lia. Qed.
Lemma liquidex_fits sub : fitsb maxvec (liquidex_key maxvec sub) = true.
Proof. unfold fitsb, liquidex_key. rewrite prop_enc_length. cbn. lia. Qed.

End ELIPKEYS.

Section TABLES.
Variable maxvec : N.
Hypothesis Hmax : maxvec + 1 < 2 ^ 64.
Hypothesis Hmin : 4 <= maxvec.
Variables cap_txin cap_txout cap_vecu8 cap_h32 : N.
Variables pt_ok pk_ok xonly_ok : bytes -> bool.
Variables Hrip Hsha Hh160 Hh256 : bytes -> bytes.
Variables Hleaf Hbranch : bytes -> bytes.

Notation row_of_desc := (row_of_desc maxvec cap_txin cap_txout cap_vecu8 cap_h32 pt_ok pk_ok xonly_ok Hrip Hsha Hh160 Hh256 Hleaf Hbranch).
Notation TG := (Tg maxvec cap_txin cap_txout cap_vecu8 cap_h32 pt_ok pk_ok xonly_ok Hrip Hsha Hh160 Hh256 Hleaf Hbranch).
Notation TI := (Ti maxvec cap_txin cap_txout cap_vecu8 cap_h32 pt_ok pk_ok xonly_ok Hrip Hsha Hh160 Hh256 Hleaf Hbranch).
Notation TO := (To maxvec cap_txin cap_txout cap_vecu8 cap_h32 pt_ok pk_ok xonly_ok Hrip Hsha Hh160 Hh256 Hleaf Hbranch).
Notation POSTG := (postg maxvec cap_txin cap_txout cap_vecu8 cap_h32 pt_ok pk_ok xonly_ok Hrip Hsha Hh160 Hh256 Hleaf Hbranch).
Notation POSTI := (posti maxvec cap_txin cap_txout cap_vecu8 cap_h32 pt_ok pk_ok xonly_ok Hrip Hsha Hh160 Hh256 Hleaf Hbranch).
Notation POSTO := (posto maxvec cap_txin cap_txout cap_vecu8 cap_h32 pt_ok pk_ok xonly_ok Hrip Hsha Hh160 Hh256 Hleaf Hbranch).
Notation SER := (pset_serialize maxvec cap_txin cap_txout cap_vecu8 cap_h32 pt_ok pk_ok xonly_ok Hrip Hsha Hh160 Hh256 Hleaf Hbranch).
Notation DESER := (pset_deserialize maxvec cap_txin cap_txout cap_vecu8 cap_h32 pt_ok pk_ok xonly_ok Hrip Hsha Hh160 Hh256 Hleaf Hbranch).

Lemma row_of_desc_ok d : row_ok (row_of_desc d).
Proof. unfold PsetTables.row_of_desc. split; cbn [r_kcanon r_vcanon r_disc r_addr r_kind].
  - intros kd k H. destruct (mode_of (d_mode d)); try (eapply kcanon_law; exact H);
      (destruct kd; [discriminate H|]; injection H as <-; repeat split; [discriminate|apply le_n]).
  - intros k v c H. destruct (mode_of (d_mode d)); try (eapply vcanon_size; exact H); injection H as <-; apply le_n.
  - intros proj D a b _ _ P. assert (L : forall x, last (proj x) [] = x); [|rewrite <- (L a), P; apply L].
    destruct (mode_of (d_mode d)); try discriminate D; injection D as <-; auto using key_proj_last, proj_prop_last.
  - intros A. destruct (mode_of (d_mode d)); destruct A as [A|A]; try discriminate A; (split; [reflexivity|]); intros kd Hk; unfold whole_key; (destruct kd; [now elim Hk|reflexivity]). Qed.

Lemma rows_ok_map ds : rows_ok (map row_of_desc ds).
Proof. intros i r H. apply nth_error_In in H. apply in_map_iff in H as (d & <- & I). apply row_of_desc_ok. Qed.
Lemma v_idem_desc d : v_idem (row_of_desc d).
Proof. intros k v c. unfold PsetTables.row_of_desc. cbn [r_vcanon]. destruct (mode_of (d_mode d)); try (apply vcanon_idem); intros H; inversion H; subst; reflexivity. Qed.

Lemma v_idem_map ds j r : nth_error (map row_of_desc ds) j = Some r -> v_idem r.
Proof. intros H. apply nth_error_In in H. apply in_map_iff in H as (d & <- & I). apply v_idem_desc. Qed.

Definition wf_pset_c : pset -> Prop := wf_pset maxvec TG TI TO POSTG POSTI POSTO n_inputs n_outputs C07_PSET_CAP.

Theorem rt_c p : wf_pset_c p -> DESER (SER p) = POk p.
Proof. apply pset_rt; assumption. Qed.
Theorem deserialize_wf_c bs p : DESER bs = POk p -> wf_pset_c p.
Proof. intros H.
  apply (deserialize_wf maxvec Hmax Hmin TG TI TO POSTG POSTI POSTO n_inputs n_outputs C07_PSET_CAP
           (rows_ok_map C07_GLOBAL_FIELDS) (rows_ok_map C07_INPUT_FIELDS) (rows_ok_map C07_OUTPUT_FIELDS)
           (fun _ => True) (fun _ => True) (fun _ => True)
           (fun j r H _ => v_idem_map C07_GLOBAL_FIELDS j r H) (fun j r H _ => v_idem_map C07_INPUT_FIELDS j r H)
           (fun j r H _ => v_idem_map C07_OUTPUT_FIELDS j r H) bs); [exact H|].
  repeat split; repeat (apply Forall_forall; intros); now left. Qed.
Theorem fixpoint_c bs p : DESER bs = POk p -> DESER (SER p) = POk p.
Proof. intros H. apply rt_c. eapply deserialize_wf_c; eauto. Qed.
Theorem counts_c bs p : DESER bs = POk p -> sanity_check n_inputs n_outputs p = true.
Proof. apply deserialize_counts. Qed.

Theorem framed_count_c (gps : list rpair) (ms : list (list rpair)) p : Forall (fits maxvec) gps -> Forall (Forall (fits maxvec)) ms ->
  DESER (magic ++ enc_rawmap maxvec gps ++ concat (map (enc_rawmap maxvec) ms)) = POk p ->
  N.of_nat (length ms) = n_inputs (p_global p) + n_outputs (p_global p).
Proof. intros Fg Fm H. now apply (framed_count maxvec Hmax) in H. Qed.
Theorem count_mismatch_rejected (gps : list rpair) (ms : list (list rpair)) g r : Forall (fits maxvec) gps -> Forall (Forall (fits maxvec)) ms ->
  dec_map maxvec TG POSTG (enc_rawmap maxvec gps ++ concat (map (enc_rawmap maxvec) ms)) = POk (g, r) ->
  N.of_nat (length ms) <> n_inputs g + n_outputs g ->
  exists e, DESER (magic ++ enc_rawmap maxvec gps ++ concat (map (enc_rawmap maxvec) ms)) = PErr e.
Proof. intros Fg Fm Dg NE. destruct (DESER _) as [p|e] eqn:D; [|eauto]. exfalso. apply NE.
  destruct (deserialize_inv _ _ _ _ _ _ _ _ _ _ _ _ D) as (r0 & r1 & r2 & E & Dg' & _). apply app_inv_head in E. subst r0.
  rewrite Dg in Dg'. injection Dg' as -> _. now apply (framed_count_c gps ms p). Qed.

Lemma missing_g bs m rest : dec_map maxvec TG POSTG bs = POk (m, rest) -> missing TG m = false /\ get_opt m (idx C07_GLOBAL_FIELDS (blit_of "ver"%lb)) = Some two_le.
Proof. intros H. apply dec_map_ok in H as [_ P]. revert P. unfold PsetTables.postg.
  destruct (get_opt m _) as [v|]; [|discriminate]. destruct (bytes_eqb_spec v two_le) as [->|]; [|discriminate]. cbn [negb].
  destruct (missing TG m); [discriminate|]. auto. Qed.
Lemma missing_i bs m rest : dec_map maxvec TI POSTI bs = POk (m, rest) -> missing TI m = false.
Proof. intros H. apply dec_map_ok in H as [_ P]. revert P. unfold PsetTables.posti. now destruct (missing TI m). Qed.
Lemma missing_o bs m rest : dec_map maxvec TO POSTO bs = POk (m, rest) -> missing TO m = false /\ POSTO m = None.
Proof. intros H. apply dec_map_ok in H as [_ P]. split; [|exact P]. revert P. unfold PsetTables.posto. now destruct (missing TO m). Qed.

Lemma pset_equiv_refl p : pset_equiv maxvec Hleaf Hbranch p p.
Proof. assert (E : forall b e, entry_equiv maxvec Hleaf Hbranch b e e) by (intros; repeat split; auto).
  repeat split; repeat (apply Forall2_diag; intros); apply E. Qed.
Theorem fixpoint_full_c bs p : DESER bs = POk p ->
  let c := SER p in exists p', DESER c = POk p' /\ pset_equiv maxvec Hleaf Hbranch p' p /\ SER p' = c.
Proof. intros H c. exists p. split; [now apply (fixpoint_c bs)|]. split; [apply pset_equiv_refl|reflexivity]. Qed.
(* no field of a table is assigned without a duplicate test (KOptLast): then duplicate rejection covers every key *)
Definition no_optlast (T : table) : bool := forallb (fun r => match r_kind r with KOptLast => false | _ => true end) T.
Lemma no_optlast_row T i r : no_optlast T = true -> nth_error T i = Some r -> r_kind r <> KOptLast.
Proof. unfold no_optlast. rewrite forallb_forall. intros F H E. specialize (F r (nth_error_In _ _ H)). now rewrite E in F. Qed.

(* the consistency check of the regenerated tables; `route_ok` of each table is one of its conjuncts *)
Lemma tables_ok_c : tables_ok maxvec cap_txin cap_txout cap_vecu8 cap_h32 pt_ok pk_ok xonly_ok Hrip Hsha Hh160 Hh256 Hleaf Hbranch = true.
Proof. vm_compute. reflexivity. Qed.
Lemma routes_ok : route_ok TG = true /\ route_ok TI = true /\ route_ok TO = true.
Proof. generalize tables_ok_c. unfold tables_ok. intros H. do 4 (apply andb_prop in H as [H _]).
  apply andb_prop in H as [H Ro]. apply andb_prop in H as [H Ri]. apply andb_prop in H as [_ Rg]. auto. Qed.
Definition prow : row := row_of_desc (unlit "proprietary"%lb, 6, 252, 252, [], []).
Lemma prow_g : nth_error TG (prop_row C07_GLOBAL_FIELDS) = Some prow. Proof. unfold PsetTables.Tg, prow. apply map_nth_error. vm_compute. reflexivity. Qed.
Lemma prow_i : nth_error TI (prop_row C07_INPUT_FIELDS) = Some prow. Proof. unfold PsetTables.Ti, prow. apply map_nth_error. vm_compute. reflexivity. Qed.
Lemma prow_o : nth_error TO (prop_row C07_OUTPUT_FIELDS) = Some prow. Proof. unfold PsetTables.To, prow. apply map_nth_error. vm_compute. reflexivity. Qed.
Lemma prow_v k v : r_vcanon prow k v = POk v. Proof. reflexivity. Qed.
Lemma prow_mand T i : nth_error T i = Some prow -> forall r, nth_error T i = Some r -> r_mand r = false.
Proof. intros H r H'. rewrite H in H'. now injection H' as <-. Qed.
Ltac neq_idx := let E := fresh in vm_compute; intro E; discriminate E.
Lemma postg_set m k v : POSTG (set_keyed TG m (prop_row C07_GLOBAL_FIELDS) k v) = POSTG m.
Proof. unfold PsetTables.postg. rewrite (get_opt_set TG) by neq_idx. now rewrite (missing_set TG) by apply (prow_mand TG _ prow_g). Qed.
Lemma posti_set m k v : POSTI (set_keyed TI m (prop_row C07_INPUT_FIELDS) k v) = POSTI m.
Proof. unfold PsetTables.posti. now rewrite (missing_set TI) by apply (prow_mand TI _ prow_i). Qed.
Lemma posto_set m k v : POSTO (set_keyed TO m (prop_row C07_OUTPUT_FIELDS) k v) = POSTO m.
Proof. unfold PsetTables.posto, present. rewrite (missing_set TO) by apply (prow_mand TO _ prow_o).
  now rewrite !(has_slot_set TO) by neq_idx. Qed.
Lemma counts_set g k v : n_inputs (set_keyed TG g (prop_row C07_GLOBAL_FIELDS) k v) = n_inputs g /\ n_outputs (set_keyed TG g (prop_row C07_GLOBAL_FIELDS) k v) = n_outputs g.
Proof. unfold n_inputs, n_outputs, count_of. split; now rewrite (get_opt_set TG) by neq_idx. Qed.

Theorem set_global_prop_wf p k v : wf_pset_c p -> fitsb maxvec k = true -> fitsb maxvec v = true -> foreign maxvec k ->
  wf_pset_c (set_global_prop maxvec cap_txin cap_txout cap_vecu8 cap_h32 pt_ok pk_ok xonly_ok Hrip Hsha Hh160 Hh256 Hleaf Hbranch p k v).
Proof. intros (Wg & Wi & Wo & Ni & No & Ci & Co) Fk Fv F. unfold wf_pset_c, wf_pset, set_global_prop. cbn [p_global p_inputs p_outputs].
  destruct (counts_set (p_global p) k v) as [-> ->]. split; [|repeat split; auto].
  eapply (foreign_set_wf maxvec Hmax Hmin TG POSTG (proj1 routes_ok) (rows_ok_map _) _ prow prow_g eq_refl prow_v postg_set); eauto. Qed.
Theorem set_input_prop_wf p n k v : wf_pset_c p -> fitsb maxvec k = true -> fitsb maxvec v = true -> foreign maxvec k ->
  wf_pset_c (set_input_prop maxvec cap_txin cap_txout cap_vecu8 cap_h32 pt_ok pk_ok xonly_ok Hrip Hsha Hh160 Hh256 Hleaf Hbranch p n k v).
Proof. intros (Wg & Wi & Wo & Ni & No & Ci & Co) Fk Fv F. unfold wf_pset_c, wf_pset, set_input_prop. cbn [p_global p_inputs p_outputs].
  rewrite upd_nth_length. split; [exact Wg|]. split; [|repeat split; auto]. apply Forall_upd_nth; [|exact Wi]. intros m Wm.
  eapply (foreign_set_wf maxvec Hmax Hmin TI POSTI (proj1 (proj2 routes_ok)) (rows_ok_map _) _ prow prow_i eq_refl prow_v posti_set); eauto. Qed.
Theorem set_output_prop_wf p n k v : wf_pset_c p -> fitsb maxvec k = true -> fitsb maxvec v = true -> foreign maxvec k ->
  wf_pset_c (set_output_prop maxvec cap_txin cap_txout cap_vecu8 cap_h32 pt_ok pk_ok xonly_ok Hrip Hsha Hh160 Hh256 Hleaf Hbranch p n k v).
Proof. intros (Wg & Wi & Wo & Ni & No & Ci & Co) Fk Fv F. unfold wf_pset_c, wf_pset, set_output_prop. cbn [p_global p_inputs p_outputs].
  rewrite upd_nth_length. split; [exact Wg|]. split; [exact Wi|]. split; [|repeat split; auto]. apply Forall_upd_nth; [|exact Wo]. intros m Wm.
  eapply (foreign_set_wf maxvec Hmax Hmin TO POSTO (proj2 (proj2 routes_ok)) (rows_ok_map _) _ prow prow_o eq_refl prow_v posto_set); eauto. Qed.
Definition to_string (p : pset) : bytes := b64_enc (SER p).
Definition from_str (s : bytes) : pres pset := match b64_dec s with Some b => DESER b | None => PErr EInvalid end.
Theorem rt_text_c p : wf_pset_c p -> from_str (to_string p) = POk p.
Proof. intros W. unfold from_str, to_string. rewrite b64_roundtrip. now apply rt_c. Qed.
End TABLES.

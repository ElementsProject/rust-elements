(* Lemmas about Model/Verify.v (verify_tx_amt_proofs in the ideal-commitment world). *)
From Coq Require Import List NArith ZArith Bool Lia Setoid Morphisms.
From Coq.Strings Require Import Byte.
From EV Require Import Base.Bytes Base.Zn Base.FreeMod Model.Script Model.Ideal Model.Verify Model.Blind Proofs.Ideal.
Import ListNotations.
Open Scope Z_scope.

Lemma obind_val {E A B} (o : oc E A) (f : A -> oc E B) b : obind o f = OVal b -> exists a, o = OVal a /\ f a = OVal b.
Proof. destruct o as [a| |]; try discriminate. intro H. now exists a. Qed.
Lemma map_err_val {E E' A} (f : E -> E') (o : oc E A) a : map_err f o = OVal a -> o = OVal a.
Proof. destruct o; try discriminate. now intros [= ->]. Qed.

Definition asset_opened (u : txout) (s : secrets) : Prop :=
  (o_asset u = AExp (s_asset s) /\ s_abf s = 0) \/ (exists g, o_asset u = AConf g /\ geq g (sgen s)).
Definition value_opened (u : txout) (s : secrets) : Prop :=
  (o_value u = VExp (s_value s) /\ s_vbf s = 0 /\ 0 < s_value s < qn) \/ (exists c, o_value u = VConf c /\ geq c (scommit s)).
Definition amount_ok (v : cvalue) : Prop := v = VNull \/ exists x, v = VExp x /\ 0 < x < qn.
Definition iss_ok (i : txin) : Prop := amount_ok (is_amount (in_iss i)) /\ amount_ok (is_keys (in_iss i)).
(* the secrets list follows the inputs: spent output, then its explicit issuance pseudo-inputs *)
Inductive opens : list txin -> list txout -> list secrets -> Prop :=
  | opens_nil : opens [] [] []
  | opens_cons inp u s ins spent ss :
      asset_opened u s -> value_opened u s -> iss_ok inp -> opens ins spent ss ->
      opens (inp :: ins) (u :: spent) (s :: iss_secrets inp ++ ss).

Lemma opens_length ins spent ss : opens ins spent ss -> length spent = length ins.
Proof. induction 1; cbn; congruence. Qed.
Lemma opens_nth : forall ins sp l, opens ins sp l -> forall i inp u, nth_error ins i = Some inp -> nth_error sp i = Some u ->
  iss_ok inp /\ exists s, asset_opened u s /\ value_opened u s.
Proof.
  induction 1 as [|inp0 u0 s0 ins sp l A Vo I O IH]; intros [|i] inp u NI NS; cbn in *; try discriminate.
  - injection NI as <-. injection NS as <-. split; [assumption|now exists s0]. - now apply (IH i).
Qed.

Lemma nz_eqb v : 0 < v < qn -> (v =? 0) = false. Proof. intro H. apply Z.eqb_neq. lia. Qed.
Lemma pedersen_unblinded_opened {E} v g a abf : geq g (asset_gen a abf) -> 0 < v < qn ->
  @pedersen_unblinded E v g = OVal (commit v g 0).
Proof.
  intros G V. unfold pedersen_unblinded. destruct (geqb (commit v g 0) gzero) eqn:Z; [|reflexivity].
  apply geqb_spec in Z. now apply (commit_opened_nonzero _ _ _ _ _ G V) in Z.
Qed.
Lemma pedersen_unblinded_H {E} v a : 0 < v < qn -> @pedersen_unblinded E v (gH a) = OVal (commit v (gH a) 0).
Proof. apply pedersen_unblinded_opened with (a := a) (abf := 0). symmetry. apply asset_gen_0. Qed.
Lemma get_value_commit_explicit o v c : o_value o = VExp v -> get_value_commit o = OVal c ->
  v <> 0 /\ exists g, get_asset_gen o = OVal g /\ c = commit v g 0.
Proof.
  unfold get_value_commit. intros -> H.
  destruct (Z.eqb_spec v 0) as [|NZ]; [destruct (is_provably_unspendable (o_script o)); discriminate|].
  apply obind_val in H as (g & GA & H). unfold pedersen_unblinded in H. destruct (geqb (commit v g 0) gzero); [discriminate|].
  injection H as <-. split; [exact NZ|]. now exists g.
Qed.
Lemma explicit_commit_H o a v c : o_asset o = AExp a -> o_value o = VExp v -> get_value_commit o = OVal c -> v <> 0 /\ c = commit v (gH a) 0.
Proof.
  intros OA OV GV. destruct (get_value_commit_explicit _ _ _ OV GV) as (NZ & g & GA & ->). unfold get_asset_gen in GA. rewrite OA in GA. now injection GA as <-.
Qed.
Lemma get_value_commit_nonzero o v g a abf : o_value o = VExp v -> 0 < v < qn -> get_asset_gen o = OVal g ->
  geq g (asset_gen a abf) -> get_value_commit o = OVal (commit v g 0).
Proof.
  intros OV V GA G. unfold get_value_commit. rewrite OV, (nz_eqb _ V), GA. exact (pedersen_unblinded_opened _ _ _ _ G V).
Qed.
Lemma get_value_commit_conf o c : o_value o = VConf c -> get_value_commit o = OVal c.
Proof. unfold get_value_commit. now intros ->. Qed.

Lemma get_asset_gen_opened u s : asset_opened u s -> exists g, get_asset_gen u = OVal g /\ geq g (sgen s).
Proof.
  unfold get_asset_gen. intros [[-> A]|(g & -> & G)].
  - exists (gH (s_asset s)). split; [reflexivity|]. unfold sgen. rewrite A. symmetry. apply asset_gen_0.
  - now exists g.
Qed.
Lemma get_value_commit_opened u s : asset_opened u s -> value_opened u s ->
  exists c, get_value_commit u = OVal c /\ geq c (scommit s).
Proof.
  intros A [(V & B & R)|(c & V & C)].
  - destruct (get_asset_gen_opened u s A) as (g & GA & G). exists (commit (s_value s) g 0).
    split; [exact (get_value_commit_nonzero _ _ _ _ _ V R GA G)|]. unfold scommit. now rewrite G, B.
  - exists c. split; [now apply get_value_commit_conf|exact C].
Qed.

Lemma Forall2_app_geq a a' b b' : Forall2 geq a a' -> Forall2 geq b b' -> Forall2 geq (a ++ b) (a' ++ b').
Proof. apply Forall2_app. Qed.

(* issuance pseudo-inputs: what an amount contributes to the surjection domain and to the input commitments *)
Definition ipd (id : N) (v : cvalue) : list gel := match v with VExp _ => [gH id] | _ => [] end.
Definition ipc (id : N) (v : cvalue) : list gel := match v with VExp x => [commit x (gH id) 0] | _ => [] end.
Lemma issuance_commits_shape i : iss_ok i ->
  issuance_commits i = OVal (ipd (is_asset (in_iss i)) (is_amount (in_iss i)) ++ ipd (is_token (in_iss i)) (is_keys (in_iss i)),
                             ipc (is_asset (in_iss i)) (is_amount (in_iss i)) ++ ipc (is_token (in_iss i)) (is_keys (in_iss i))).
Proof.
  intros [A K]. unfold issuance_commits, has_issuance. cbn [fold_left fst snd].
  destruct A as [->|(x & -> & X)]; cbn [value_is_null andb negb obind ipd ipc app];
    [|rewrite (nz_eqb _ X), (pedersen_unblinded_H _ _ X); cbn [obind app]];
    (destruct K as [->|(y & -> & Y)]; cbn [value_is_null negb obind ipd ipc app];
      [|rewrite (nz_eqb _ Y), (pedersen_unblinded_H _ _ Y)]; reflexivity).
Qed.
Lemma sgen_iss a v : geq (gH a) (sgen (mkSec a 0 v 0)).
Proof. unfold sgen. cbn. symmetry. apply asset_gen_0. Qed.
Lemma scommit_iss a v : geq (commit v (gH a) 0) (scommit (mkSec a 0 v 0)).
Proof. unfold scommit. cbn [s_value s_vbf]. now rewrite <- sgen_iss. Qed.
Lemma issuance_commits_ok i : iss_ok i ->
  exists dom com, issuance_commits i = OVal (dom, com)
    /\ Forall2 geq dom (map sgen (iss_secrets i)) /\ Forall2 geq com (map scommit (iss_secrets i)).
Proof.
  intros I. eexists _, _. split; [exact (issuance_commits_shape i I)|]. destruct I as [A K]. unfold iss_secrets, has_issuance.
  destruct A as [->|(x & -> & _)], K as [->|(y & -> & _)]; cbn [value_is_null andb negb app map ipd ipc];
    split; repeat (apply Forall2_cons; [apply sgen_iss || apply scommit_iss|]); apply Forall2_nil.
Qed.

Lemma verify_inputs_ok ins spent ss : opens ins spent ss -> forall i,
  exists dom com, verify_inputs ins spent i = OVal (dom, com)
    /\ Forall2 geq dom (map sgen ss) /\ Forall2 geq com (map scommit ss).
Proof.
  induction 1 as [|inp u s ins spent ss A V I O IH]; intro i; cbn [verify_inputs].
  - exists [], []. repeat split; constructor.
  - destruct (get_asset_gen_opened u s A) as (g & -> & G).
    destruct (get_value_commit_opened u s A V) as (c & -> & C).
    destruct (issuance_commits_ok inp I) as (idom & icom & -> & ID & IC).
    destruct (IH (S i)) as (dom & com & -> & D & Cm). cbn [map_err obind].
    exists (g :: idom ++ dom), (c :: icom ++ com). split; [reflexivity|].
    cbn [map]. rewrite !map_app. split; constructor; try assumption; now apply Forall2_app.
Qed.
Lemma verify_inputs_cons inp ins u sp k r : verify_inputs (inp :: ins) (u :: sp) k = OVal r <->
  exists g c idom icom d2 c2, get_asset_gen u = OVal g /\ get_value_commit u = OVal c /\ issuance_commits inp = OVal (idom, icom)
    /\ verify_inputs ins sp (S k) = OVal (d2, c2) /\ r = (g :: idom ++ d2, c :: icom ++ c2).
Proof.
  cbn [verify_inputs]. split.
  - intro H. apply obind_val in H as (g & GA & H). apply obind_val in H as (c & GV & H). apply obind_val in H as ([idom icom] & IC & H).
    apply obind_val in H as ([d2 c2] & R & [= <-]). apply map_err_val in GA, GV, IC. now exists g, c, idom, icom, d2, c2.
  - intros (g & c & idom & icom & d2 & c2 & -> & -> & -> & -> & ->). reflexivity.
Qed.
Lemma verify_inputs_index : forall ins sp k k' r, verify_inputs ins sp k = OVal r -> verify_inputs ins sp k' = OVal r.
Proof.
  induction ins as [|i ins IH]; intros [|u sp] k k' r; try (intro H; exact H). intro H.
  apply verify_inputs_cons in H as (g & c & idom & icom & d2 & c2 & GA & GV & IC & R & ->). apply verify_inputs_cons.
  exists g, c, idom, icom, d2, c2. repeat split; try assumption. exact (IH _ _ _ _ R).
Qed.

Lemma coeff_gsum_geq com ss k : Forall2 geq com (map scommit ss) ->
  coeff (gsum com) k = zsum (map (fun s => coeff (scommit s) k) ss).
Proof.
  rewrite coeff_gsum. revert com. induction ss as [|s ss IH]; intros com F; inversion F as [|c ? com' ? E F']; subst; cbn [map].
  - reflexivity.
  - rewrite !zsum_cons, (IH _ F'). f_equal. apply E.
Qed.

(* the commitment an iteration contributes: nothing for a skipped output *)
Definition oc2g (o : option gel) : gel := match o with Some c => c | None => gzero end.
Lemma gsum_out_commits l : geq (gsum (out_commits l)) (gsum (map oc2g l)).
Proof.
  induction l as [|[c|] l IH]; cbn [out_commits flat_map map app oc2g]; [reflexivity| |]; fold (out_commits l).
  - change (geq (gadd c (gsum (out_commits l))) (gadd c (gsum (map oc2g l)))). now rewrite IH.
  - exact IH.
Qed.
Lemma out_commits_somes cs : out_commits (map Some cs) = cs.
Proof. induction cs as [|c cs IH]; cbn [map out_commits flat_map app]; [reflexivity|]. fold (out_commits (map Some cs)). now rewrite IH. Qed.
Lemma skipped_spec o : skipped o = true <-> o_value o = VExp 0 /\ is_provably_unspendable (o_script o) = true.
Proof.
  unfold skipped, get_value_commit. destruct (o_value o) as [|v|c]; [intuition discriminate| |intuition discriminate].
  destruct (Z.eqb_spec v 0) as [->|NZ].
  - destruct (is_provably_unspendable (o_script o)); intuition discriminate.
  - unfold get_asset_gen. destruct (o_asset o) as [|a|g]; cbn [obind]; [|unfold pedersen_unblinded; destruct (geqb _ gzero)..];
      cbn; intuition congruence.
Qed.
Lemma skipped_same o o' : o_value o' = o_value o -> o_script o' = o_script o -> skipped o' = skipped o.
Proof.
  intros V S. apply eq_true_iff_eq. now rewrite !skipped_spec, V, S.
Qed.
Lemma skipped_nonzero o v : o_value o = VExp v -> v <> 0 -> skipped o = false.
Proof. intros V NZ. destruct (skipped o) eqn:E; [|reflexivity]. apply skipped_spec in E as [E _]. congruence. Qed.
Lemma skipped_conf o c : o_value o = VConf c -> skipped o = false.
Proof. intro V. destruct (skipped o) eqn:E; [|reflexivity]. apply skipped_spec in E as [E _]. congruence. Qed.
Lemma verify_ok_inv T spent : verify_tx_amt_proofs T spent = OVal tt <->
  length spent = length (t_in T) /\ exists dom coms ocoms,
    verify_inputs (t_in T) spent 0 = OVal (dom, coms) /\ verify_outputs dom (t_out T) 0 = OVal ocoms /\ geq (gsum coms) (gsum (map oc2g ocoms)).
Proof.
  unfold verify_tx_amt_proofs. split.
  - destruct (Nat.eqb_spec (length spent) (length (t_in T))) as [L|L]; cbn [negb]; [|discriminate].
    destruct (verify_inputs (t_in T) spent 0) as [[dom coms]| |] eqn:VI; cbn [obind]; try discriminate.
    destruct (verify_outputs dom (t_out T) 0) as [ocoms| |] eqn:VO; cbn [obind]; try discriminate.
    unfold verify_commitments_sum_to_equal. destruct (geqb (gsum coms) (gsum (out_commits ocoms))) eqn:B; cbn [negb]; [|discriminate].
    intros _. split; [exact L|]. exists dom, coms, ocoms. split; [reflexivity|]. split; [exact VO|]. apply geqb_spec in B. now rewrite B, gsum_out_commits.
  - intros (L & dom & coms & ocoms & -> & VO & B). rewrite L, Nat.eqb_refl. cbn [negb obind]. rewrite VO. cbn [obind].
    unfold verify_commitments_sum_to_equal. rewrite <- gsum_out_commits in B. apply geqb_spec in B. rewrite B. reflexivity.
Qed.
Lemma verify_balance_failed T spent dom coms ocoms : length spent = length (t_in T) ->
  verify_inputs (t_in T) spent 0 = OVal (dom, coms) -> verify_outputs dom (t_out T) 0 = OVal ocoms ->
  verify_tx_amt_proofs T spent <> OVal tt -> verify_tx_amt_proofs T spent = OFail BalanceCheckFailed.
Proof.
  unfold verify_tx_amt_proofs. intros -> -> VO. rewrite Nat.eqb_refl. cbn [negb obind]. rewrite VO. cbn [obind].
  destruct (verify_commitments_sum_to_equal coms (out_commits ocoms)); [intro H; now destruct H|reflexivity].
Qed.
Theorem verify_len_mismatch T spent : length spent <> length (t_in T) -> verify_tx_amt_proofs T spent = OFail UtxoInputLenMismatch.
Proof. intro L. unfold verify_tx_amt_proofs. destruct (Nat.eqb_spec (length spent) (length (t_in T))); [contradiction|reflexivity]. Qed.

(* the proofs an accepted output carries are proofs for THAT output *)
Definition proofs_for (dom : list gel) (o : txout) : Prop :=
  (forall comm, o_value o = VConf comm -> exists gen rp, get_asset_gen o = OVal gen /\ o_rp o = Some rp /\ rp_verify rp comm (o_script o) gen = true)
  /\ (forall g, o_asset o = AConf g -> exists sp, o_sp o = Some sp /\ sp_verify sp g dom = true).
Lemma verify_output_ok dom k o c : verify_output dom k o = OVal c <-> get_value_commit o = OVal c /\ proofs_for dom o.
Proof.
  unfold verify_output, proofs_for. split.
  - intro H. apply obind_val in H as (c0 & GV & H). apply map_err_val in GV.
    apply obind_val in H as ([] & RP & H). apply obind_val in H as ([] & SP & [= <-]).
    split; [exact GV|]. split.
    + intros comm OV. rewrite OV in RP. apply obind_val in RP as (gen & GA & RP). apply map_err_val in GA.
      destruct (o_rp o) as [rp|]; [|discriminate]. destruct (rp_verify rp comm (o_script o) gen) eqn:R; [|discriminate]. now exists gen, rp.
    + intros g OA. rewrite OA in SP. destruct (o_sp o) as [sp|]; [|discriminate].
      destruct (sp_verify sp g dom) eqn:S; [|discriminate]. now exists sp.
  - intros (GV & RP & SP). rewrite GV. cbn [map_err obind].
    destruct (o_value o) as [| |comm];
      [| |destruct (RP comm eq_refl) as (gen & rp & -> & R & RV); cbn [map_err obind]; rewrite R, RV]; cbn [obind];
      (destruct (o_asset o) as [| |g]; [reflexivity|reflexivity|]; destruct (SP g eq_refl) as (sp & -> & ->); reflexivity).
Qed.
Lemma verify_output_index dom k k' o c : verify_output dom k o = OVal c -> verify_output dom k' o = OVal c.
Proof. intro V. apply verify_output_ok. now apply verify_output_ok in V. Qed.
Lemma verify_output_inv dom k o c : verify_output dom k o = OVal c ->
  get_value_commit o = OVal c
  /\ (forall comm, o_value o = VConf comm -> exists gen rp, get_asset_gen o = OVal gen /\ o_rp o = Some rp /\ rp_verify rp comm (o_script o) gen = true)
  /\ (forall g, o_asset o = AConf g -> exists sp, o_sp o = Some sp /\ sp_verify sp g dom = true).
Proof. exact (proj1 (verify_output_ok dom k o c)). Qed.
Lemma rp_present dom o comm : proofs_for dom o -> o_value o = VConf comm -> exists rp, o_rp o = Some rp /\ rp_intact rp = true.
Proof.
  intros [RP _] OV. destruct (RP comm OV) as (gen & rp & _ & R & RV). exists rp. split; [exact R|]. now apply rp_verify_sound in RV.
Qed.
Lemma sp_present dom o g : proofs_for dom o -> o_asset o = AConf g -> exists sp, o_sp o = Some sp /\ sp_intact sp = true.
Proof.
  intros [_ SP] OA. destruct (SP g OA) as (sp & S & SV). exists sp. split; [exact S|]. now apply sp_verify_sound in SV as (_ & _ & _ & I & _).
Qed.
Lemma same_rp dom dom' x y cx cy : proofs_for dom x -> proofs_for dom' y -> o_value x = VConf cx -> o_value y = VConf cy ->
  o_rp x = o_rp y ->
  geq cx cy /\ o_script x = o_script y /\ exists gx gy, get_asset_gen x = OVal gx /\ get_asset_gen y = OVal gy /\ geq gx gy.
Proof.
  intros [RP _] [RP' _] OV OV' E. destruct (RP cx OV) as (gx & rp & GX & R & RV). destruct (RP' cy OV') as (gy & rp' & GY & R' & RV').
  rewrite E, R' in R. injection R as ->. destruct (rp_verify_binds _ _ _ _ _ _ _ RV RV') as (C & S & G).
  split; [exact C|]. split; [exact S|now exists gx, gy].
Qed.
Lemma same_sp dom dom' x y gx gy : proofs_for dom x -> proofs_for dom' y -> o_asset x = AConf gx -> o_asset y = AConf gy ->
  o_sp x = o_sp y -> geq gx gy /\ Forall2 geq dom dom'.
Proof.
  intros [_ SP] [_ SP'] OA OA' E. destruct (SP gx OA) as (sp & S & SV). destruct (SP' gy OA') as (sp' & S' & SV').
  rewrite E, S' in S. injection S as ->. exact (sp_verify_binds _ _ _ _ _ SV SV').
Qed.
Lemma step_live dom k o c : skipped o = false -> verify_output dom k o = OVal c -> verify_output_step dom k o = OVal (Some c).
Proof. intros SK V. unfold verify_output_step. now rewrite SK, V. Qed.
Lemma verify_step_explicit dom k o a v : o_asset o = AExp a -> o_value o = VExp v -> 0 < v < qn ->
  verify_output_step dom k o = OVal (Some (commit v (gH a) 0)).
Proof.
  intros A V R. apply step_live; [apply (skipped_nonzero o v V); lia|].
  unfold verify_output, get_value_commit, get_asset_gen. rewrite V, A, (nz_eqb v R). cbn [obind map_err].
  rewrite pedersen_unblinded_H by exact R. reflexivity.
Qed.
Lemma step_inv dom k o oc : verify_output_step dom k o = OVal oc ->
  (skipped o = true /\ oc = None) \/ (skipped o = false /\ exists c, oc = Some c /\ verify_output dom k o = OVal c).
Proof.
  unfold verify_output_step. destruct (skipped o); [intros [= <-]; now left|].
  intro H. apply obind_val in H as (c & V & [= <-]). right. split; [reflexivity|]. now exists c.
Qed.
Lemma zero_value_spendable_rejected dom k o : o_value o = VExp 0 -> is_provably_unspendable (o_script o) = false ->
  verify_output_step dom k o = OFail (SpentTxOutError k NonUnspendableZeroValue).
Proof.
  intros V U. unfold verify_output_step. assert (SK : skipped o = false).
  { destruct (skipped o) eqn:E; [|reflexivity]. apply skipped_spec in E as [_ E]. congruence. }
  rewrite SK. unfold verify_output, get_value_commit. rewrite V. cbn. rewrite U. reflexivity.
Qed.

(* the output loop without its indices: what an iteration pushes depends on the output alone, and the loop passes exactly when
   every output that is not skipped has a value commitment and its proofs *)
Definition out_pushed (o : txout) : option gel :=
  if skipped o then None else match get_value_commit o with OVal c => Some c | _ => None end.
Definition accepted (dom : list gel) (o : txout) : Prop :=
  skipped o = false -> (exists c, get_value_commit o = OVal c) /\ proofs_for dom o.
Lemma accepted_zero_value dom o : accepted dom o -> o_value o = VExp 0 -> is_provably_unspendable (o_script o) = true.
Proof.
  intros A Z0. destruct (skipped o) eqn:SK; [apply skipped_spec in SK; tauto|]. destruct (A SK) as [[c GV] _].
  now destruct (get_value_commit_explicit _ _ _ Z0 GV).
Qed.
Lemma step_iff dom k o oc : verify_output_step dom k o = OVal oc <-> oc = out_pushed o /\ accepted dom o.
Proof.
  unfold verify_output_step, out_pushed, accepted. destruct (skipped o).
  - split; [intros [= <-]; split; [reflexivity|discriminate]|now intros [-> _]].
  - split.
    + intro H. apply obind_val in H as (c & V & [= <-]). apply verify_output_ok in V as [GV P]. rewrite GV. split; [reflexivity|]. intros _. split; [now exists c|exact P].
    + intros [-> A]. destruct (A eq_refl) as [[c GV] P]. rewrite GV, (proj2 (verify_output_ok dom k o c) (conj GV P)). reflexivity.
Qed.
Lemma verify_outputs_iff dom : forall outs k cs,
  verify_outputs dom outs k = OVal cs <-> cs = map out_pushed outs /\ Forall (accepted dom) outs.
Proof.
  induction outs as [|o outs IH]; intros k cs; cbn [verify_outputs map].
  - split; [intros [= <-]; now split|now intros [-> _]].
  - split.
    + intro V. apply obind_val in V as (c & S & V). apply obind_val in V as (r & R & [= <-]).
      apply step_iff in S as [-> A]. apply IH in R as [-> F]. split; [reflexivity|now constructor].
    + intros [-> F]. inversion F as [|? ? A F']; subst.
      rewrite (proj2 (step_iff dom k o _) (conj eq_refl A)), (proj2 (IH (S k) _) (conj eq_refl F')). reflexivity.
Qed.
Lemma verify_ok_output T spent j o : verify_tx_amt_proofs T spent = OVal tt -> nth_error (t_out T) j = Some o -> skipped o = false ->
  exists dom, (exists c, get_value_commit o = OVal c) /\ proofs_for dom o.
Proof.
  intros V NE SK. apply verify_ok_inv in V as (_ & dom & _ & ocoms & _ & VO & _). apply verify_outputs_iff in VO as [_ F].
  rewrite Forall_forall in F. exists dom. exact (F o (nth_error_In _ _ NE) SK).
Qed.
Lemma verify_ok_rp T spent j o : verify_tx_amt_proofs T spent = OVal tt -> nth_error (t_out T) j = Some o ->
  value_is_conf (o_value o) = true -> exists rp, o_rp o = Some rp /\ rp_intact rp = true.
Proof.
  intros V NE CV. destruct (o_value o) as [| |c] eqn:OV; try discriminate.
  destruct (verify_ok_output _ _ _ _ V NE (skipped_conf _ _ OV)) as (dom & _ & P). exact (rp_present _ _ _ P OV).
Qed.
Lemma verify_ok_sp T spent j o g : verify_tx_amt_proofs T spent = OVal tt -> nth_error (t_out T) j = Some o -> skipped o = false ->
  o_asset o = AConf g -> exists sp, o_sp o = Some sp /\ sp_intact sp = true.
Proof. intros V NE SK OA. destruct (verify_ok_output _ _ _ _ V NE SK) as (dom & _ & P). exact (sp_present _ _ _ P OA). Qed.
Lemma verify_outputs_all dom : forall outs k cs, length cs = length outs ->
  (forall j o, nth_error outs j = Some o -> exists c, verify_output_step dom (k + j) o = OVal c /\ nth_error cs j = Some c) ->
  verify_outputs dom outs k = OVal cs.
Proof.
  induction outs as [|o outs IH]; intros k [|c cs] L H; cbn in L; try discriminate; cbn [verify_outputs]. - reflexivity.
  - destruct (H 0%nat o eq_refl) as (c' & V & NC). rewrite Nat.add_0_r in V. cbn in NC. injection NC as ->. rewrite V. cbn [obind].
    rewrite (IH (S k) cs); [reflexivity|lia|]. intros j o' NE. destruct (H (S j) o' NE) as (c'' & V' & NC').
    exists c''. split; [|exact NC']. replace (S k + j)%nat with (k + S j)%nat by lia. exact V'.
Qed.
Lemma verify_outputs_set dom outs k cs j k' o' c' : verify_outputs dom outs k = OVal cs -> verify_output_step dom k' o' = OVal c' ->
  verify_outputs dom (set_nth outs j o') k = OVal (set_nth cs j c').
Proof.
  intros V S. apply verify_outputs_iff in V as [-> F]. apply step_iff in S as [-> A]. apply verify_outputs_iff. rewrite map_set_nth.
  split; [reflexivity|now apply Forall_set_nth].
Qed.

Definition opened_gen (g : gel) : Prop := exists a abf, geq g (asset_gen a abf).
Lemma opened_gen_geq g g' : geq g g' -> opened_gen g' -> opened_gen g.
Proof. intros E (a & abf & G). exists a, abf. now rewrite E. Qed.
Lemma Forall2_geq_nth l l' : Forall2 geq l l' -> forall i d, nth_error l i = Some d -> exists d', nth_error l' i = Some d' /\ geq d d'.
Proof. apply Forall2_nth_error. Qed.
Lemma dom_opened dom ss : Forall2 geq dom (map sgen ss) -> Forall opened_gen dom.
Proof.
  revert dom. induction ss as [|s ss IH]; intros dom F; inversion F; subst; constructor.
  - exists (s_asset s), (s_abf s). assumption. - now apply IH.
Qed.
(* an explicit asset is its own generator; a confidential one is tied to a domain entry by its surjection proof *)
Lemma gen_opened dom o g : Forall opened_gen dom -> proofs_for dom o -> get_asset_gen o = OVal g -> opened_gen g.
Proof.
  intros D [_ SP] G. unfold get_asset_gen in G.
  destruct (o_asset o) as [|a|g0] eqn:A; try discriminate; injection G as <-.
  - exists a, 0. symmetry. apply asset_gen_0.
  - destruct (SP g0 eq_refl) as (sp & _ & SV). destruct (sp_verify_sound _ _ _ SV) as (d & ND & E & _).
    rewrite Forall_forall in D. destruct (D d (nth_error_In _ _ ND)) as (a & abf & Ed).
    exists a, (zadd abf (sp_diff sp)). rewrite E, Ed. apply asset_gen_add.
Qed.
Lemma explicit_commit dom o v c : Forall opened_gen dom -> proofs_for dom o -> o_value o = VExp v -> get_value_commit o = OVal c ->
  v <> 0 /\ exists g a abf, get_asset_gen o = OVal g /\ geq g (asset_gen a abf) /\ c = commit v g 0.
Proof.
  intros D P OV GV. destruct (get_value_commit_explicit _ _ _ OV GV) as (NZ & g & GA & ->). destruct (gen_opened _ _ _ D P GA) as (a & abf & G).
  split; [exact NZ|]. now exists g, a, abf.
Qed.
Lemma out_gen_opened dom k o c : Forall opened_gen dom -> verify_output dom k o = OVal c ->
  forall g, get_asset_gen o = OVal g -> opened_gen g.
Proof. intros D V g. apply verify_output_ok in V as [_ P]. now apply gen_opened with (dom := dom). Qed.

(* `s` opens the output `o` whose value commitment (as verify computes it) is `c` *)
Definition out_opened (o : txout) (c : gel) (s : secrets) : Prop :=
  (exists g, get_asset_gen o = OVal g /\ geq g (sgen s)) /\ get_value_commit o = OVal c /\ geq c (scommit s)
  /\ (forall v, o_value o = VExp v -> s_value s = v) /\ (forall a, o_asset o = AExp a -> s_asset s = a).
Definition asset_total (b : N) (l : list secrets) : Z :=
  isum (map (fun s => if N.eqb b (s_asset s) then s_value s else 0) l).
Definition u64 (v : Z) : Prop := 0 <= v < 2 ^ 64.

Lemma asset_total_bound b l : Forall (fun s => u64 (s_value s)) l -> 0 <= asset_total b l <= Z.of_nat (length l) * (2 ^ 64 - 1).
Proof.
  unfold asset_total, u64. induction 1 as [|s l U F IH]; cbn [map isum fold_right length]. - lia.
  - fold isum in *. unfold isum in IH. destruct (N.eqb b (s_asset s)); lia.
Qed.
Lemma asset_total_pos b l : asset_total b l <> 0 -> In b (map s_asset l).
Proof.
  unfold asset_total. induction l as [|s l IH]; cbn [map isum fold_right In]. - congruence.
  - fold isum in *. destruct (N.eqb_spec b (s_asset s)) as [->|NE]; [now left|]. intro H. right. apply IH. unfold isum. lia.
Qed.
Lemma zsum_H_total b l : zsum (map (fun s => coeff (scommit s) (kH b)) l) = (asset_total b l) mod qn.
Proof.
  unfold asset_total. induction l as [|s l IH]; cbn [map]; [reflexivity|]. rewrite zsum_cons, IH, coeff_scommit_H.
  change (isum (?a :: ?r)) with (a + isum r). destruct (N.eqb b (s_asset s)); zn_ring.
Qed.
Lemma total_small n t : 0 <= t <= n * (2 ^ 64 - 1) -> n * 2 ^ 64 < qn -> t mod qn = t.
Proof. intros. apply Z.mod_small. lia. Qed.
(* a balance of commitments, read at H_b, is a balance of amounts modulo the group order; below the bound it is one in Z *)
Lemma balance_totals b coms ss ocoms os : Forall2 geq coms (map scommit ss) -> Forall2 geq ocoms (map scommit os) ->
  geq (gsum coms) (gsum ocoms) ->
  Forall (fun s => u64 (s_value s)) ss -> Forall (fun s => u64 (s_value s)) os ->
  Z.of_nat (length ss) * 2 ^ 64 < qn -> Z.of_nat (length os) * 2 ^ 64 < qn ->
  asset_total b ss = asset_total b os.
Proof.
  intros C C' B U U' L L'. specialize (B (kH b)). rewrite (coeff_gsum_geq _ _ _ C), (coeff_gsum_geq _ _ _ C'), !zsum_H_total in B.
  rewrite (total_small _ _ (asset_total_bound b ss U) L), (total_small _ _ (asset_total_bound b os U') L') in B. exact B.
Qed.
Lemma zsum_G_total l : zsum (map (fun s => coeff (scommit s) kG) l) = zsum (map svb l).
Proof. f_equal. apply map_ext. intro s. apply coeff_scommit_G. Qed.
Lemma commitments_balance coms ss cs os : Forall2 geq coms (map scommit ss) -> Forall2 geq cs (map scommit os) ->
  zsum (map svb ss) = zsum (map svb os) -> (forall b, asset_total b ss = asset_total b os) -> geq (gsum coms) (gsum cs).
Proof.
  intros C CS G H k. rewrite (coeff_gsum_geq coms ss k C), (coeff_gsum_geq cs os k CS).
  destruct (bkey_cases k) as [->|(b & ->)].
  - rewrite !zsum_G_total. exact G.
  - rewrite !zsum_H_total. now rewrite H.
Qed.
(* verify_tx_amt_proofs once both loops have passed: inputs opened by `ss`, output commitments those of `os`, and the two lists of
   secrets balance in G and per asset *)
Lemma verifies_by_balance T spent ss os dom coms cs : length spent = length (t_in T) ->
  verify_inputs (t_in T) spent 0 = OVal (dom, coms) -> Forall2 geq coms (map scommit ss) ->
  verify_outputs dom (t_out T) 0 = OVal (map Some cs) -> Forall2 geq cs (map scommit os) ->
  zsum (map svb ss) = zsum (map svb os) -> (forall b, asset_total b ss = asset_total b os) ->
  verify_tx_amt_proofs T spent = OVal tt.
Proof.
  intros L VI C VO CS G H. apply verify_ok_inv. split; [exact L|]. exists dom, coms, (map Some cs). split; [exact VI|]. split; [exact VO|].
  rewrite map_map. cbn [oc2g]. rewrite map_id. exact (commitments_balance coms ss cs os C CS G H).
Qed.

Lemma out_opened_intro o c g a abf v vbf : get_asset_gen o = OVal g -> geq g (asset_gen a abf) ->
  get_value_commit o = OVal c -> geq c (commit v g vbf) -> (forall v', o_value o = VExp v' -> v = v') ->
  out_opened o c (mkSec a abf v vbf).
Proof.
  intros GA G GV C EV. split; [now exists g|]. split; [exact GV|]. split; [unfold scommit, sgen; cbn [s_value s_asset s_abf s_vbf]; now rewrite <- G|].
  split; [exact EV|]. intros a0 A0. unfold get_asset_gen in GA. rewrite A0 in GA. injection GA as <-.
  rewrite <- asset_gen_0 in G. symmetry. exact (asset_gen_inj _ _ _ _ G).
Qed.
(* a skipped output (explicit zero amount on a provably unspendable script) is opened by the zero secrets *)
Definition out_opened_step (o : txout) (oc : option gel) (s : secrets) : Prop :=
  match oc with Some c => out_opened o c s | None => skipped o = true /\ s = mkSec 0 0 0 0 end.
(* an accepted output has an opening: the explicit amount or the range proof's witness; zero for a skipped output *)
Lemma accepted_opening dom o : Forall opened_gen dom -> accepted dom o -> (forall v, o_value o = VExp v -> u64 v) ->
  exists s, out_opened_step o (out_pushed o) s /\ u64 (s_value s) /\ geq (oc2g (out_pushed o)) (scommit s).
Proof.
  intros D A U. unfold out_pushed. destruct (skipped o) eqn:SK.
  { exists (mkSec 0 0 0 0). split; [now split|]. split; [split; reflexivity|symmetry; apply commit_0]. }
  destruct (A SK) as [[c GV] P]. rewrite GV. cbn [out_opened_step oc2g].
  assert (OG : forall g, get_asset_gen o = OVal g -> opened_gen g) by (intro g; now apply gen_opened with (dom := dom)).
  destruct (o_value o) as [|v|comm] eqn:OV.
  - unfold get_value_commit in GV. rewrite OV in GV. discriminate.
  - destruct (get_value_commit_explicit _ _ _ OV GV) as (_ & g & GA & ->). destruct (OG g GA) as (a & abf & G).
    pose proof (out_opened_intro o _ g a abf v 0 GA G GV (reflexivity _)) as O.
    exists (mkSec a abf v 0). split; [apply O; congruence|]. split; [now apply U|apply O; congruence].
  - rewrite (get_value_commit_conf _ _ OV) in GV. injection GV as <-. destruct (proj1 P comm OV) as (gen & rp & GA & _ & RV).
    destruct (rp_verify_sound _ _ _ _ RV) as (C & R & _). destruct (OG gen GA) as (a & abf & G).
    pose proof (out_opened_intro o _ gen a abf _ _ GA G (get_value_commit_conf _ _ OV) C) as O.
    exists (mkSec a abf (rp_value rp) (rp_vbf rp)). split; [apply O; congruence|]. split; [exact R|apply O; congruence].
Qed.
Lemma outputs_opening dom outs : Forall opened_gen dom -> Forall (accepted dom) outs ->
  Forall (fun o => forall v, o_value o = VExp v -> u64 v) outs ->
  exists os, Forall2 (fun oc s => out_opened_step (fst oc) (snd oc) s) (combine outs (map out_pushed outs)) os /\ length os = length outs
             /\ Forall (fun s => u64 (s_value s)) os /\ Forall2 geq (map oc2g (map out_pushed outs)) (map scommit os).
Proof.
  intro D. induction 1 as [|o outs A F IH]; intro U.
  - exists []. repeat split; constructor.
  - inversion U as [|? ? Uo Ur]; subst. destruct (accepted_opening _ _ D A Uo) as (s & O & Us & C). destruct (IH Ur) as (os & FO & L & FU & FC).
    exists (s :: os). cbn [combine map length]. repeat split; try constructor; try assumption. congruence.
Qed.

Theorem verify_sound T spent ss :
  verify_tx_amt_proofs T spent = OVal tt -> opens (t_in T) spent ss ->
  Forall (fun s => u64 (s_value s)) ss -> Forall (fun o => forall v, o_value o = VExp v -> u64 v) (t_out T) ->
  Z.of_nat (length ss) * 2 ^ 64 < qn -> Z.of_nat (length (t_out T)) * 2 ^ 64 < qn ->
  exists dom coms ocoms os,
    verify_inputs (t_in T) spent 0 = OVal (dom, coms) /\ verify_outputs dom (t_out T) 0 = OVal ocoms
    /\ Forall2 (fun oc s => out_opened_step (fst oc) (snd oc) s) (combine (t_out T) ocoms) os /\ length os = length (t_out T)
    /\ Forall (fun s => u64 (s_value s)) os
    /\ (forall b, asset_total b ss = asset_total b os)                 (* integer balance per asset *)
    /\ Forall (fun o => skipped o = false -> proofs_for dom o) (t_out T).
Proof.
  intros V OP US UO BS BO. apply verify_ok_inv in V as (L & dom & coms & ocoms & VI & VO & B).
  destruct (verify_inputs_ok _ _ _ OP 0%nat) as (dom' & coms' & VI' & D & C). rewrite VI in VI'. injection VI' as <- <-.
  destruct (proj1 (verify_outputs_iff _ _ _ _) VO) as [-> F].
  destruct (outputs_opening dom _ (dom_opened _ _ D) F UO) as (os & FO & LO & FU & FC).
  exists dom, coms, (map out_pushed (t_out T)), os. repeat split; try assumption.
  - intro b. rewrite <- LO in BO. exact (balance_totals b _ _ _ _ C FC B US FU BS BO).
  - revert F. apply Forall_impl. intros o A SK. exact (proj2 (A SK)).
Qed.

Definition explicit_spent (u : txout) : Prop := exists a v, o_asset u = AExp a /\ o_value u = VExp v /\ 0 < v < 2 ^ 64.
Definition explicit_amount (v : cvalue) : Prop := v = VNull \/ exists x, v = VExp x /\ 0 < x < 2 ^ 64.
Definition explicit_iss (i : txin) : Prop := explicit_amount (is_amount (in_iss i)) /\ explicit_amount (is_keys (in_iss i)).
Definition explicit_out (o : txout) : Prop := exists a v, o_asset o = AExp a /\ o_value o = VExp v /\ 0 <= v < 2 ^ 64.
Definition all_explicit (T : tx) (spent : list txout) : Prop :=
  Forall explicit_spent spent /\ Forall explicit_iss (t_in T) /\ Forall explicit_out (t_out T).
Definition explicit_secret (u : txout) : secrets :=
  match o_asset u, o_value u with AExp a, VExp v => mkSec a 0 v 0 | _, _ => mkSec 0 0 0 0 end.
Fixpoint input_secrets (ins : list txin) (spent : list txout) : list secrets :=
  match ins, spent with
  | i :: ins', u :: spent' => explicit_secret u :: iss_secrets i ++ input_secrets ins' spent'
  | _, _ => []
  end.
Definition explicit_out_total (b : N) (outs : list txout) : Z := asset_total b (map explicit_secret outs).
(* the property's rule: an explicit zero amount is admissible only on a provably unspendable script *)
Definition zero_value_rule (T : tx) : Prop :=
  Forall (fun o => o_value o = VExp 0 -> is_provably_unspendable (o_script o) = true) (t_out T).

Lemma qn_u64 v : 0 < v < 2 ^ 64 -> 0 < v < qn.
Proof. pose proof qn_big. lia. Qed.
Lemma explicit_amount_ok v : explicit_amount v -> amount_ok v.
Proof. intros [->|(x & -> & X)]; [now left|right]. exists x. split; [reflexivity|now apply qn_u64]. Qed.
Lemma explicit_opens : forall ins spent, length spent = length ins -> Forall explicit_spent spent -> Forall explicit_iss ins ->
  opens ins spent (input_secrets ins spent).
Proof.
  induction ins as [|i ins IH]; intros [|u spent] L FS FI; cbn in L; try discriminate; cbn [input_secrets]. - constructor.
  - inversion FS as [|? ? (a & v & A & V & R) FS']; subst. inversion FI as [|? ? [IA IK] FI']; subst.
    unfold explicit_secret. rewrite A, V. constructor.
    + left. split; [exact A|reflexivity]. + left. cbn. repeat split; try assumption; try reflexivity; now apply qn_u64.
    + split; now apply explicit_amount_ok. + apply IH; [lia|assumption|assumption].
Qed.
Lemma input_secrets_u64 : forall ins spent, Forall explicit_spent spent -> Forall explicit_iss ins ->
  Forall (fun s => u64 (s_value s) /\ s_abf s = 0 /\ s_vbf s = 0) (input_secrets ins spent).
Proof.
  induction ins as [|i ins IH]; intros [|u spent] FS FI; cbn [input_secrets]; try constructor.
  - inversion FS as [|? ? (a & v & A & V & R) FS']; subst. unfold explicit_secret. rewrite A, V. cbn. unfold u64. repeat split; lia.
  - inversion FS as [|? ? _ FS']; subst. inversion FI as [|? ? [IA IK] FI']; subst. apply Forall_app. split; [|now apply IH].
    unfold iss_secrets. destruct (has_issuance i); [|constructor]. apply Forall_app. split.
    + destruct IA as [->|(x & -> & X)]; repeat constructor; cbn; unfold u64; lia.
    + destruct IK as [->|(x & -> & X)]; repeat constructor; cbn; unfold u64; lia.
Qed.
Lemma out_secrets_props outs : Forall explicit_out outs ->
  Forall (fun s => u64 (s_value s) /\ s_abf s = 0 /\ s_vbf s = 0) (map explicit_secret outs).
Proof.
  induction 1 as [|o outs (a & v & A & V & R) F IH]; cbn [map]; constructor; [|assumption].
  unfold explicit_secret. rewrite A, V. cbn. unfold u64. repeat split; lia.
Qed.
Lemma verify_outputs_explicit dom : forall outs k, Forall explicit_out outs ->
  Forall (fun o => o_value o = VExp 0 -> is_provably_unspendable (o_script o) = true) outs ->
  exists cs, verify_outputs dom outs k = OVal cs /\ Forall2 geq (map oc2g cs) (map scommit (map explicit_secret outs)).
Proof.
  induction outs as [|o outs IH]; intros k FE FN; cbn [verify_outputs map]. - exists []. split; constructor.
  - inversion FE as [|? ? (a & v & A & V & R) FE']; subst. inversion FN as [|? ? NZ FN']; subst.
    destruct (IH (S k) FE' FN') as (cs & -> & C). unfold verify_output_step, explicit_secret. rewrite A, V.
    destruct (Z.eq_dec v 0) as [->|NV].
    + rewrite (proj2 (skipped_spec o) (conj V (NZ V))). cbn [obind].
      eexists. split; [reflexivity|]. cbn [map oc2g]. constructor; [symmetry; apply commit_0|exact C].
    + fold (verify_output_step dom k o). rewrite (verify_step_explicit dom k o a v A V) by (apply qn_u64; lia). cbn [obind].
      eexists. split; [reflexivity|]. cbn [map oc2g]. constructor; [apply scommit_iss|exact C].
Qed.
Lemma explicit_svb l : Forall (fun s => s_abf s = 0 /\ s_vbf s = 0) l -> zsum (map svb l) = 0.
Proof. intro F. apply zsum_zero. revert F. apply Forall_impl. intros [a abf v vbf] [A B]. cbn in A, B. subst. apply svb_zero_bf. Qed.

(* an all-explicit transaction is accepted exactly when the spent list has the right length, zero amounts occur only on
   provably unspendable scripts, and every asset balances as integers — the property's own characterisation.
   A zero amount on a SPENDABLE script is still rejected: get_value_commit answers NonUnspendableZeroValue for it, which the
   output loop reports as SpentTxOutError(i, NonUnspendableZeroValue); only ZeroValueCommitment is skipped. *)
Theorem explicit_iff T spent :
  all_explicit T spent ->
  Z.of_nat (length (input_secrets (t_in T) spent)) * 2 ^ 64 < qn -> Z.of_nat (length (t_out T)) * 2 ^ 64 < qn ->
  (verify_tx_amt_proofs T spent = OVal tt <->
   length spent = length (t_in T) /\ zero_value_rule T
   /\ forall b, asset_total b (input_secrets (t_in T) spent) = explicit_out_total b (t_out T)).
Proof.
  intros (FS & FI & FO) BS BO.
  destruct (Forall_and_inv _ _ (input_secrets_u64 _ _ FS FI)) as [UI ZI]. destruct (Forall_and_inv _ _ (out_secrets_props _ FO)) as [UO ZO].
  split.
  - intro V. apply verify_ok_inv in V as (L & dom & coms & ocoms & VI & VO & B).
    assert (NZ : zero_value_rule T).
    { apply verify_outputs_iff in VO as [_ F]. revert F. apply Forall_impl. intros o A. exact (accepted_zero_value dom o A). }
    split; [exact L|]. split; [exact NZ|]. intro b.
    destruct (verify_inputs_ok _ _ _ (explicit_opens _ _ L FS FI) 0%nat) as (dom' & coms' & VI' & D & C). rewrite VI in VI'. injection VI' as <- <-.
    destruct (verify_outputs_explicit dom _ 0%nat FO NZ) as (cs & VO' & CS). rewrite VO in VO'. injection VO' as <-.
    rewrite <- (map_length explicit_secret) in BO. exact (balance_totals b _ _ _ _ C CS B UI UO BS BO).
  - intros (L & NZ & BAL). apply verify_ok_inv. split; [exact L|].
    destruct (verify_inputs_ok _ _ _ (explicit_opens _ _ L FS FI) 0%nat) as (dom & coms & VI & D & C).
    destruct (verify_outputs_explicit dom _ 0%nat FO NZ) as (cs & VO & CS).
    exists dom, coms, cs. split; [exact VI|]. split; [exact VO|].
    apply (commitments_balance _ _ _ _ C CS); [now rewrite !explicit_svb|exact BAL].
Qed.

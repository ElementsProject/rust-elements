(* C03 — legacy (flags in the outpoint index, Q1 = true): the message is the consensus encoding of a version, a vector of signed
   inputs, a vector of signed outputs, the lock time and the hash type (Proofs/Sighash.v, spec_legacy_msg_sig); on canonical
   transactions these are the C01 codecs, whose laws make the message injective.  No hash is involved. *)
From Coq Require Import List Arith NArith Bool Lia.
From Coq.Strings Require Import Byte.
From EV Require Import Base.Bytes Base.Codec Model.Tx Model.SighashImpl Model.SighashSpec Model.SighashCommit
  Proofs.Tx Proofs.SighashCache Proofs.Sighash Proofs.SighashCanon Proofs.SighashCommit.
Import ListNotations.
Open Scope N_scope.
Set Default Timeout 120.

Section LEGACY.
Variable pt_ok : bytes -> bool.
Notation canon_in := (canon_in pt_ok). Notation canon_out := (canon_out pt_ok). Notation canon_tx := (canon_tx pt_ok).
Notation CTI := (c_txin pt_ok BIG). Notation CTO := (c_txout pt_ok BIG).
Notation e_txin := (e_txin pt_ok BIG). Notation e_txins := (e_txins pt_ok BIG). Notation e_txouts := (e_txouts pt_ok BIG).

Definition fv_sigin (x : txin) : fv := FList [fv_outpoint (in_prev x); fv_flags x; fv_iss_opt x; FBytes (in_script x); FNum (in_seq x)].
Lemma legacy_committed_eq t idx sc ht me : nth_error (tx_in t) idx = Some me -> legacy_single_bug t idx ht = false ->
  legacy_committed t idx sc ht = [FNum (tx_version t); FList (map fv_sigin (sig_ins ht idx sc t me)); FList (map fv_txout (sig_outs ht idx t)); FNum (tx_lock t); FNum ht].
Proof. intros N Bug. unfold legacy_committed. rewrite N, Bug. f_equal. f_equal; [|f_equal].
  - f_equal. unfold sig_ins. destruct (anyone_can_pay ht); [reflexivity|]. unfold mapi. rewrite map_mapi_from. apply mapi_from_ext. reflexivity.
  - f_equal. unfold sig_outs. destruct (hash_none ht); [reflexivity|]. destruct (hash_single ht) eqn:S.
    + unfold mapi. rewrite map_mapi_from. apply mapi_from_ext. intros n a. unfold legacy_out_view, sig_out. rewrite S. destruct (true && negb (Nat.eqb n idx)); reflexivity.
    + rewrite map_map. reflexivity. Qed.

Lemma fv_sigin_enc a b : fv_sigin a = fv_sigin b -> e_txin a = e_txin b.
Proof. intros E. apply FList_inj in E. apply cons_inj in E as [Eo E]. apply cons_inj in E as [Ef E]. apply cons_inj in E as [Ei E].
  apply cons_inj in E as [Es E]. apply cons_inj in E as [Eq _]. apply fv_outpoint_inj in Eo. destruct (fv_flags_inv _ _ Ef) as [Ep En]. apply FBytes_inj in Es. apply FNum_inj in Eq.
  destruct (fv_iss_opt_inv _ _ Ei) as [_ Iss]. unfold SighashImpl.e_txin, wire_vout, has_issuance. unfold issuance_null in *. rewrite Eo, Ep, Es, Eq, <- En.
  destruct (issuance_is_null (in_iss a)); [reflexivity|]. now rewrite (Iss eq_refl). Qed.
Theorem legacy_committed_complete t t' idx idx' sc sc' ht ht' m m' :
  spec_legacy_msg pt_ok true t idx sc ht = Some m -> spec_legacy_msg pt_ok true t' idx' sc' ht' = Some m' ->
  legacy_committed t idx sc ht = legacy_committed t' idx' sc' ht' -> m = m'.
Proof. intros S S' E. destruct (spec_legacy_msg_some _ _ _ _ _ _ _ S) as (me & N & Bug). destruct (spec_legacy_msg_some _ _ _ _ _ _ _ S') as (me' & N' & Bug').
  rewrite (spec_legacy_msg_sig pt_ok BIG _ _ _ _ _ N Bug) in S. rewrite (spec_legacy_msg_sig pt_ok BIG _ _ _ _ _ N' Bug') in S'.
  rewrite (legacy_committed_eq _ _ _ _ _ N Bug), (legacy_committed_eq _ _ _ _ _ N' Bug') in E.
  apply Some_inj in S, S'. subst m m'. injection E as -> Ei Eo -> ->. unfold SighashImpl.e_txins, SighashImpl.e_txouts.
  rewrite <- (map_length fv_sigin (sig_ins _ _ _ t me)), <- (map_length fv_txout (sig_outs _ _ t)), Ei, Eo, !map_length, !flat_map_concat_map.
  now rewrite (map_factor (C := list byte) _ _ fv_sigin_enc _ _ Ei), (map_factor (C := list byte) _ (SighashImpl.e_txout pt_ok BIG) (fv_txout_ser pt_ok) _ _ Eo). Qed.

Lemma e_txins_enc l : forallb (wf CTI) l = true -> e_txins l = enc (c_vec CTI BIG) l.
Proof. intros W. unfold SighashImpl.e_txins. cbn [c_vec enc]. unfold vn_enc. rewrite flat_map_concat_map. do 2 f_equal.
  induction l as [|x l IH]; [reflexivity|]. cbn [forallb map] in *. apply andb_true_iff in W as [Wx W]. rewrite (IH W). f_equal.
  apply e_txin_canonical, wire_vout_read. now apply wf_conv in Wx. Qed.
Lemma e_txouts_enc l : e_txouts l = enc (c_vec CTO BIG) l.
Proof. unfold SighashImpl.e_txouts. cbn [c_vec enc]. unfold vn_enc. now rewrite flat_map_concat_map. Qed.

Lemma wf_sig_in i s' q' : wf CTI (strip_in i) = true -> wf (c_varbytes BIG) s' = true -> q' < 4294967296 ->
  wf CTI {| in_prev := in_prev i; in_pegin := in_pegin i; in_script := s'; in_seq := q'; in_iss := in_iss i; in_wit := empty_inwit |} = true.
Proof. rewrite !wf_txin_eq. intros W Ws Wq. apply andb_true_iff in W as [Wb W]. apply andb_true_iff in W as [W Wi]. apply andb_true_iff in W as [Wtv _].
  apply andb_true_iff. split; [exact Wb|]. change (wf (c_varbytes BIG) s' = true) in Ws. cbn [in_script in_seq]. rewrite Ws, (u32_lt_wf _ Wq), andb_true_r.
  apply andb_true_iff. split; [exact Wtv|exact Wi]. Qed.

Lemma vec_wf {A} (c : codec A) l : N.of_nat (length l) < BIG -> forallb (wf c) l = true -> wf (c_vec c BIG) l = true.
Proof. intros L F. cbn [c_vec wf]. rewrite F, andb_true_r. apply andb_true_iff. split; [apply N.leb_le; lia|]. apply N.ltb_lt. change (2 ^ 64) with BIG. exact L. Qed.
Lemma wf_sig i ht idx sc n : canon_in i = true -> len_ok sc = true -> wf CTI (sig_in ht idx sc n i) = true.
Proof. intros C L. destruct (canon_in_facts pt_ok i C) as (_ & _ & Q & _ & _ & _ & W). unfold sig_in. apply wf_sig_in; [exact W| |].
  - destruct (Nat.eqb n idx); [now apply len_ok_wf|reflexivity].
  - destruct (negb (Nat.eqb n idx) && (hash_single ht || hash_none ht)); [lia|exact Q]. Qed.
Lemma wf_sig_ins t idx sc ht me : canon_tx t = true -> nth_error (tx_in t) idx = Some me -> len_ok sc = true -> wf (c_vec CTI BIG) (sig_ins ht idx sc t me) = true.
Proof. intros C N L. destruct (canon_tx_facts pt_ok t C) as (_ & _ & CI & _ & L1 & _). pose proof (forallb_nth _ _ _ _ CI N) as Cme.
  unfold sig_ins. destruct (anyone_can_pay ht).
  - apply vec_wf; [cbn; unfold BIG; lia|]. cbn [forallb]. now rewrite (wf_sig me ht idx sc idx Cme L).
  - apply vec_wf; [unfold mapi; now rewrite mapi_from_length|]. apply (forallb_mapi canon_in); [|exact CI]. intros. now apply wf_sig. Qed.
Lemma wf_sig_outs t idx ht : canon_tx t = true -> wf (c_vec CTO BIG) (sig_outs ht idx t) = true.
Proof. intros C. destruct (canon_tx_facts pt_ok t C) as (_ & _ & _ & CO & _ & L2).
  unfold sig_outs. destruct (hash_none ht); [reflexivity|]. destruct (hash_single ht).
  - apply vec_wf; [unfold mapi; rewrite mapi_from_length, firstn_length; lia|]. apply (forallb_mapi canon_out); [|now apply forallb_firstn].
    intros n o Co. unfold sig_out. destruct (hash_single ht && negb (Nat.eqb n idx)); [reflexivity|now apply wf_strip_out].
  - apply vec_wf; [now rewrite map_length|]. rewrite forallb_map. eapply forallb_impl; [|exact CO]. apply wf_strip_out. Qed.

Theorem legacy_msg_sensitive t t' idx idx' sc sc' ht ht' m :
  spec_legacy_msg pt_ok true t idx sc ht = Some m -> spec_legacy_msg pt_ok true t' idx' sc' ht' = Some m ->
  canon_tx t = true -> canon_tx t' = true -> leg_query_ok sc ht = true -> leg_query_ok sc' ht' = true ->
  legacy_committed t idx sc ht = legacy_committed t' idx' sc' ht'.
Proof. intros S S' C C' Q Q'. unfold leg_query_ok in Q, Q'. apply andb_true_iff in Q as [Qs Qh]. apply andb_true_iff in Q' as [Qs' Qh']. apply N.ltb_lt in Qh, Qh'.
  destruct (spec_legacy_msg_some _ _ _ _ _ _ _ S) as (me & N & Bug). destruct (spec_legacy_msg_some _ _ _ _ _ _ _ S') as (me' & N' & Bug').
  rewrite (legacy_committed_eq t idx sc ht me N Bug), (legacy_committed_eq t' idx' sc' ht' me' N' Bug').
  rewrite (spec_legacy_msg_sig pt_ok BIG _ _ _ _ _ N Bug) in S. rewrite (spec_legacy_msg_sig pt_ok BIG _ _ _ _ _ N' Bug') in S'.
  pose proof (wf_sig_ins t idx sc ht me C N Qs) as Wi. pose proof (wf_sig_ins t' idx' sc' ht' me' C' N' Qs') as Wi'.
  rewrite <- S' in S. clear S'. apply Some_inj in S. rename S into E. rewrite !e_txouts_enc, !e_txins_enc in E by (cbn [c_vec wf] in Wi, Wi'; now apply andb_true_iff in Wi as [_ Wi], Wi' as [_ Wi']).
  destruct (canon_tx_facts pt_ok t C) as (Vv & Vl & _). destruct (canon_tx_facts pt_ok t' C') as (Vv' & Vl' & _).
  apply (enc_prefix_inj c_u32 (c_le_lawful 4)) in E as [Ev E]; [|now apply u32_lt_wf..].
  apply (enc_prefix_inj _ (c_vec_lawful _ _ (c_txin_nowit_lawful pt_ok BIG))) in E as [Ei E]; [|assumption..].
  apply (enc_prefix_inj _ (c_vec_lawful _ _ (c_txout_nowit_lawful pt_ok BIG))) in E as [Eo E]; [|now apply wf_sig_outs..].
  apply (enc_prefix_inj c_u32 (c_le_lawful 4)) in E as [El E]; [|now apply u32_lt_wf..].
  apply ser_u32_inj in E; auto. now rewrite Ev, Ei, Eo, El, E. Qed.
End LEGACY.

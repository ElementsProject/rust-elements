(* Lawfulness of the codecs of Model/Block.v: dynafed parameters, the two header extensions, BlockHeader, Block. *)
From Coq Require Import List NArith ZArith Lia Bool ZifyN ZifyBool ZifyNat.
From Coq.Strings Require Import Byte.
From EV Require Import Base.Bytes Base.Codec Model.Tx Model.Block Proofs.Flags Proofs.Tx.
Import ListNotations.
Open Scope N_scope.
Set Default Timeout 30.

Lemma c_reject_lawful {A} : Lawful (@c_reject A).
Proof. split; red; cbn; intros; discriminate. Qed.

Section BLOCK.
Variable pt_ok : bytes -> bool.
Variable maxvec : N.
Variables cap_txin cap_txout cap_vecu8 cap_tx : N.

Lemma c_fullparams_lawful : Lawful (c_fullparams maxvec cap_vecu8).
Proof. apply c_conv_lawful.
  - repeat apply c_pair_lawful; try apply c_script_lawful; try apply c_le_lawful; apply c_stack_lawful.
  - intros [a [l [p [s e]]]] b _ T. inversion T; subst. split; reflexivity.
  - intros [a l p s e] _ _. reflexivity. Qed.
Lemma c_params_body_lawful tag : Lawful (c_params_body maxvec cap_vecu8 tag).
Proof. unfold c_params_body. destruct (tag =? 0); [|destruct (tag =? 1); [|destruct (tag =? 2); [|apply c_reject_lawful]]].
  - apply c_const_lawful; [reflexivity|]. now intros [| |].
  - apply c_conv_lawful.
    + apply c_pair_lawful; [apply c_script_lawful|]. apply c_pair_lawful; [apply c_le_lawful|apply c_fixed_lawful].
    + intros [s [l e]] b _ T. inversion T; subst. split; reflexivity.
    + intros [| |] H _; try discriminate. reflexivity.
  - apply c_conv_lawful; [apply c_fullparams_lawful| |].
    + intros f b _ T. inversion T; subst. split; reflexivity.
    + intros [| |] H _; try discriminate. reflexivity. Qed.
Lemma params_body_tag tag p : wf (c_params_body maxvec cap_vecu8 tag) p = true -> params_tag p = tag.
Proof. unfold c_params_body. intros W.
  destruct (N.eqb_spec tag 0) as [->|]. { apply wf_conv in W as [W _]. now destruct p. }
  destruct (N.eqb_spec tag 1) as [->|]. { apply wf_conv in W as [W _]. now destruct p. }
  destruct (N.eqb_spec tag 2) as [->|]. { apply wf_conv in W as [W _]. now destruct p. }
  discriminate. Qed.
Lemma c_params_lawful : Lawful (c_params maxvec cap_vecu8).
Proof. apply c_conv_lawful; [apply c_dep_lawful; [apply c_u8_lawful|apply c_params_body_lawful]| |].
  - intros [tag p] b W T. inversion T; subst b. apply wf_dep in W as [_ W]. now rewrite (params_body_tag tag p W).
  - intros p _ _. reflexivity. Qed.

Lemma c_ext_proof_lawful : Lawful (c_ext_proof maxvec).
Proof. apply c_conv_lawful; [apply c_pair_lawful; apply c_script_lawful| |].
  - intros [c s] b _ T. inversion T; subst. split; reflexivity.
  - intros [c s|c p w] H _; try discriminate. reflexivity. Qed.
Lemma c_ext_dynafed_lawful : Lawful (c_ext_dynafed maxvec cap_vecu8).
Proof. apply c_conv_lawful.
  - apply c_pair_lawful; [apply c_params_lawful|]. apply c_pair_lawful; [apply c_params_lawful|apply c_stack_lawful].
  - intros [c [p w]] b _ T. inversion T; subst. split; reflexivity.
  - intros [c s|c p w] H _; try discriminate. reflexivity. Qed.

(* bit 31 of the serialized version is the dynafed marker: a version below 2^31 and the marker are in bijection with the 32-bit words *)
Lemma version_write v (d : bool) : v < bit31 ->
  let wv := if d then N.lor v bit31 else v in wire_is_dyna wv = d /\ (if d then N.land wv 2147483647 else wv) = v.
Proof. unfold wire_is_dyna, bit31. intros Hv. rewrite N.shiftr_div_pow2. change 2147483647 with (N.ones 31). rewrite N.land_ones. change (2 ^ 31) with 2147483648.
  destruct d.
  - rewrite lor_disjoint_add by (apply (land_pow2_small v 31); exact Hv). split; [apply N.eqb_eq|]; lia.
  - split; [apply N.eqb_neq; lia|reflexivity]. Qed.
Lemma version_read wv : wv < 2 ^ 32 ->
  let v := if wire_is_dyna wv then N.land wv 2147483647 else wv in v < bit31 /\ (if wire_is_dyna wv then N.lor v bit31 else v) = wv.
Proof. unfold wire_is_dyna, bit31. intros Hw. rewrite N.shiftr_div_pow2. change 2147483647 with (N.ones 31). rewrite N.land_ones.
  change (2 ^ 31) with 2147483648. change (2 ^ 32) with 4294967296 in Hw. destruct (N.eqb_spec (wv / 2147483648) 1).
  - assert (Hm : wv mod 2147483648 < 2147483648) by (apply N.mod_upper_bound; lia).
    rewrite lor_disjoint_add by (apply (land_pow2_small _ 31); exact Hm). lia.
  - lia. Qed.

Lemma c_header_wire_lawful : Lawful (c_header_wire maxvec cap_vecu8).
Proof. apply c_dep_lawful.
  - unfold c_header_head. repeat apply c_pair_lawful; try apply c_le_lawful; apply c_fixed_lawful.
  - intros h. destruct (wire_is_dyna (fst h)); [apply c_ext_dynafed_lawful|apply c_ext_proof_lawful]. Qed.
Theorem c_header_lawful : Lawful (c_header maxvec cap_vecu8).
Proof. apply c_conv_lawful; [apply c_header_wire_lawful| |].
  - intros [[wv [p [m [t h]]]] e] b W T. cbv beta iota delta [header_of_wire] in T. apply Some_inj in T. subst b.
    apply wf_dep in W as [Wh We]. cbn [fst] in We. apply wf_pair in Wh as [Wv _]. destruct (version_read wv (u32_wf_lt wv Wv)) as [Hlt Hback].
    assert (Ee : ext_is_dynafed e = wire_is_dyna wv).
    { destruct (wire_is_dyna wv); apply wf_conv in We as [We _]; now destruct e. }
    unfold wire_of_header, wire_version. cbn [h_version h_prev h_merkle h_time h_height h_ext]. rewrite Ee, Hback.
    split; [reflexivity|now apply N.ltb_lt].
  - intros [v p m t h e] Wb _. cbn [h_version] in Wb. apply N.ltb_lt in Wb. destruct (version_write v (ext_is_dynafed e) Wb) as [Hd Hv].
    unfold wire_of_header, header_of_wire, wire_version. cbn [h_version h_prev h_merkle h_time h_height h_ext]. now rewrite Hd, Hv. Qed.

Theorem c_block_lawful : Lawful (c_block pt_ok maxvec cap_txin cap_txout cap_vecu8 cap_tx).
Proof. apply c_conv_lawful.
  - apply c_pair_lawful; [apply c_header_lawful|apply c_vec_lawful, c_tx_lawful].
  - intros [h t] b _ T. inversion T; subst. split; reflexivity.
  - intros [h t] _ _. reflexivity. Qed.
End BLOCK.

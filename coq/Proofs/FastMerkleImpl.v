(* fmr_impl (array + u32 counter + fuelled loops, as coded) refines fmr_ctr, for every list of at most 2^31 leaves. *)
From Coq Require Import List Arith NArith ZArith Lia Bool ZifyN ZifyNat ZifyBool.
From EV Require Import Model.FastMerkle Proofs.Flags.
Import ListNotations.
Ltac Zify.zify_post_hook ::= Z.div_mod_to_equations.
Set Default Timeout 60.
Open Scope N_scope.

Lemma bit_add_pow2_clear count l : bit count l = false ->
  bit (count + 2 ^ N.of_nat l) l = true /\ forall k, k <> l -> bit (count + 2 ^ N.of_nat l) k = bit count k.
Proof. unfold bit. intros Hb. rewrite <- lor_disjoint_add.
  - split; [|intros k Hk]; rewrite N.lor_spec; [rewrite N.pow2_bits_true; apply orb_true_r|rewrite N.pow2_bits_false by lia; apply orb_false_r].
  - apply N.bits_inj; intros n. rewrite N.land_spec, N.bits_0, N.pow2_bits_eqb.
    destruct (N.eqb_spec (N.of_nat l) n) as [<-|]; [now rewrite Hb|apply andb_false_r]. Qed.
Lemma shiftr_zero_bits count l : N.shiftr count (N.of_nat l) = 0 <-> forall k, (l <= k)%nat -> bit count k = false.
Proof. unfold bit. split.
  - intros E k Hk. replace (N.of_nat k) with (N.of_nat (k - l) + N.of_nat l) by lia. rewrite <- N.shiftr_spec', E. apply N.bits_0.
  - intros Hb. apply N.bits_inj; intros n. rewrite N.bits_0, N.shiftr_spec'. replace (n + N.of_nat l) with (N.of_nat (N.to_nat n + l)) by lia. apply Hb. lia. Qed.
Lemma shiftr_zero_lt count l : N.shiftr count (N.of_nat l) = 0 <-> count < 2 ^ N.of_nat l.
Proof. rewrite N.shiftr_div_pow2. split; intros E.
  - apply N.div_small_iff in E; [exact E|apply N.pow_nonzero; lia].
  - apply N.div_small. exact E. Qed.

Lemma bit_lt_false n k : n < 2 ^ N.of_nat k -> bit n k = false.
Proof. intros Hn. apply (proj1 (shiftr_zero_bits n k)); [now apply shiftr_zero_lt|lia]. Qed.
Lemma bit_sub_pow2_set count l : bit count l = true ->
  2 ^ N.of_nat l <= count /\ bit (count - 2 ^ N.of_nat l) l = false /\ forall k, k <> l -> bit (count - 2 ^ N.of_nat l) k = bit count k.
Proof. intros Hb. split. { destruct (N.le_gt_cases (2 ^ N.of_nat l) count) as [|Lt]; [assumption|]. now rewrite (bit_lt_false _ _ Lt) in Hb. }
  unfold bit in *. replace (count - 2 ^ N.of_nat l) with (N.ldiff count (2 ^ N.of_nat l)).
  - split; [|intros k Hk]; rewrite N.ldiff_spec; [rewrite N.pow2_bits_true; apply andb_false_r|rewrite N.pow2_bits_false by lia; apply andb_true_r].
  - symmetry. apply N.sub_nocarry_ldiff, N.bits_inj. intros n. rewrite N.ldiff_spec, N.bits_0, N.pow2_bits_eqb.
    destruct (N.eqb_spec (N.of_nat l) n) as [<-|]; [now rewrite Hb|reflexivity]. Qed.
Lemma bit_true_lt n k m : bit n k = true -> n < 2 ^ N.of_nat m -> (k < m)%nat.
Proof. intros Hb Hn. destruct (Nat.lt_ge_cases k m) as [L|G]; [exact L|].
  assert (n < 2 ^ N.of_nat k) by (eapply N.lt_le_trans; [exact Hn|apply N.pow_le_mono_r; lia]). rewrite (bit_lt_false n k) in Hb by assumption. discriminate. Qed.

Section IMPL.
Variable H : Type. Variable zero : H. Variable cmp : H -> H -> H.
Notation ctr := (list (option H)).
Notation incr := (incr cmp). Notation fin := (fin cmp).
Notation carry := (carry H zero cmp). Notation sweep := (sweep H zero cmp).

(* the counter list c describes levels lvl, lvl+1, ... of (inner, count): slot k is Some inner[k] iff bit k of count is set *)
Fixpoint Rel (c : ctr) (inner : list H) (count : N) (lvl : nat) : Prop :=
  match c with
  | [] => N.shiftr count (N.of_nat lvl) = 0
  | o :: c' => o = (if bit count lvl then Some (nth lvl inner zero) else None) /\ Rel c' inner count (S lvl)
  end.
Lemma Rel_ext c : forall inner inner2 count count2 lvl,
  (forall k, (lvl <= k)%nat -> bit count k = bit count2 k) -> (forall k, (lvl <= k)%nat -> nth k inner zero = nth k inner2 zero) ->
  Rel c inner count lvl -> Rel c inner2 count2 lvl.
Proof. induction c as [|o c IH]; intros inner inner2 count count2 lvl Hb Hn R; cbn [Rel] in *.
  - apply shiftr_zero_bits. intros k Hk. rewrite <- Hb by exact Hk. revert k Hk. now apply shiftr_zero_bits.
  - destruct R as [-> R]. split; [now rewrite Hb, Hn by lia|]. eapply IH; [| |exact R]; intros; [apply Hb|apply Hn]; lia. Qed.
Lemma nth_set_nth_eq k x (l : list H) : (k < length l)%nat -> nth k (set_nth H k x l) zero = x.
Proof. revert k. induction l as [|y l IH]; intros [|k] Hk; cbn in *; try lia; [reflexivity|apply IH; lia]. Qed.
Lemma nth_set_nth_neq k j x (l : list H) : k <> j -> nth j (set_nth H k x l) zero = nth j l zero.
Proof. revert k j. induction l as [|y l IH]; intros [|k] [|j] Hk; cbn; try reflexivity; try lia. apply IH. lia. Qed.
Lemma set_nth_length k x (l : list H) : length (set_nth H k x l) = length l.
Proof. revert k. induction l as [|y l IH]; intros [|k]; cbn; auto. Qed.

(* adding 2^lvl to a count whose bit lvl is set is clearing that bit and adding 2^(lvl+1); the levels above are not touched *)
Lemma carry_up c inner count lvl : bit count lvl = true -> Rel c inner count (S lvl) ->
  exists count0, count + 2 ^ N.of_nat lvl = count0 + 2 ^ N.of_nat (S lvl) /\ Rel c inner count0 (S lvl) /\
    bit count0 lvl = false /\ forall k, k <> lvl -> bit count0 k = bit count k.
Proof. intros Bl R. destruct (bit_sub_pow2_set count lvl Bl) as (Hle & C1 & C2). exists (count - 2 ^ N.of_nat lvl).
  split; [rewrite Nat2N.inj_succ, N.pow_succ_r'; lia|]. split; [|now split].
  eapply Rel_ext; [| |exact R]; intros; [symmetry; apply C2; lia|reflexivity]. Qed.
Lemma Rel_clear c inner count lvl : Rel c inner count lvl -> bit count lvl = false ->
  (c = [] \/ c = None :: tl c) /\ Rel (tl c) inner count (S lvl).
Proof. destruct c as [|o c]; cbn [Rel tl]; intros R Bl.
  - split; [now left|]. apply shiftr_zero_bits. intros k Hk. apply (proj1 (shiftr_zero_bits count lvl) R). lia.
  - destruct R as [-> R]. rewrite Bl. split; [now right|exact R]. Qed.
(* adding 2^lvl to count and running the carry loop from level lvl with carried value h performs `incr h c`;
   it stops at a level k within c (or just past it), and what `fin` would accumulate over the consumed prefix is the value it carries *)
Lemma carry_incr c : forall inner count lvl h fuel,
  Rel c inner count lvl -> (length c < fuel)%nat -> count + 2 ^ N.of_nat lvl < 2 ^ N.of_nat (length inner) ->
  exists k temp, carry fuel inner (count + 2 ^ N.of_nat lvl) lvl h = Some (k, temp) /\ (lvl <= k <= lvl + length c)%nat /\
    Rel (incr h c) (set_nth H k temp inner) (count + 2 ^ N.of_nat lvl) lvl /\
    bit (count + 2 ^ N.of_nat lvl) k = true /\ (forall j, (lvl <= j < k)%nat -> bit (count + 2 ^ N.of_nat lvl) j = false) /\
    (forall j, (j < lvl)%nat -> bit (count + 2 ^ N.of_nat lvl) j = bit count j) /\
    fin c (Some h) = fin (skipn (S (k - lvl)) c) (Some temp) /\
    Rel (skipn (S (k - lvl)) c) inner (count + 2 ^ N.of_nat lvl) (S k) /\
    (length (incr h c) <= Nat.max (length c) (S (k - lvl)))%nat.
Proof. intros inner count lvl h fuel. revert c inner count lvl h. induction fuel as [|f IH]; intros c inner count lvl h R Hf Hl; [lia|].
  cbn [FastMerkle.carry]. destruct (bit count lvl) eqn:Bl.
  - (* a one at lvl: it is cleared, the slot is consumed, the carry moves on *)
    destruct c as [|o c]; cbn [Rel length] in R, Hf. { rewrite (proj1 (shiftr_zero_bits count lvl) R lvl) in Bl by lia. discriminate. }
    destruct R as [-> R]. rewrite Bl. destruct (carry_up c inner count lvl Bl R) as (count0 & E & R0 & C1 & C2).
    destruct (IH c inner count0 (S lvl) (cmp (nth lvl inner zero) h) R0 ltac:(lia) ltac:(rewrite <- E; exact Hl)) as (k & temp & Hc & Hk & HR & Bk & Bz & Blow & Hfin & Htail & Hlen).
    rewrite <- E in *. exists k, temp.
    assert (Bl' : bit (count + 2 ^ N.of_nat lvl) lvl = false) by (rewrite Blow by apply Nat.lt_succ_diag_r; exact C1).
    cbn [FastMerkle.incr FastMerkle.fin Rel length]. rewrite Bl'. replace (k - lvl)%nat with (S (k - S lvl)) by lia.
    split; [exact Hc|split; [lia|split; [|split; [exact Bk|split; [|split; [|split; [exact Hfin|split; [exact Htail|lia]]]]]]]].
    + split; [reflexivity|exact HR].
    + intros j Hj. destruct (Nat.eq_dec j lvl) as [->|]; [exact Bl'|apply Bz; lia].
    + intros j Hj. rewrite Blow by now apply Nat.lt_lt_succ_r. now apply C2, Nat.lt_neq.
  - (* a zero at lvl: the addition sets that bit without a carry, the loop stops at once and h fills the slot *)
    destruct (bit_add_pow2_clear count lvl Bl) as [B1 B2]. destruct (Rel_clear c inner count lvl R Bl) as [Hc Rt].
    pose proof (bit_true_lt _ _ _ B1 Hl) as Ll.
    assert (Rt' : forall inner', (forall k, (S lvl <= k)%nat -> nth k inner zero = nth k inner' zero) -> Rel (tl c) inner' (count + 2 ^ N.of_nat lvl) (S lvl)).
    { intros inner' Hn. eapply Rel_ext; [|exact Hn|exact Rt]. intros. symmetry. apply B2. lia. }
    exists lvl, h. rewrite B1, Nat.sub_diag.
    replace (incr h c) with (Some h :: tl c) by (destruct Hc as [->| ->]; reflexivity).
    replace (skipn 1 c) with (tl c) by (destruct c; reflexivity).
    split; [reflexivity|split; [lia|split; [|split; [reflexivity|split; [intros; lia|split; [|split; [|split]]]]]]].
    + cbn [Rel]. rewrite B1, nth_set_nth_eq by exact Ll. split; [reflexivity|]. apply Rt'. intros. symmetry. apply nth_set_nth_neq. lia.
    + intros j Hj. now apply B2, Nat.lt_neq.
    + destruct Hc as [->| ->]; reflexivity.
    + now apply Rt'.
    + destruct Hc as [->| ->]; cbn [length tl]; lia. Qed.

Notation push_leaf := (push_leaf H zero cmp). Notation push_all := (push_all H zero cmp).
Lemma pow32 : 2 ^ N.of_nat 32 = 4294967296. Proof. reflexivity. Qed.
Lemma push_leaf_rel c inner count h : Rel c inner count 0 -> length inner = 32%nat -> (length c <= 32)%nat -> count + 1 < 4294967296 ->
  exists inner', push_leaf (inner, count) h = Some (inner', count + 1) /\ Rel (incr h c) inner' (count + 1) 0 /\ length inner' = 32%nat /\ (length (incr h c) <= 32)%nat.
Proof. intros R Li Lc Hc. unfold FastMerkle.push_leaf. destruct (N.leb_spec 4294967296 (count + 1)); [lia|].
  assert (Hb : count + 2 ^ N.of_nat 0 < 2 ^ N.of_nat (length inner)) by (rewrite Li, pow32; cbn; lia).
  destruct (carry_incr c inner count 0 h 33 R ltac:(lia) Hb) as (k & temp & Hca & Hk & HR & Bk & _ & _ & _ & _ & Hlen).
  change (2 ^ N.of_nat 0) with 1 in *. rewrite Hca.
  assert (K : (k < 32)%nat). { eapply bit_true_lt; [exact Bk|]. rewrite <- pow32 in Hc. cbn in Hc |- *. exact Hc. }
  destruct (Nat.ltb_spec k 32); [|lia]. eexists. split; [reflexivity|]. split; [exact HR|]. split; [now rewrite set_nth_length|lia]. Qed.
Lemma push_all_rel ls : forall c inner count, Rel c inner count 0 -> length inner = 32%nat -> (length c <= 32)%nat -> count + N.of_nat (length ls) < 4294967296 ->
  exists inner', push_all (inner, count) ls = Some (inner', count + N.of_nat (length ls)) /\
    Rel (fold_left (fun c h => incr h c) ls c) inner' (count + N.of_nat (length ls)) 0 /\ length inner' = 32%nat /\
    (length (fold_left (fun c h => incr h c) ls c) <= 32)%nat.
Proof. induction ls as [|h ls IH]; intros c inner count R Li Lc Hc; cbn [FastMerkle.push_all fold_left length] in *.
  - exists inner. rewrite N.add_0_r. auto.
  - destruct (push_leaf_rel c inner count h R Li Lc ltac:(lia)) as (inner1 & E & R1 & L1 & Lc1). rewrite E.
    destruct (IH (incr h c) inner1 (count + 1) R1 L1 Lc1 ltac:(lia)) as (inner2 & E2 & R2 & L2 & Lc2).
    exists inner2. replace (count + N.of_nat (S (length ls))) with (count + 1 + N.of_nat (length ls)) by lia. auto. Qed.

Lemma fin_some c : forall a, exists r, fin c (Some a) = Some r.
Proof. induction c as [|[x|] c IH]; intros a; cbn [FastMerkle.fin]; eauto. Qed.
Lemma Rel_all_zero c : forall inner count lvl acc, (forall k, (lvl <= k)%nat -> bit count k = false) -> Rel c inner count lvl -> fin c acc = acc.
Proof. induction c as [|o c IH]; intros inner count lvl acc Z R; cbn [Rel FastMerkle.fin] in *; [reflexivity|].
  destruct R as [-> R]. rewrite Z by lia. eapply IH; [|exact R]. intros; apply Z; lia. Qed.
Lemma pow2_bits_char count level : bit count level = true -> (forall j, (j < level)%nat -> bit count j = false) ->
  (count = 2 ^ N.of_nat level <-> forall k, (S level <= k)%nat -> bit count k = false).
Proof. unfold bit. intros Bl Lo. split.
  - intros -> k Hk. rewrite N.pow2_bits_false by lia. reflexivity.
  - intros Hi. apply N.bits_inj; intros n. rewrite N.pow2_bits_eqb. destruct (N.eqb_spec (N.of_nat level) n) as [<-|NE]; [exact Bl|].
    replace n with (N.of_nat (N.to_nat n)) by lia. destruct (Nat.lt_ge_cases (N.to_nat n) level); [apply Lo; assumption|apply Hi; lia]. Qed.
Lemma low_zero_mod count level : (forall j, (j < level)%nat -> bit count j = false) -> count mod 2 ^ N.of_nat level = 0.
Proof. intros Lo. rewrite <- N.land_ones. apply N.bits_inj; intros n. rewrite N.land_spec, N.bits_0.
  destruct (N.ltb_spec n (N.of_nat level)).
  - replace n with (N.of_nat (N.to_nat n)) by lia. unfold bit in Lo. rewrite Lo by lia. reflexivity.
  - rewrite N.ones_spec_high by lia. apply andb_false_r. Qed.
Lemma next_multiple p q r : 0 < p -> q * p <= r * p -> q <> r -> q * p + p <= r * p.
Proof. intros Hp Hle Hne. apply N.mul_le_mono_pos_r in Hle; [|exact Hp]. rewrite <- N.mul_succ_l. apply N.mul_le_mono_r. lia. Qed.
(* rounding count up at its lowest set bit stays within 2^31: count and 2^31 are multiples of 2^level, and count is not 2^31 itself,
   whose lowest set bit is bit 31 (then count = 2^level) *)
Lemma next_count_bound count level : count <= 2147483648 -> bit count level = true -> (forall j, (j < level)%nat -> bit count j = false) ->
  count <> 2 ^ N.of_nat level -> count + 2 ^ N.of_nat level <= 2147483648.
Proof. intros Hc Bl Lo NE. assert (Ll : (level < 32)%nat) by (eapply bit_true_lt; [exact Bl|rewrite pow32; lia]).
  pose proof (low_zero_mod count level Lo) as M. apply N.mod_divide in M; [|apply N.pow_nonzero; discriminate]. destruct M as [q ->].
  assert (PQ : 2147483648 = 2 ^ N.of_nat (31 - level) * 2 ^ N.of_nat level).
  { rewrite <- N.pow_add_r. replace (N.of_nat (31 - level) + N.of_nat level) with 31 by lia. reflexivity. }
  rewrite PQ in *. apply next_multiple; [apply N.neq_0_lt_0, N.pow_nonzero; discriminate|exact Hc|]. intros ->. apply NE.
  rewrite <- PQ in Bl. unfold bit in Bl. change 2147483648 with (2 ^ 31) in Bl. rewrite N.pow2_bits_eqb in Bl. apply N.eqb_eq in Bl.
  replace level with 31%nat by lia. reflexivity. Qed.

Lemma sweep_fin n : forall c, length c = n -> forall inner count level result fuel,
  bit count level = true -> (forall j, (j < level)%nat -> bit count j = false) -> Rel c inner count (S level) ->
  count <= 2147483648 -> length inner = 32%nat -> (length c < fuel)%nat -> (length c <= 32)%nat ->
  sweep fuel inner count level result = fin c (Some result).
Proof. induction n as [n IH] using lt_wf_ind. intros c Ln inner count level result fuel Bl Lo R Hc Li Hf Lc.
  destruct fuel as [|f]; [lia|]. cbn [FastMerkle.sweep]. rewrite N.shiftl_1_l.
  destruct (N.eqb_spec count (2 ^ N.of_nat level)) as [E|NE].
  - symmetry. eapply Rel_all_zero; [|exact R]. apply (proj1 (pow2_bits_char count level Bl Lo)). exact E.
  - pose proof (next_count_bound count level Hc Bl Lo NE) as Hn.
    assert (Cne : (0 < length c)%nat).
    { destruct c; [|cbn; lia]. exfalso. apply NE. apply (proj2 (pow2_bits_char count level Bl Lo)). cbn [Rel] in R.
      intros k Hk. apply (proj1 (shiftr_zero_bits count (S level)) R). exact Hk. }
    destruct (N.leb_spec 4294967296 (count + 2 ^ N.of_nat level)); [lia|].
    destruct (carry_up c inner count level Bl R) as (count0 & E & R0 & C1 & C2).
    assert (Hb : count0 + 2 ^ N.of_nat (S level) < 2 ^ N.of_nat (length inner)) by (rewrite <- E, Li, pow32; lia).
    destruct (carry_incr c inner count0 (S level) result 33 R0 ltac:(lia) Hb) as (k & temp & Hca & Hk & _ & Bk & Bz & Blow & Hfin & Htail & _).
    rewrite <- E in *. rewrite Hca, Hfin.
    apply (IH (length (skipn (S (k - S level)) c))); try reflexivity.
    + rewrite skipn_length. lia.
    + exact Bk.
    + intros j Hj. destruct (Nat.lt_ge_cases j (S level)) as [L|G]; [|apply Bz; now split].
      rewrite Blow by exact L. destruct (Nat.eq_dec j level) as [->|]; [exact C1|rewrite C2 by assumption; apply Lo; lia].
    + exact Htail.
    + lia.
    + exact Li.
    + rewrite skipn_length. lia.
    + rewrite skipn_length. lia. Qed.

Lemma lowest_fin c : forall inner count lvl fuel, Rel c inner count lvl -> N.shiftr count (N.of_nat lvl) <> 0 -> (length c < fuel)%nat ->
  exists level, lowest fuel count lvl = Some level /\ (lvl <= level)%nat /\ bit count level = true /\
    (forall j, (lvl <= j < level)%nat -> bit count j = false) /\
    fin c None = fin (skipn (S (level - lvl)) c) (Some (nth level inner zero)) /\ Rel (skipn (S (level - lvl)) c) inner count (S level).
Proof. induction c as [|o c IH]; intros inner count lvl fuel R NZ Hf; cbn [Rel length] in *; [contradiction|].
  destruct R as [-> R]. destruct fuel as [|f]; [lia|]. cbn [FastMerkle.lowest]. destruct (bit count lvl) eqn:Bl.
  - exists lvl. rewrite Nat.sub_diag. cbn [skipn FastMerkle.fin]. repeat split; try lia; try assumption.
  - assert (NZ' : N.shiftr count (N.of_nat (S lvl)) <> 0).
    { intros Z. apply NZ. apply shiftr_zero_bits. intros k Hk. destruct (Nat.eq_dec k lvl) as [->|]; [exact Bl|]. apply (proj1 (shiftr_zero_bits count (S lvl)) Z). lia. }
    destruct (IH inner count (S lvl) f R NZ' ltac:(lia)) as (level & E & Hl & Bv & Bz & Hfin & Htail).
    exists level. rewrite E. replace (level - lvl)%nat with (S (level - S lvl)) by lia. cbn [skipn FastMerkle.fin].
    repeat split; try lia; try assumption. intros j Hj. destruct (Nat.eq_dec j lvl) as [->|]; [exact Bl|apply Bz; lia]. Qed.

Theorem impl_is_ctr (ls : list H) : N.of_nat (length ls) <= 2147483648 -> fmr_impl zero cmp ls = Some (fmr_ctr zero cmp ls).
Proof. intros Hn. destruct ls as [|l0 ls0]; [reflexivity|].
  change (fmr_impl zero cmp (l0 :: ls0)) with (match push_all (repeat zero 32, 0) (l0 :: ls0) with
    | Some (inner, count) => match lowest 33 count 0 with Some level => sweep 33 inner count level (nth level inner zero) | None => None end
    | None => None end).
  set (ls := l0 :: ls0) in *. unfold fmr_ctr. set (c := fold_left (fun c h => incr h c) ls []).
  destruct (push_all_rel ls [] (repeat zero 32) 0 eq_refl (repeat_length _ _) ltac:(cbn; lia) ltac:(lia)) as (inner & E & R & Li & Lc).
  fold c in R, Lc. rewrite N.add_0_l in *. rewrite E.
  assert (NZ : N.shiftr (N.of_nat (length ls)) (N.of_nat 0) <> 0) by (cbn [N.of_nat]; rewrite N.shiftr_0_r; unfold ls; cbn [length]; lia).
  destruct (lowest_fin c inner (N.of_nat (length ls)) 0 33 R NZ ltac:(lia)) as (level & El & _ & Bl & Bz & Hfin & Htail).
  rewrite El, Nat.sub_0_r in *.
  rewrite (sweep_fin _ (skipn (S level) c) eq_refl inner (N.of_nat (length ls)) level (nth level inner zero) 33 Bl); try assumption.
  - rewrite Hfin. now destruct (fin_some (skipn (S level) c) (nth level inner zero)) as [r ->].
  - intros j Hj. apply Bz. lia.
  - rewrite skipn_length. lia.
  - rewrite skipn_length. lia. Qed.
End IMPL.

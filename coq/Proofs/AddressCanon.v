(* C06: uniqueness of the checksum symbols, regrouping 5 -> 8 -> 5 under the padding rules, characters in both letter cases, hence
   (i) encode (decode s) = lower s for every text the segwit decoder accepts, (ii) parse s = a -> display a = lower s / s (canonical form),
   (iii) every single-case spelling of a displayed segwit address parses back to it. *)
From Coq Require Import List NArith ZArith Bool Lia ZifyN ZifyBool ZifyNat.
From Coq.Strings Require Import Byte.
From EV Require Import Base.Bytes Model.Bech32 Model.Base58 Model.Address Proofs.Bech32 Proofs.Bech32Codes Proofs.Bech32Enc Proofs.Address Proofs.AddressRT Proofs.AddressCase Proofs.Numeral Proofs.AddressB58.
Ltac Zify.zify_post_hook ::= Z.div_mod_to_equations.
Import ListNotations.
Open Scope N_scope.
Set Default Timeout 30.

Lemma pack_value l : forall acc, pack_from acc l = value 32 l acc.
Proof. induction l as [|x l IH]; intros acc; [reflexivity|]. unfold pack_from in *. cbn [fold_left value]. apply IH. Qed.

Section Uniq.
Variable gen : list N. Variable n : nat.
Hypothesis n_pos : (1 <= n)%nat.
Let sh : N := 5 * (N.of_nat n - 1).

Lemma checksum_unique s0 ck1 ck2 : syms ck1 -> syms ck2 -> length ck1 = n -> length ck2 = n ->
  feedg gen sh s0 ck1 = feedg gen sh s0 ck2 -> ck1 = ck2.
Proof. intros S1 S2 L1 L2 E. rewrite (feed_split gen sh ck1 s0 S1), (feed_split gen sh ck2 s0 S2), L1, L2 in E. apply lxor_cancel in E.
  unfold sh in E. rewrite (feed_clean gen n n_pos ck1 0 0), (feed_clean gen n n_pos ck2 0 0) in E; try assumption; try (cbn; lia).
  rewrite !pack_value in E. apply (value_inj 32 ltac:(lia)); [congruence|exact S1|exact S2|exact E]. Qed.
End Uniq.

Lemma checksum_syms_unique c : In c the_codes -> forall pre ck, sym_word pre -> sym_word ck -> length ck = c_len c ->
  valid_codeword c (pre ++ ck) = true -> ck = checksum_syms c pre.
Proof. intros I pre ck Sp Sc Lc V. pose proof (checksum_valid c I pre Sp) as V2.
  assert (NP : (1 <= c_len c)%nat) by apply (the_codes_bounds c I).
  apply valid_codeword_iff in V, V2. rewrite feedg_app in V, V2.
  apply (checksum_unique (c_gen c) (c_len c) NP (feedg (c_gen c) (shift_of c) 1 pre)); [exact Sc|apply checksum_syms_sym|exact Lc|apply checksum_syms_length|].
  exact (eq_trans V (eq_sym V2)). Qed.

Lemma val_bits5 x : x < 32 -> val_of (bits_of 5 x) 0 = x.
Proof. intros L. rewrite val_bits. now apply N.mod_small. Qed.
Lemma bits_of_syms_inj l1 : forall l2, sym_word l1 -> sym_word l2 -> bits_of_syms l1 = bits_of_syms l2 -> l1 = l2.
Proof. induction l1 as [|x l1 IH]; intros [|y l2] S1 S2 E.
  - reflexivity.
  - apply (f_equal (@length bool)) in E. rewrite !bits_of_syms_length in E. cbn [length] in E. lia.
  - apply (f_equal (@length bool)) in E. rewrite !bits_of_syms_length in E. cbn [length] in E. lia.
  - inversion S1 as [|? ? Hx S1']; subst. inversion S2 as [|? ? Hy S2']; subst. unfold bits_of_syms in E. cbn [flat_map] in E.
    apply app_eq_len in E as [E1 E2]; [|now rewrite !bits_of_length]. f_equal; [|now apply IH].
    rewrite <- (val_bits5 x Hx), <- (val_bits5 y Hy). now rewrite E1. Qed.
Lemma bits8_val a b c d e f g h : bits_of 8 (b2n (n2b (val_of [a; b; c; d; e; f; g; h] 0))) = [a; b; c; d; e; f; g; h].
Proof. rewrite b2n_n2b_small by apply (val_of_lt [a; b; c; d; e; f; g; h]). exact (bits_val [a; b; c; d; e; f; g; h]). Qed.
Lemma bits_chunk8 m : forall B pad, length B = (8 * m)%nat -> (length pad < 8)%nat -> bits_of_bytes (chunk8 (B ++ pad)) = B.
Proof. induction m as [|m IH]; intros B pad L Lp.
  - destruct B; [|cbn [length] in L; lia]. cbn [app]. now rewrite chunk8_short.
  - do 8 (destruct B as [|? B]; [cbn [length] in L; lia|]). cbn [app chunk8]. unfold bits_of_bytes in *. cbn [flat_map]. rewrite bits8_val. cbn [app].
    do 8 f_equal. apply IH; [cbn [length] in L; lia|exact Lp]. Qed.
Lemma pad_bits x r : (r <= 4)%nat -> N.land x (N.ones (N.of_nat r)) = 0 -> bits_of 5 x = firstn (5 - r) (bits_of 5 x) ++ repeat false r.
Proof. intros Hr Z.
  (* the r low bits of x are clear, and they are the last r entries of bits_of 5 x *)
  assert (T : forall i, i < N.of_nat r -> N.testbit x i = false).
  { intros i Li. apply (f_equal (fun y => N.testbit y i)) in Z. now rewrite N.land_spec, (N.ones_spec_low _ _ Li), andb_true_r, N.bits_0 in Z. }
  change (bits_of 5 x) with [N.testbit x 4; N.testbit x 3; N.testbit x 2; N.testbit x 1; N.testbit x 0].
  destruct r as [|[|[|[|[|r]]]]]; [..|lia]; cbn [Nat.sub firstn repeat app]; repeat f_equal; apply T; lia. Qed.

Lemma validate_padding_inv body x : validate_padding (body ++ [x]) = Ok tt ->
  let pad := (((length body + 1) * 5) mod 8)%nat in (pad <= 4)%nat /\ N.land x (N.ones (N.of_nat pad)) = 0.
Proof. unfold validate_padding. destruct (body ++ [x]) as [|y ys] eqn:E; [destruct body; discriminate E|]. rewrite <- E. clear y ys E.
  rewrite app_length, last_last. cbn [length]. set (pad := (((length body + 1) * 5) mod 8)%nat). cbv zeta.
  destruct (Nat.ltb_spec 4 pad); [discriminate|]. destruct (N.eqb_spec (N.land x (N.ones (N.of_nat pad))) 0); [|discriminate]. intros _. split; [lia|assumption]. Qed.

Theorem bytes_fes_roundtrip body : sym_word body -> validate_padding body = Ok tt -> bytes_to_fes (fes_to_bytes body) = body.
Proof. destruct body as [|x body' _] using rev_ind; [reflexivity|]. intros S VP. apply Forall_app in S as [S' Sx]. inversion Sx as [|? ? Hx _]; subst.
  destruct (validate_padding_inv _ _ VP) as [P4 PZ]. set (pad := (((length body' + 1) * 5) mod 8)%nat) in *.
  set (B := bits_of_syms body' ++ firstn (5 - pad) (bits_of 5 x)).
  assert (EQ : bits_of_syms (body' ++ [x]) = B ++ repeat false pad).
  { unfold B, bits_of_syms. rewrite flat_map_app. cbn [flat_map]. rewrite app_nil_r, <- app_assoc. f_equal. now apply pad_bits. }
  assert (LB : length B = (5 * length body' + (5 - pad))%nat).
  { unfold B. rewrite app_length, bits_of_syms_length, firstn_length, bits_of_length. lia. }
  assert (L8 : length B = (8 * (length B / 8))%nat) by (rewrite LB; unfold pad; lia).
  unfold bytes_to_fes, fes_to_bytes. rewrite EQ, (bits_chunk8 (length B / 8) B _ L8) by (rewrite repeat_length; lia).
  destruct (chunk5_spec B) as (C1 & _ & _).
  apply bits_of_syms_inj; [apply chunk5_sym|apply Forall_app; split; assumption|].
  rewrite C1, EQ. f_equal. f_equal. rewrite LB. unfold padlen. lia. Qed.

Lemma from_char_to_char c : match from_char c with Some v => to_char v = to_lower c | None => True end.
Proof. destruct c; vm_compute; exact I || reflexivity. Qed.
Lemma syms_of_lower d w : syms_of d = Some w -> map to_char w = lower d.
Proof. unfold syms_of. intros E. apply all_some_map_inv in E. induction E as [|c v d' w' F _ IH]; [reflexivity|]. cbn [map lower]. unfold lower in IH.
  pose proof (from_char_to_char c) as T. rewrite F in T. now rewrite IH, T. Qed.

Theorem segwit_canonical cfg s v data hrp : segwit_decode cfg s = Ok (v, data) -> In (code_for cfg v) the_codes ->
  eq_lower hrp (find_prefix s) = true -> encode_segwit (code_for cfg v) hrp v data = lower s.
Proof. intros E Ic M. apply (segwit_decode_ok _ _ _ _ (the_codes_len _ Ic)) in E as (h & d & body & ck & R & _ & _ & S & LK & _ & _ & _ & V & VP & _ & ->).
  rewrite (find_prefix_rsplit _ _ _ R) in M. apply eq_lower_iff in M. apply rsplit_spec in R as [-> _].
  destruct (syms_of_spec _ _ S) as (Sw & _). inversion Sw as [|? ? Hv Sw']; subst. apply Forall_app in Sw' as [Sb Sck].
  assert (CK : ck = checksum_syms (code_for cfg v) (hrp_expand h ++ v :: body)).
  { apply checksum_syms_unique; try assumption; [apply Forall_app; split; [apply hrp_expand_sym|now constructor]|]. now rewrite <- app_assoc. }
  unfold encode_segwit. rewrite (bytes_fes_roundtrip body Sb VP), <- (hrp_expand_lower hrp), M, hrp_expand_lower, <- CK. cbn [app]. rewrite (syms_of_lower _ _ S).
  unfold lower. rewrite map_app. reflexivity. Qed.

Section Canon.
Variable H : bytes -> bytes. Variable pkv : bytes -> bool.

Theorem canonical s p a : parse_with_params H pkv s p = AOk a ->
  (is_segwit a /\ display H a = lower s) \/ (~ is_segwit a /\ display H a = s).
Proof. intros E. destruct (parse_ok _ _ _ _ _ E) as [(bl & M & F)|[_ B]].
  - left. split; [exact (from_bech32_segwit _ _ _ _ _ F)|]. apply from_bech32_ok in F as (v & prog & <- & EP & <- & _ & _ & D).
    rewrite (display_segwit H a v prog EP), <- code_for_sw. apply (segwit_canonical _ _ _ _ _ D); [rewrite code_for_sw; apply required_code_in|exact M].
  - right. split; [exact (parse_b58_not_segwit _ _ _ _ _ B)|]. apply parse_b58_ok in B as (_ & d & DC & F).
    rewrite (display_b58 H a d (proj1 (proj2 (from_base58_ok _ _ _ _ F)))). exact (b58_check_canonical H _ _ DC). Qed.
Theorem canonical_from_str s a : from_str H pkv s = AOk a -> (is_segwit a /\ display H a = lower s) \/ (~ is_segwit a /\ display H a = s).
Proof. intros E. destruct (from_str_is_parse H pkv s a E) as (p & _ & E'). exact (canonical s p a E'). Qed.
End Canon.

Lemma is_lower_to_upper b : is_lower (to_upper b) = false.
Proof. destruct b; reflexivity. Qed.
Lemma no_lower_upper s : existsb is_lower (upper s) = false.
Proof. induction s as [|c s IH]; [reflexivity|]. cbn [upper map existsb]. unfold upper in IH. now rewrite is_lower_to_upper, IH. Qed.
Lemma to_lower_to_upper b : to_lower (to_upper b) = to_lower b.
Proof. destruct b; reflexivity. Qed.
Lemma lower_upper s : lower (upper s) = lower s.
Proof. unfold lower, upper. rewrite map_map. apply map_ext, to_lower_to_upper. Qed.

Section RoundTrip.
Variable H : bytes -> bytes. Variable pkv : bytes -> bool.

(* every spelling of the displayed text in a single letter case parses back to the address; with `canonical` and the mixed-case rule
   these are the only strings that do *)
Theorem roundtrip_single_case a s : wf_addr pkv a -> is_segwit a -> lower s = display H a -> mixed_case s = false ->
  parse_with_params H pkv s (a_params a) = AOk a /\ from_str H pkv s = AOk a.
Proof. intros WF SW E MC. pose proof WF as (Ip & _).
  assert (M : match_prefix (find_prefix s) (hrp_of (a_params a) (is_blinded a)) = true).
  { rewrite <- match_prefix_lower, <- find_prefix_lower, E, (display_prefix H pkv a WF SW). unfold match_prefix. now apply eq_lower_iff. }
  destruct (segwit_dispatch H pkv s _ _ Ip M) as [-> ->]. rewrite <- from_bech32_lower, E by exact MC. split; now apply from_bech32_display. Qed.

Lemma display_lower a : wf_addr pkv a -> is_segwit a -> lower (display H a) = display H a /\ mixed_case (display H a) = false.
Proof. intros (_ & _ & PO) (v & prog & EP). rewrite EP in PO. rewrite (display_segwit H a v prog EP).
  destruct (encode_segwit_chars (required_code (is_blinded a) v) (hrp_of (a_params a) (is_blinded a)) v (wit_data a prog)) as (-> & _ & U); [lia|].
  assert (NU : existsb is_upper (lower (hrp_of (a_params a) (is_blinded a)) ++ x31 :: map to_char _) = false)
    by (rewrite existsb_app, lower_no_upper; cbn [existsb]; now rewrite U).
  split; [now apply lower_id|unfold mixed_case; now rewrite NU]. Qed.
Theorem roundtrip_segwit a : wf_addr pkv a -> is_segwit a ->
  parse_with_params H pkv (display H a) (a_params a) = AOk a /\ from_str H pkv (display H a) = AOk a.
Proof. intros WF SW. destruct (display_lower a WF SW). now apply roundtrip_single_case. Qed.
Theorem roundtrip_segwit_upper a : wf_addr pkv a -> is_segwit a ->
  parse_with_params H pkv (upper (display H a)) (a_params a) = AOk a /\ from_str H pkv (upper (display H a)) = AOk a.
Proof. intros WF SW. apply roundtrip_single_case; try assumption.
  - rewrite lower_upper. apply (display_lower a WF SW).
  - unfold mixed_case. now rewrite no_lower_upper, andb_false_r. Qed.

Lemma is_segwit_dec a : is_segwit a \/ ~ is_segwit a.
Proof. unfold is_segwit. destruct (a_payload a) as [h|h|v prog]; [right|right|left; eauto]; intros (v & prog & E); discriminate E. Qed.

Theorem roundtrip_all : (forall x, 4 <= length (H x))%nat -> forall a, wf_addr pkv a ->
  (parse_with_params H pkv (display H a) (a_params a) = AOk a /\ from_str H pkv (display H a) = AOk a) /\
  (is_segwit a -> parse_with_params H pkv (upper (display H a)) (a_params a) = AOk a /\ from_str H pkv (upper (display H a)) = AOk a).
Proof. intros H4 a WF. split; [|intros SW; now apply roundtrip_segwit_upper].
  destruct (is_segwit_dec a) as [SW|NS]; [now apply roundtrip_segwit|now apply roundtrip_base58]. Qed.
End RoundTrip.

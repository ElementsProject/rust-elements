(* C03 — vocabulary of the sensitivity proofs.  A signing message is a concatenation of fields: encodings of in-memory values under
   lawful C01 codecs (Base/Codec.v, Proofs/Tx.v), fixed-width integers, and hashes of concatenations of such encodings.  `Field` says
   what one field contributes when two messages are equal; the lemmas after it give, field by field, the part of the committed view
   (Model/SighashCommit.v) that the field determines, and conversely that this part of the view determines the field. *)
From Coq Require Import List Arith NArith Bool Lia.
From Coq.Strings Require Import Byte.
From EV Require Import Base.Bytes Base.Codec Model.Tx Model.SighashSpec Model.SighashCommit Proofs.Tx Proofs.Sighash Proofs.SighashCanon.
Import ListNotations.
Open Scope N_scope.
Set Default Timeout 120.

Lemma vn_enc_inj {A} (c : codec A) : Lawful c -> (forall v, wf c v = true -> enc c v <> []) ->
  forall l l', forallb (wf c) l = true -> forallb (wf c) l' = true -> vn_enc c l = vn_enc c l' -> l = l'.
Proof. intros L NE. unfold vn_enc. induction l as [|a l IH]; intros [|b l'] W W' E; cbn in *; try reflexivity.
  - symmetry in E. apply app_eq_nil in E as [E _]. apply andb_true_iff in W' as [Wb _]. now apply NE in E.
  - apply app_eq_nil in E as [E _]. apply andb_true_iff in W as [Wa _]. now apply NE in E.
  - apply andb_true_iff in W as [Wa W]. apply andb_true_iff in W' as [Wb W'].
    destruct (enc_prefix_inj c L a b _ _ Wa Wb E) as [-> E']. f_equal. now apply IH. Qed.
Lemma enc_nonempty_len {A} (c : codec A) (k : nat) : (forall v, wf c v = true -> (k <= length (enc c v))%nat) -> (0 < k)%nat -> forall v, wf c v = true -> enc c v <> [].
Proof. intros L K v W E. specialize (L v W). rewrite E in L. cbn in L. lia. Qed.
Lemma pair_nonempty {A B} (ca : codec A) (cb : codec B) : (forall a, wf ca a = true -> enc ca a <> []) ->
  forall v, wf (c_pair ca cb) v = true -> enc (c_pair ca cb) v <> [].
Proof. intros NE [a b] W E. cbn [c_pair wf enc] in *. apply andb_true_iff in W as [W _]. apply app_eq_nil in E as [E _]. now apply NE in E. Qed.

Definition BIGv : N := BIG.
Lemma len_ok_wf b : len_ok b = true -> wf (c_varbytes BIG) b = true.
Proof. unfold len_ok. cbn [c_varbytes wf]. intros E. apply N.ltb_lt in E. apply andb_true_iff. split; [apply N.leb_le; unfold BIG; lia|].
  apply N.ltb_lt. change (2 ^ 64) with 18446744073709551616. exact E. Qed.
Lemma ser_u32_enc n : ser_u32 n = enc c_u32 n. Proof. reflexivity. Qed.

Lemma or_False (G : Prop) : G \/ False -> G. Proof. tauto. Qed.
Section FIELD.
Context {A : Type}.
Variable C : Prop.

(* s and s' stand at the front of two lists: if the lists are equal then P holds and what follows s and s' is equal too — unless C,
   which is a collision of the hash function when s, s' are bytes of two messages, and False when they are parts of two views *)
Definition Field (P : Prop) (s s' : list A) : Prop := forall r r', s ++ r = s' ++ r' -> (P /\ r = r') \/ C.

Lemma field_step {P s s' x x'} {G : Prop} : Field P s s' -> (P -> x = x' -> G \/ C) -> s ++ x = s' ++ x' -> G \/ C.
Proof. intros F K E. destruct (F _ _ E) as [[p e]|c]; [now apply K|now right]. Qed.
Lemma field_stop {P s s'} {G : Prop} : Field P s s' -> (P -> G \/ C) -> s = s' -> G \/ C.
Proof. intros F K E. apply (field_step (x := []) (x' := []) F); [auto|now rewrite E]. Qed.

Lemma field_head {a b : A} {x x'} {G : Prop} : (a = b -> x = x' -> G \/ C) -> a :: x = b :: x' -> G \/ C.
Proof. intros K [= E1 E2]. now apply K. Qed.

Lemma field_len s s' : length s = length s' -> Field (s = s') s s'.
Proof. intros L r r' E. left. now apply app_eq_len. Qed.
Lemma field_one a b : Field (a = b) [a] [b].
Proof. intros r r' [= -> ->]. now left. Qed.
Lemma field_same s : Field True s s.
Proof. intros r r' E. left. split; [exact I|exact (app_inv_head _ _ _ E)]. Qed.
Lemma field_map {P Q s s'} : Field P s s' -> (P -> Q \/ C) -> Field Q s s'.
Proof. intros F K r r' E. destruct (F _ _ E) as [[p e]|c]; [|now right]. destruct (K p); auto. Qed.
Lemma field_by_len {P : Prop} {s s' : list A} : length s = length s' -> (s = s' -> P) -> Field P s s'.
Proof. intros L K. exact (field_map (field_len s s' L) (fun E => or_introl (K E))). Qed.
Lemma field_ite {V} (b : bool) {P Q} (v v' w w' : V) {s s' z z'} : Field P s s' -> Field Q z z' -> (P -> v = v') -> (Q -> w = w') ->
  Field ((if b then v else w) = (if b then v' else w')) (if b then s else z) (if b then s' else z').
Proof. intros F G Pv Qw. destruct b; [exact (field_map F (fun p => or_introl (Pv p)))|exact (field_map G (fun q => or_introl (Qw q)))]. Qed.
Lemma field_when {V} (b : bool) z (w : V) {v v' s s'} : Field (v = v') s s' ->
  Field ((if b then v else w) = (if b then v' else w)) (if b then s else z) (if b then s' else z).
Proof. intros F. exact (field_ite b v v' w w F (field_same z) (fun E => E) (fun _ => eq_refl)). Qed.
Lemma field_unless {V} (b : bool) z (w : V) {v v' s s'} : Field (v = v') s s' ->
  Field ((if b then w else v) = (if b then w else v')) (if b then z else s) (if b then z else s').
Proof. intros F. exact (field_ite b w w v v' (field_same z) F (fun _ => eq_refl) (fun E => E)). Qed.
End FIELD.
Arguments field_step {A C P s s' x x' G}.
Arguments field_stop {A C P s s' G}.
Arguments field_head {A C a b x x' G}.
Arguments field_len {A C} s s'.
Arguments field_same {A C} s.
Arguments field_one {A C} a b.
Arguments field_map {A C P Q s s'}.
Arguments field_by_len {A C P s s'}.
Arguments field_ite {A C V} b {P Q} v v' w w' {s s' z z'}.
Arguments field_when {A C V} b z w {v v' s s'}.
Arguments field_unless {A C V} b z w {v v' s s'}.

Section BYTEFIELD.
Variable C : Prop.
Lemma field_enc {A} (c : codec A) a a' : Lawful c -> wf c a = true -> wf c a' = true -> Field C (a = a') (enc c a) (enc c a').
Proof. intros L W W' r r' E. left. exact (enc_prefix_inj c L a a' r r' W W' E). Qed.
Lemma field_u32 a b : a < 4294967296 -> b < 4294967296 -> Field C (a = b) (ser_u32 a) (ser_u32 b).
Proof. intros Ha Hb. apply (field_enc c_u32); [apply (c_le_lawful 4)|now apply u32_lt_wf..]. Qed.
Lemma field_byte a b : a < 256 -> b < 256 -> Field C (a = b) [n2b a] [n2b b].
Proof. intros Ha Hb. apply (field_map (field_one _ _)). intros E. left. now apply n2b_inj. Qed.
End BYTEFIELD.
Arguments field_enc {C A} c a a'.
Arguments field_u32 {C} a b.
Arguments field_byte {C} a b.

Section HASHFIELD.
Variable H : bytes -> bytes.
Hypothesis Hlen : forall x, length (H x) = 32%nat.
Notation Field := (Field (Collision H)).

Lemma field_hash x x' : Field (x = x') (H x) (H x').
Proof. intros r r' E. destruct (hash_app_eq H Hlen _ _ _ _ E) as [[E'|K] Er]; auto. Qed.
Lemma field_dhash {P x x'} : Field P (H x) (H x') -> Field P (H (H x)) (H (H x')).
Proof. intros F. apply (field_map (field_hash _ _)). intros E. exact (field_stop F (fun p => or_introl p) E). Qed.
(* the hash of one encoding, and of an un-prefixed concatenation of encodings: g is what the encoded component f determines *)
Lemma field_hashed {A B V} (c : codec B) (f : A -> B) (g : A -> V) a a' : Lawful c -> wf c (f a) = true -> wf c (f a') = true ->
  (f a = f a' -> g a = g a') -> Field (g a = g a') (H (enc c (f a))) (H (enc c (f a'))).
Proof. intros L W W' G. apply (field_map (field_hash _ _)). intros E. left. now apply G, (enc_inj c L). Qed.
Lemma field_hashed_list {A B V} (c : codec B) (f : A -> B) (g : A -> V) (p : A -> bool) : Lawful c -> (forall v, wf c v = true -> enc c v <> []) ->
  (forall a, p a = true -> wf c (f a) = true) -> (forall a b, f a = f b -> g a = g b) ->
  forall l l', forallb p l = true -> forallb p l' = true ->
  Field (map g l = map g l') (H (concat (map (fun x => enc c (f x)) l))) (H (concat (map (fun x => enc c (f x)) l'))).
Proof. intros L NE W G l l' Wl Wl'. apply (field_map (field_hash _ _)). intros E. left. apply (map_factor f g G).
  rewrite <- !(map_map f (enc c)) in E. apply (vn_enc_inj c L NE); [rewrite forallb_map; eapply forallb_impl; eassumption..|exact E]. Qed.
End HASHFIELD.

Section FIELDS.
Variable pt_ok : bytes -> bool.
Variable H : bytes -> bytes.
Hypothesis Hlen : forall x, length (H x) = 32%nat.
Notation canon_in := (canon_in pt_ok). Notation canon_out := (canon_out pt_ok).
Notation Field := (Field (Collision H)).
Notation CTO := (c_txout pt_ok BIG).

Lemma le4_nonempty n : le_enc 4 n <> []. Proof. cbn. discriminate. Qed.
Lemma vi_nonempty n : vi_enc n <> [].
Proof. unfold vi_enc. destruct (n <? 253); [discriminate|]. destruct (n <? 65536); [discriminate|]. destruct (n <? 4294967296); discriminate. Qed.
Lemma varbytes_nonempty v : enc (c_varbytes BIG) v <> [].
Proof. cbn [c_varbytes enc]. intros E. apply app_eq_nil in E as [E _]. now apply vi_nonempty in E. Qed.
Lemma asset_nonempty a : wf (c_asset pt_ok) a = true -> enc (c_asset pt_ok) a <> [].
Proof. destruct a as [|id|c]; cbn; try discriminate. destruct c; [discriminate|discriminate]. Qed.
Lemma outpoint_nonempty o : enc c_outpoint o <> [].
Proof. cbn. intros E. apply app_eq_nil in E as [_ E]. discriminate. Qed.
Lemma txout_nonempty o : wf CTO o = true -> enc CTO o <> [].
Proof. intros W. apply wf_conv in W as [_ W]. exact (pair_nonempty _ _ asset_nonempty _ W). Qed.

Definition c_av := c_pair (c_asset pt_ok) (c_value pt_ok).
Definition c_pp := c_pair (c_varbytes BIG) (c_varbytes BIG).
Definition av (o : txout) := (out_asset o, out_value o).
Definition ipp (i : txin) := (proof_bytes (w_amount_rp (in_wit i)), proof_bytes (w_keys_rp (in_wit i))).
Definition opp (o : txout) := (proof_bytes (w_surj (out_wit o)), proof_bytes (w_range (out_wit o))).
Lemma c_av_lawful : Lawful c_av. Proof. apply c_pair_lawful; [apply c_asset_lawful|apply c_value_lawful]. Qed.
Lemma c_pp_lawful : Lawful c_pp. Proof. apply c_pair_lawful; apply c_varbytes_lawful. Qed.

Lemma wf_outpoint i : canon_in i = true -> wf c_outpoint (in_prev i) = true.
Proof. intros C. destruct (canon_in_facts pt_ok i C) as (T & V & _). cbn [c_outpoint c_conv wf c_pair c_hash32 c_fixed]. rewrite T. cbn. apply u32_lt_wf. exact V. Qed.
Lemma wf_seq i : canon_in i = true -> wf c_u32 (in_seq i) = true.
Proof. intros C. destruct (canon_in_facts pt_ok i C) as (_ & _ & Q & _). now apply u32_lt_wf. Qed.
Lemma wf_ipp i : canon_in i = true -> wf c_pp (ipp i) = true.
Proof. intros C. destruct (canon_in_facts pt_ok i C) as (_ & _ & _ & _ & P1 & P2 & _). cbn [c_pp c_pair wf ipp]. now rewrite (len_ok_wf _ P1), (len_ok_wf _ P2). Qed.
Lemma wf_strip_out o : canon_out o = true -> wf CTO (strip_out o) = true.
Proof. unfold SighashCommit.canon_out. intros C. apply andb_true_iff in C as [C _]. now apply andb_true_iff in C as [C _]. Qed.
Lemma wf_av o : canon_out o = true -> wf c_av (av o) = true.
Proof. intros C. destruct (canon_out_facts pt_ok o C) as (A & V & _). cbn [c_av c_pair wf av]. now rewrite A, V. Qed.
Lemma wf_script o : canon_out o = true -> wf (c_varbytes BIG) (out_script o) = true.
Proof. intros C. now destruct (canon_out_facts pt_ok o C) as (_ & _ & _ & S & _). Qed.
Lemma wf_opp o : canon_out o = true -> wf c_pp (opp o) = true.
Proof. intros C. destruct (canon_out_facts pt_ok o C) as (_ & _ & _ & _ & P1 & P2). cbn [c_pp c_pair wf opp]. now rewrite (len_ok_wf _ P1), (len_ok_wf _ P2). Qed.

Lemma strip_txout a b : strip_out a = strip_out b -> fv_txout a = fv_txout b.
Proof. intros E. change (fv_txout (strip_out a) = fv_txout (strip_out b)). now rewrite E. Qed.
Lemma ipp_issproofs a b : ipp a = ipp b -> fv_issproofs a = fv_issproofs b.
Proof. unfold ipp, fv_issproofs. now intros [= -> ->]. Qed.
Lemma opp_outwit a b : opp a = opp b -> fv_outwit a = fv_outwit b.
Proof. unfold opp, fv_outwit. now intros [= -> ->]. Qed.
Lemma flag_byte_inj a b : n2b (outpoint_flag_byte a) = n2b (outpoint_flag_byte b) -> fv_flags a = fv_flags b.
Proof. unfold outpoint_flag_byte, fv_flags. destruct (in_pegin a), (issuance_null a), (in_pegin b), (issuance_null b); intros E; (reflexivity || discriminate E). Qed.

Lemma field_txout_hash o o' : canon_out o = true -> canon_out o' = true -> Field (fv_txout o = fv_txout o') (H (ser_txout pt_ok o)) (H (ser_txout pt_ok o')).
Proof. intros C C'. apply (field_hashed H Hlen CTO strip_out); [apply c_txout_nowit_lawful|now apply wf_strip_out..|apply strip_txout]. Qed.
Lemma field_outwit_hash o o' : canon_out o = true -> canon_out o' = true -> Field (fv_outwit o = fv_outwit o') (H (output_witness o)) (H (output_witness o')).
Proof. intros C C'. apply (field_hashed H Hlen c_pp opp); [apply c_pp_lawful|now apply wf_opp..|apply opp_outwit]. Qed.
Lemma field_issproofs_hash i i' : canon_in i = true -> canon_in i' = true -> Field (fv_issproofs i = fv_issproofs i') (H (issuance_proofs i)) (H (issuance_proofs i')).
Proof. intros C C'. apply (field_hashed H Hlen c_pp ipp); [apply c_pp_lawful|now apply wf_ipp..|apply ipp_issproofs]. Qed.

Lemma field_flags l l' : Field (map fv_flags l = map fv_flags l') (H (map (fun i => n2b (outpoint_flag_byte i)) l)) (H (map (fun i => n2b (outpoint_flag_byte i)) l')).
Proof. apply (field_map (field_hash H Hlen _ _)). intros E. left. revert E. apply map_factor, flag_byte_inj. Qed.
Lemma field_prevouts l l' : forallb canon_in l = true -> forallb canon_in l' = true ->
  Field (map (fun i => fv_outpoint (in_prev i)) l = map (fun i => fv_outpoint (in_prev i)) l')
        (H (concat (map (fun i => ser_outpoint (in_prev i)) l))) (H (concat (map (fun i => ser_outpoint (in_prev i)) l'))).
Proof. apply (field_hashed_list H Hlen c_outpoint in_prev); [apply c_outpoint_lawful|intros; apply outpoint_nonempty|apply wf_outpoint|now intros a b ->]. Qed.
Lemma field_sequences l l' : forallb canon_in l = true -> forallb canon_in l' = true ->
  Field (map (fun i => FNum (in_seq i)) l = map (fun i => FNum (in_seq i)) l')
        (H (concat (map (fun i => ser_u32 (in_seq i)) l))) (H (concat (map (fun i => ser_u32 (in_seq i)) l'))).
Proof. apply (field_hashed_list H Hlen c_u32 in_seq); [apply (c_le_lawful 4)|intros; apply le4_nonempty|apply wf_seq|now intros a b ->]. Qed.
Lemma field_asset_amounts l l' : forallb canon_out l = true -> forallb canon_out l' = true ->
  Field (map (fun o => FList [FAst (out_asset o); FVal (out_value o)]) l = map (fun o => FList [FAst (out_asset o); FVal (out_value o)]) l')
        (H (concat (map (fun o => ser_asset pt_ok (out_asset o) ++ ser_value pt_ok (out_value o)) l)))
        (H (concat (map (fun o => ser_asset pt_ok (out_asset o) ++ ser_value pt_ok (out_value o)) l'))).
Proof. apply (field_hashed_list H Hlen c_av av); [apply c_av_lawful|apply pair_nonempty, asset_nonempty|apply wf_av|now intros a b [= -> ->]]. Qed.
Lemma field_scripts l l' : forallb canon_out l = true -> forallb canon_out l' = true ->
  Field (map (fun o => FBytes (out_script o)) l = map (fun o => FBytes (out_script o)) l')
        (H (concat (map (fun o => ser_bytes (out_script o)) l))) (H (concat (map (fun o => ser_bytes (out_script o)) l'))).
Proof. apply (field_hashed_list H Hlen (c_varbytes BIG) out_script); [apply c_varbytes_lawful|intros; apply varbytes_nonempty|apply wf_script|now intros a b ->]. Qed.
Lemma field_issproofs l l' : forallb canon_in l = true -> forallb canon_in l' = true ->
  Field (map fv_issproofs l = map fv_issproofs l') (H (concat (map issuance_proofs l))) (H (concat (map issuance_proofs l'))).
Proof. apply (field_hashed_list H Hlen c_pp ipp); [apply c_pp_lawful|apply pair_nonempty; intros; apply varbytes_nonempty|apply wf_ipp|apply ipp_issproofs]. Qed.
Lemma field_outputs l l' : forallb canon_out l = true -> forallb canon_out l' = true ->
  Field (map fv_txout l = map fv_txout l') (H (concat (map (ser_txout pt_ok) l))) (H (concat (map (ser_txout pt_ok) l'))).
Proof. apply (field_hashed_list H Hlen CTO strip_out); [apply c_txout_nowit_lawful|apply txout_nonempty|apply wf_strip_out|apply strip_txout]. Qed.
Lemma field_outwits l l' : forallb canon_out l = true -> forallb canon_out l' = true ->
  Field (map fv_outwit l = map fv_outwit l') (H (concat (map output_witness l))) (H (concat (map output_witness l'))).
Proof. apply (field_hashed_list H Hlen c_pp opp); [apply c_pp_lawful|apply pair_nonempty; intros; apply varbytes_nonempty|apply wf_opp|apply opp_outwit]. Qed.

(* the concatenation "0x00 or issuance" is decodable once it is known which inputs carry an issuance *)
Lemma iss_concat_inj : forall l l', forallb canon_in l = true -> forallb canon_in l' = true ->
  map issuance_null l = map issuance_null l' ->
  concat (map (issuance_or_zero pt_ok) l) = concat (map (issuance_or_zero pt_ok) l') -> map fv_iss_opt l = map fv_iss_opt l'.
Proof. induction l as [|a l IH]; intros [|b l'] W W' N E; cbn in *; try discriminate; [reflexivity|].
  apply andb_true_iff in W as [Wa W]. apply andb_true_iff in W' as [Wb W']. inversion N as [[Na Nl]].
  unfold issuance_or_zero, fv_iss_opt in *. destruct (issuance_null a) eqn:Za; destruct (issuance_null b) eqn:Zb; try discriminate Na.
  - inversion E. f_equal. now apply IH.
  - destruct (canon_in_facts pt_ok a Wa) as (_ & _ & _ & Ia & _). destruct (canon_in_facts pt_ok b Wb) as (_ & _ & _ & Ib & _).
    unfold issuance_null in Ia, Ib. destruct (enc_prefix_inj (c_issuance pt_ok) (c_issuance_lawful pt_ok) (in_iss a) (in_iss b) _ _ (Ia Za) (Ib Zb) E) as [Ei E'].
    rewrite Ei. f_equal. now apply IH. Qed.
Lemma fv_flags_inv a b : fv_flags a = fv_flags b -> in_pegin a = in_pegin b /\ issuance_null a = issuance_null b.
Proof. unfold fv_flags, fv_bool. destruct (in_pegin a), (in_pegin b), (issuance_null a), (issuance_null b); cbn; intros E; inversion E; auto. Qed.
Lemma field_issuances l l' : forallb canon_in l = true -> forallb canon_in l' = true -> map fv_flags l = map fv_flags l' ->
  Field (map fv_iss_opt l = map fv_iss_opt l') (H (concat (map (issuance_or_zero pt_ok) l))) (H (concat (map (issuance_or_zero pt_ok) l'))).
Proof. intros W W' F. apply (field_map (field_hash H Hlen _ _)). intros E. left. apply iss_concat_inj; auto.
  revert F. apply map_factor. intros a b E'. now apply fv_flags_inv. Qed.

Lemma FNum_inj a b : FNum a = FNum b -> a = b. Proof. now intros [= ->]. Qed.
Lemma FBytes_inj a b : FBytes a = FBytes b -> a = b. Proof. now intros [= ->]. Qed.
Lemma FSome_inj a b : FSome a = FSome b -> a = b. Proof. intros E. now inversion E. Qed.
Lemma FList_inj l l' : FList l = FList l' -> l = l'. Proof. intros E. now inversion E. Qed.
Lemma fv_av_ser a b : FList [FAst (out_asset a); FVal (out_value a)] = FList [FAst (out_asset b); FVal (out_value b)] ->
  ser_asset pt_ok (out_asset a) ++ ser_value pt_ok (out_value a) = ser_asset pt_ok (out_asset b) ++ ser_value pt_ok (out_value b).
Proof. now intros [= -> ->]. Qed.
Lemma fv_outpoint_inj a b : fv_outpoint a = fv_outpoint b -> a = b.
Proof. destruct a, b. unfold fv_outpoint. cbn. now intros [= -> ->]. Qed.
Lemma fv_iss_opt_inv a b : fv_iss_opt a = fv_iss_opt b -> issuance_null a = issuance_null b /\ (issuance_null a = false -> in_iss a = in_iss b).
Proof. unfold fv_iss_opt, fv_issuance. destruct (issuance_null a), (issuance_null b); intros E; try discriminate E; split; try easy.
  intros _. destruct (in_iss a), (in_iss b). cbn in E. now inversion E. Qed.
Lemma fv_iss_opt_cases {T} a b (z : T) (f : issuance -> T) : fv_iss_opt a = fv_iss_opt b ->
  (if issuance_null a then z else f (in_iss a)) = (if issuance_null b then z else f (in_iss b)).
Proof. intros E. destruct (fv_iss_opt_inv a b E) as [N I]. rewrite <- N. destruct (issuance_null a); [reflexivity|]. now rewrite I. Qed.
Lemma fv_flags_byte a b : fv_flags a = fv_flags b -> outpoint_flag_byte a = outpoint_flag_byte b.
Proof. intros E. destruct (fv_flags_inv a b E) as [P N]. unfold outpoint_flag_byte. now rewrite P, N. Qed.
Lemma fv_txout_ser a b : fv_txout a = fv_txout b -> ser_txout pt_ok a = ser_txout pt_ok b.
Proof. unfold fv_txout, ser_txout. now intros [= -> -> -> ->]. Qed.
Lemma fv_issproofs_ser a b : fv_issproofs a = fv_issproofs b -> issuance_proofs a = issuance_proofs b.
Proof. intros [= A B]. change (enc c_pp (ipp a) = enc c_pp (ipp b)). unfold ipp. now rewrite A, B. Qed.
Lemma fv_outwit_ser a b : fv_outwit a = fv_outwit b -> output_witness a = output_witness b.
Proof. intros [= A B]. change (enc c_pp (opp a) = enc c_pp (opp b)). unfold opp. now rewrite A, B. Qed.
End FIELDS.

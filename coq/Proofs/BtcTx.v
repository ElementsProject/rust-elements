(* Lawfulness of the bitcoin::Transaction codec (Model/BtcTx.v): exact, canonical outputs, complete. *)
From Coq Require Import List Arith NArith ZArith Lia Bool ZifyN ZifyBool ZifyNat.
From Coq.Strings Require Import Byte.
From EV Require Import Base.Bytes Base.Codec Model.BtcTx.
Import ListNotations.
Open Scope N_scope.
Set Default Timeout 60.

Lemma c_btcin_lawful : Lawful c_btcin.
Proof. apply c_conv_lawful.
  - repeat apply c_pair_lawful; try apply c_le_lawful; [apply c_fixed_lawful|apply c_varbytes_lawful].
  - intros [[t v] [s q]] b _ H. inversion H; subst. auto.
  - intros [t v s q] _ _. reflexivity. Qed.
Lemma c_btcout_lawful : Lawful c_btcout.
Proof. apply c_conv_lawful.
  - apply c_pair_lawful; [apply c_le_lawful|apply c_varbytes_lawful].
  - intros [v s] b _ H. inversion H; subst. auto.
  - intros [v s] _ _. reflexivity. Qed.

Lemma all_empty_map {A} (l : list A) : all_empty (map (fun _ => []) l) = true.
Proof. induction l; cbn; auto. Qed.
Lemma all_empty_eq (ws : list (list bytes)) {A} (l : list A) : all_empty ws = true -> length ws = length l -> ws = map (fun _ => []) l.
Proof. revert l. induction ws as [|w ws IH]; intros [|x l] E L; try discriminate; [reflexivity|]. cbn in *. destruct w; [|discriminate]. f_equal. apply IH; auto. Qed.

Section BTC.
Variable maxvec : N.
Lemma c_witness_lawful : Lawful (c_witness maxvec).
Proof. apply c_guard_lawful, c_vec_lawful, c_varbytes_lawful. Qed.
Lemma c_legacy_body_lawful : Lawful c_legacy_body.
Proof. apply c_conv_lawful.
  - apply c_pair_lawful; [apply c_vec_lawful, c_btcout_lawful|apply c_le_lawful].
  - intros [o l] b _ H. inversion H; subst. auto.
  - intros [i [o [w l]]] H _. cbn [fst snd] in *. destruct i; [|discriminate]. destruct w; [|discriminate]. reflexivity. Qed.
Lemma c_segwit_inner_lawful : Lawful (c_dep (c_vec c_btcin nocap) (fun ins => c_pair (c_vec c_btcout nocap) (c_pair (c_vecn (c_witness maxvec) (length ins)) c_u32))).
Proof. apply c_dep_lawful; [apply c_vec_lawful, c_btcin_lawful|]. intros ins. apply c_pair_lawful; [apply c_vec_lawful, c_btcout_lawful|].
  apply c_pair_lawful; [apply c_vecn_lawful, c_witness_lawful|apply c_le_lawful]. Qed.
Lemma c_segwit_body_lawful : Lawful (c_segwit_body maxvec).
Proof. apply c_conv_lawful.
  - apply c_pair_lawful; apply c_guard_lawful; [apply c_u8_lawful|apply c_segwit_inner_lawful].
  - intros [f b] b' W H. inversion H; subst. split; [|reflexivity].
    apply wf_pair in W as [W _]. apply wf_guard in W as [_ W]. apply N.eqb_eq in W. now subst.
  - intros b _ _. reflexivity. Qed.
Lemma wf_segwit_body ins outs wits lock : wf (c_segwit_body maxvec) (ins, (outs, (wits, lock))) = true ->
  length wits = length ins /\ match ins with [] => true | _ => negb (all_empty wits) end = true.
Proof. intros W. apply wf_conv in W as [_ W]. apply wf_pair in W as [_ W]. apply wf_guard in W as [W G].
  apply wf_dep in W as [_ W]. apply wf_pair in W as [_ W]. apply wf_pair in W as [W _]. apply wf_vecn in W as [L _]. now split. Qed.
Lemma c_btc_wire_lawful : Lawful (c_btc_wire maxvec).
Proof. apply c_dep_lawful; [apply c_pair_lawful; [apply c_le_lawful|apply c_vec_lawful, c_btcin_lawful]|].
  intros [v ins]. cbn [snd]. destruct ins; [apply c_segwit_body_lawful|apply c_legacy_body_lawful]. Qed.

Theorem c_btctx_lawful : Lawful (c_btctx maxvec).
Proof. apply c_conv_lawful; [apply c_btc_wire_lawful| |].
  - intros [[v ins0] [ins1 [outs [wits lock]]]] t W H. cbn [tx_of_wire] in H. apply wf_dep in W as [_ W]. cbn [snd] in W.
    destruct ins0 as [|i0 r0]; inversion H; subst; clear H; unfold wire_of_tx, uses_segwit; cbn [bt_wit bt_in bt_version bt_out bt_lock].
    + apply wf_segwit_body in W as [L G]. split; [|now apply Nat.eqb_eq].
      destruct ins1; [now rewrite orb_true_r|]. now rewrite G.
    + apply wf_conv in W as [W _]. cbn [fst snd] in W. destruct ins1; [|discriminate]. destruct wits; [|discriminate].
      pose proof (all_empty_map (i0 :: r0)) as E. cbn [map] in E |- *. rewrite E. cbn [negb orb]. split; [reflexivity|]. cbn [length]. rewrite map_length. apply Nat.eqb_refl.
  - intros [v ins outs wits lock] L _. unfold wire_of_tx, uses_segwit. cbn [bt_wit bt_in bt_version bt_out bt_lock] in *.
    destruct (all_empty wits) eqn:E; cbn [negb orb]; [|reflexivity]. destruct ins as [|i r]; [reflexivity|]. cbn [tx_of_wire].
    apply Nat.eqb_eq in L. now rewrite <- (all_empty_eq wits (i :: r) E L). Qed.
End BTC.

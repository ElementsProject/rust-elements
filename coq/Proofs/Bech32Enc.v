(* Checksum creation followed by verification succeeds (for the encoder side of C06): bounds on the residue, clean shifts while
   fewer than CHECKSUM_LENGTH symbols are in the register, pack/unpack. *)
From Coq Require Import List NArith ZArith Bool Lia ZifyN ZifyBool ZifyNat.
From EV Require Import Base.Bytes Model.Bech32 Proofs.Bech32.
Ltac Zify.zify_post_hook ::= Z.div_mod_to_equations.
Import ListNotations.
Open Scope N_scope.

Section Enc.
Variable gen : list N. Variable n : nat.           (* n = CHECKSUM_LENGTH >= 1 *)
Hypothesis n_pos : (1 <= n)%nat.
Let sh : N := 5 * (N.of_nat n - 1).
Let W : N := 5 * N.of_nat n.
Hypothesis gen_bound : Forall (fun g => g < 2 ^ W) gen.
Notation step := (step gen sh). Notation feedg := (feedg gen sh). Notation Zp := (Zp gen sh).

Lemma W_sh : W = sh + 5. Proof. unfold W, sh. lia. Qed.

Lemma feed_bound w : forall s, s < 2 ^ W -> syms w -> feedg s w < 2 ^ W.
Proof. intros s Hs Hw. rewrite W_sh in Hs |- *. apply feedg_bound; [|exact Hw|exact Hs]. unfold gen_bounded. rewrite <- W_sh. exact gen_bound. Qed.

Lemma step_clean s v : s < 2 ^ sh -> v < 32 -> step s v = s * 32 + v.
Proof. intros Hs Hv. unfold Bech32.step.
  assert (SR : N.shiftr s sh = 0) by (destruct (N.eq_dec s 0) as [->|NZ]; [apply N.shiftr_0_l|apply N.shiftr_eq_0, N.log2_lt_pow2; lia]).
  rewrite SR.
  rewrite N.land_0_l, mix_0, N.lxor_0_r. rewrite N.land_ones, N.mod_small by assumption. rewrite N.shiftl_mul_pow2.
  change (2 ^ 5) with 32. rewrite <- N.shiftl_mul_pow2 with (n := 5). rewrite lor_low_is_lxor by assumption.
  rewrite N.shiftl_mul_pow2. change (2 ^ 5) with 32. symmetry. apply N.add_nocarry_lxor.
  apply N.bits_inj. intros m. rewrite N.land_spec, N.bits_0. destruct (N.lt_ge_cases m 5) as [L|L].
  - replace (s * 32) with (s * 2 ^ 5) by reflexivity. rewrite N.mul_pow2_bits_low by assumption. reflexivity.
  - change 32 with (2 ^ 5) in Hv. rewrite (lt_pow2_bits v 5 Hv m L). apply andb_false_r. Qed.

Definition pack_from (acc : N) (l : list N) : N := fold_left (fun a v => a * 32 + v) l acc.
Lemma feed_clean l : forall k s, (k + length l <= n)%nat -> s < 2 ^ (5 * N.of_nat k) -> syms l -> feedg s l = pack_from s l.
Proof. induction l as [|x l IH]; intros k s L Hs Hl; [reflexivity|]. inversion Hl as [|? ? Hx Hl']; subst. cbn [length] in L.
  cbn [Proofs.Bech32.feedg pack_from fold_left]. unfold sym in Hx.
  assert (Hs' : s < 2 ^ sh). { apply N.lt_le_trans with (2 ^ (5 * N.of_nat k)); [assumption|]. apply N.pow_le_mono_r; [lia|]. unfold sh. lia. }
  rewrite step_clean by assumption. apply (IH (S k)); [lia| |assumption].
  replace (5 * N.of_nat (S k)) with (5 * N.of_nat k + 5) by lia. rewrite N.pow_add_r. change (2 ^ 5) with 32. lia. Qed.

Lemma unpack_sym r k : unpack r k < 32.
Proof. unfold unpack. change 31 with (N.ones 5). rewrite N.land_ones. apply N.mod_lt. discriminate. Qed.
Lemma unpack_all_syms k r : syms (unpack_all k r).
Proof. induction k as [|k IH]; cbn [unpack_all]; constructor; [apply unpack_sym|assumption]. Qed.
Lemma unpack_all_length k r : length (unpack_all k r) = k.
Proof. induction k as [|k IH]; cbn [unpack_all length]; congruence. Qed.
Lemma pack_unpack k : forall acc r, pack_from acc (unpack_all k r) = acc * 32 ^ N.of_nat k + r mod 32 ^ N.of_nat k.
Proof. induction k as [|k IH]; intros acc r; cbn [unpack_all pack_from fold_left].
  - cbn. rewrite N.mod_1_r. lia.
  - fold (pack_from (acc * 32 + unpack r k) (unpack_all k r)). rewrite IH. unfold unpack. change 31 with (N.ones 5).
    rewrite N.land_ones, N.shiftr_div_pow2. replace (2 ^ (5 * N.of_nat k)) with (32 ^ N.of_nat k) by (change 32 with (2 ^ 5); now rewrite <- N.pow_mul_r).
    change (2 ^ 5) with 32. rewrite Nnat.Nat2N.inj_succ, N.pow_succ_r'.
    assert (NZ : 32 ^ N.of_nat k <> 0) by (apply N.pow_nonzero; discriminate).
    rewrite (N.mul_comm 32 (32 ^ N.of_nat k)). rewrite (N.mod_mul_r r (32 ^ N.of_nat k) 32) by (assumption || discriminate). lia. Qed.

(* C06's checksum lemma: what the encoder appends verifies *)
Theorem checksum_verifies target pre : target < 2 ^ W -> syms pre ->
  feedg 1 (pre ++ unpack_all n (feedg (feedg 1 pre) (unpack_all n target))) = target.
Proof. intros HT Hp. rewrite feedg_app. set (s0 := feedg 1 pre).
  assert (H1 : (1:N) < 2 ^ W) by (rewrite W_sh; apply sym_bound; reflexivity).
  assert (Hs0 : s0 < 2 ^ W) by (apply feed_bound; assumption).
  set (T := unpack_all n target). set (r := feedg s0 T).
  assert (Hr : r < 2 ^ W) by (apply feed_bound; [assumption|apply unpack_all_syms]).
  assert (P32 : 32 ^ N.of_nat n = 2 ^ W) by (unfold W; change 32 with (2 ^ 5); now rewrite <- N.pow_mul_r).
  assert (C : forall x, x < 2 ^ W -> feedg 0 (unpack_all n x) = x).
  { intros x Hx. rewrite (feed_clean _ 0 0); [|rewrite unpack_all_length; lia|cbn; lia|apply unpack_all_syms].
    rewrite pack_unpack, P32, N.mod_small by assumption. lia. }
  rewrite (feed_split gen sh (unpack_all n r)) by apply unpack_all_syms. rewrite unpack_all_length, (C r Hr).
  unfold r. rewrite (feed_split gen sh T) by apply unpack_all_syms. unfold T. rewrite unpack_all_length. rewrite (C target HT).
  now rewrite <- N.lxor_assoc, N.lxor_nilpotent, N.lxor_0_l. Qed.
End Enc.

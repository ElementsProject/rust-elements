(* The predicates the encoders branch on, as TRANSLATED from the Rust source on every run (Gen/SrcPreds.v, translator/rust2coq.py),
   are the hand-written model definitions of Model/Tx.v and Model/Sizes.v.  When a source function changes its meaning the
   corresponding lemma here stops compiling, which breaks the proof channel of C01 / C02 / C12. *)
From Coq Require Import List NArith Bool Lia.
From Coq.Strings Require Import Byte.
From EV Require Import Base.Bytes Base.Codec Model.Tx Model.Sizes Gen.SrcPreds.
Import ListNotations.
Open Scope N_scope.

Lemma src_value_is_null v : src_Value_is_null v = value_is_null v.                Proof. reflexivity. Qed.
Lemma src_value_is_conf v : src_Value_is_confidential v = value_is_conf v.        Proof. reflexivity. Qed.
Lemma src_nonce_is_conf v : src_Nonce_is_confidential v = nonce_is_conf v.        Proof. reflexivity. Qed.
Lemma src_value_len v : src_Value_encoded_length v = value_len v.                 Proof. reflexivity. Qed.
Lemma src_asset_len v : src_Asset_encoded_length v = asset_len v.                 Proof. destruct v; reflexivity. Qed.
Lemma src_nonce_len v : src_Nonce_encoded_length v = nonce_len v.                 Proof. destruct v; reflexivity. Qed.
(* the three-way classification is exhaustive and exclusive for each confidential type (C01's prefix dispatch relies on it) *)
Lemma src_value_kinds v : [src_Value_is_null v; src_Value_is_explicit v; src_Value_is_confidential v]
  = match v with VNull => [true; false; false] | VExplicit _ => [false; true; false] | VConf _ => [false; false; true] end.
Proof. destruct v; reflexivity. Qed.
Lemma src_asset_kinds v : [src_Asset_is_null v; src_Asset_is_explicit v; src_Asset_is_confidential v]
  = match v with ANull => [true; false; false] | AExplicit _ => [false; true; false] | AConf _ => [false; false; true] end.
Proof. destruct v; reflexivity. Qed.
Lemma src_nonce_kinds v : [src_Nonce_is_null v; src_Nonce_is_explicit v; src_Nonce_is_confidential v]
  = match v with NNull => [true; false; false] | NExplicit _ => [false; true; false] | NConf _ => [false; false; true] end.
Proof. destruct v; reflexivity. Qed.
Lemma src_issuance_is_null i : src_AssetIssuance_is_null i = issuance_is_null i.  Proof. reflexivity. Qed.
Lemma src_has_issuance i : src_TxIn_has_issuance i = has_issuance i.              Proof. reflexivity. Qed.
Lemma src_inwit_is_empty w : src_TxInWitness_is_empty w = inwit_is_empty w.
Proof. destruct w as [a k s p]. unfold src_TxInWitness_is_empty, inwit_is_empty. cbn [w_amount_rp w_keys_rp w_script w_pegin].
  destruct a, k, s, p; reflexivity. Qed.
Lemma src_outwit_is_empty w : src_TxOutWitness_is_empty w = outwit_is_empty w.
Proof. destruct w as [s r]. unfold src_TxOutWitness_is_empty, outwit_is_empty. cbn [w_surj w_range]. destruct s, r; reflexivity. Qed.
Lemma src_rangeproof_len w : src_TxOutWitness_rangeproof_len w = optlen (w_range w).           Proof. reflexivity. Qed.
Lemma src_surjectionproof_len w : src_TxOutWitness_surjectionproof_len w = optlen (w_surj w).  Proof. reflexivity. Qed.
Lemma src_has_witness t : src_Transaction_has_witness t = has_witness t.
Proof. unfold src_Transaction_has_witness, has_witness. f_equal; apply existsb_ext; intros x; [now rewrite src_inwit_is_empty|now rewrite src_outwit_is_empty]. Qed.
(* the crate's own VarInt::size (src/encode.rs; used by Block::size / Block::weight) is the compact-size length of Base/Codec.v, for every u64 and beyond *)
Lemma src_varint_size n : src_VarInt_size n = vi_size n.
Proof. unfold src_VarInt_size, vi_size.
  (* each closed range of the source is the difference of two of the thresholds of vi_size *)
  replace ((0 <=? n) && (n <=? 252)) with (n <? 0xFD) by lia.
  replace ((253 <=? n) && (n <=? 65535)) with (negb (n <? 0xFD) && (n <? 0x10000)) by lia.
  replace ((65536 <=? n) && (n <=? 4294967295)) with (negb (n <? 0x10000) && (n <? 0x100000000)) by lia.
  now destruct (n <? 0xFD), (n <? 0x10000), (n <? 0x100000000). Qed.

(* the generated no-panic conditions of these functions are all true (none of them indexes or subtracts); the three that are
   not `true` by computation are conjunctions over the fields or the elements *)
Lemma src_issuance_is_null_safe i : src_AssetIssuance_is_null_safe i = true.
Proof. unfold src_AssetIssuance_is_null_safe. now destruct (src_Value_is_null (i_amount i)). Qed.
Lemma src_has_issuance_safe i : src_TxIn_has_issuance_safe i = true.
Proof. apply src_issuance_is_null_safe. Qed.
Lemma src_has_witness_safe t : src_Transaction_has_witness_safe t = true.
Proof. unfold src_Transaction_has_witness_safe. apply andb_true_iff. split; [apply forallb_forall; intros x _; reflexivity|].
  destruct (existsb _ _); [reflexivity|]. apply forallb_forall. intros x _. reflexivity. Qed.
Lemma src_preds_safe : forall (v : cvalue) (a : casset) (n : cnonce) (i : issuance) (iw : inwit) (ow : outwit) (ti : txin) (t : tx) (k : N),
  src_Value_is_null_safe v = true /\ src_Value_is_explicit_safe v = true /\ src_Value_is_confidential_safe v = true /\ src_Value_encoded_length_safe v = true
  /\ src_Asset_is_null_safe a = true /\ src_Asset_is_explicit_safe a = true /\ src_Asset_is_confidential_safe a = true /\ src_Asset_encoded_length_safe a = true
  /\ src_Nonce_is_null_safe n = true /\ src_Nonce_is_explicit_safe n = true /\ src_Nonce_is_confidential_safe n = true /\ src_Nonce_encoded_length_safe n = true
  /\ src_AssetIssuance_is_null_safe i = true /\ src_TxInWitness_is_empty_safe iw = true /\ src_TxOutWitness_is_empty_safe ow = true
  /\ src_TxOutWitness_rangeproof_len_safe ow = true /\ src_TxOutWitness_surjectionproof_len_safe ow = true /\ src_TxIn_has_issuance_safe ti = true
  /\ src_Transaction_has_witness_safe t = true /\ src_VarInt_size_safe k = true.
Proof. intros. repeat split; try reflexivity; [apply src_issuance_is_null_safe|apply src_has_issuance_safe|apply src_has_witness_safe]. Qed.

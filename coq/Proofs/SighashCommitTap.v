(* C03 — taproot: equal messages give equal committed views or a collision, and equal views give equal messages.  Both are read
   field by field (Proofs/SighashCommit.v): the first off the equation between the messages, the second off the one between the views. *)
From Coq Require Import List Arith NArith Bool Lia.
From Coq.Strings Require Import Byte.
From EV Require Import Base.Bytes Base.Codec Model.Tx Model.SighashSpec Model.SighashCommit Proofs.Tx Proofs.Sighash Proofs.SighashCanon Proofs.SighashCommit.
Import ListNotations.
Open Scope N_scope.
Set Default Timeout 120.

Lemma tap_valid_lt ht : tap_type_valid ht = true -> ht < 256.
Proof. unfold tap_type_valid. intros E. apply orb_true_iff in E as [E|E]; [apply N.leb_le in E; lia|]. apply andb_true_iff in E as [_ E]. apply N.leb_le in E. lia. Qed.
Lemma tap_query_facts g annex leaf idx : tap_query_ok g annex leaf idx = true ->
  length g = 32%nat /\ (match annex with Some a => len_ok a | None => true end) = true /\
  (match leaf with Some (h, pos) => Nat.eqb (length h) 32 && (pos <? 4294967296) | None => true end) = true /\ N.of_nat idx < 4294967296.
Proof. unfold tap_query_ok. intros Q. apply andb_true_iff in Q as [Q Qi]. apply andb_true_iff in Q as [Q Ql]. apply andb_true_iff in Q as [Qg Qa].
  apply Nat.eqb_eq in Qg. apply N.ltb_lt in Qi. auto. Qed.
(* the spend-type byte tells whether there is a leaf and whether there is an annex *)
Lemma spend_type_lt {A B} (l : option A) (a : option B) : 2 * (if l then 1 else 0) + (if a then 1 else 0) < 256.
Proof. now destruct l, a. Qed.
Lemma spend_type_inj {A B} (l l' : option A) (a a' : option B) :
  2 * (if l then 1 else 0) + (if a then 1 else 0) = 2 * (if l' then 1 else 0) + (if a' then 1 else 0) ->
  (if l then 1 else 0) = (if l' then 1 else 0) /\ (if a then 1 else 0) = (if a' then 1 else 0).
Proof. destruct l, l', a, a'; cbn; intros E; split; (reflexivity || discriminate E). Qed.

Section TAPROOT.
Variable pt_ok : bytes -> bool.
Variable H : bytes -> bytes.
Hypothesis Hlen : forall x, length (H x) = 32%nat.
Notation canon_in := (canon_in pt_ok). Notation canon_out := (canon_out pt_ok). Notation canon_tx := (canon_tx pt_ok).
(* a field of the message may exhibit a collision of H; `Back` is the same notion on the views, where nothing is hashed *)
Notation Back := (Field False).
Notation Field := (Field (Collision H)).

(* the parts of the committed view that stand against the parts of the message (Proofs/Sighash.v, tap_msg) *)
Definition tap_inputs_view (t : tx) (spent : list txout) : list fv :=
  [FList (map fv_flags (tx_in t)); FList (map (fun i => fv_outpoint (in_prev i)) (tx_in t));
   FList (map (fun o => FList [FAst (out_asset o); FVal (out_value o)]) spent); FList (map (fun o => FBytes (out_script o)) spent);
   FList (map (fun i => FNum (in_seq i)) (tx_in t)); FList (map fv_iss_opt (tx_in t)); FList (map fv_issproofs (tx_in t))].
Definition tap_outputs_view (t : tx) : list fv := [FList (map fv_txout (tx_out t)); FList (map fv_outwit (tx_out t))].
Definition tap_input_view (me : txin) (prev : txout) : list fv :=
  [fv_flags me; fv_outpoint (in_prev me); FAst (out_asset prev); FVal (out_value prev); FBytes (out_script prev); FNum (in_seq me);
   fv_iss_opt me; (if issuance_null me then FNone else FSome (fv_issproofs me))].
Definition tap_single_view (t : tx) (idx : nat) (ht : N) : list fv :=
  if tap_output_type ht =? SIGHASH_SINGLE then match nth_error (tx_out t) idx with Some o => [fv_txout o; fv_outwit o] | None => [] end else [].
Lemma taproot_committed_parts t spent idx annex leaf ht g me prev : nth_error (tx_in t) idx = Some me -> nth_error spent idx = Some prev ->
  taproot_committed t spent idx annex leaf ht g =
  [FBytes g; FNum ht; FNum (tx_version t); FNum (tx_lock t)]
  ++ (if tap_input_acp ht then [] else tap_inputs_view t spent) ++ (if tap_output_type ht =? SIGHASH_ALL then tap_outputs_view t else [])
  ++ [fv_bool (if leaf then true else false); (match annex with Some a => FSome (FBytes a) | None => FNone end)]
  ++ (if tap_input_acp ht then tap_input_view me prev else [FNum (N.of_nat idx)]) ++ tap_single_view t idx ht
  ++ (match leaf with Some (h, pos) => [FBytes h; FNum 0; FNum pos] | None => [] end).
Proof. intros Nme Npv. unfold taproot_committed. now rewrite Nme, Npv. Qed.

Lemma field_sha_inputs t t' spent spent' : forallb canon_in (tx_in t) = true -> forallb canon_in (tx_in t') = true ->
  forallb canon_out spent = true -> forallb canon_out spent' = true ->
  Field (tap_inputs_view t spent = tap_inputs_view t' spent') (tap_inputs_msg pt_ok H t spent) (tap_inputs_msg pt_ok H t' spent').
Proof. intros CI CI' CS CS' r r'. unfold tap_inputs_msg, tap_inputs_view. rewrite <- !app_assoc.
  apply (field_step (field_flags H Hlen _ _)); intros E1. apply (field_step (field_prevouts pt_ok H Hlen _ _ CI CI')); intros E2.
  apply (field_step (field_asset_amounts pt_ok H Hlen _ _ CS CS')); intros E3. apply (field_step (field_scripts pt_ok H Hlen _ _ CS CS')); intros E4.
  apply (field_step (field_sequences pt_ok H Hlen _ _ CI CI')); intros E5. apply (field_step (field_issuances pt_ok H Hlen _ _ CI CI' E1)); intros E6.
  apply (field_step (field_issproofs pt_ok H Hlen _ _ CI CI')); intros E7 ->. left. now rewrite E1, E2, E3, E4, E5, E6, E7. Qed.
Lemma back_sha_inputs t t' spent spent' :
  Back (tap_inputs_msg pt_ok H t spent = tap_inputs_msg pt_ok H t' spent') (tap_inputs_view t spent) (tap_inputs_view t' spent').
Proof. apply field_by_len; [reflexivity|]. intros [= E1 E2 E3 E4 E5 E6 E7].
  unfold tap_inputs_msg, sha_outpoint_flags, sha_prevouts, sha_asset_amounts, sha_scriptpubkeys, sha_sequences, sha_issuances, sha_issuance_rangeproofs.
  rewrite (map_factor _ (fun i => n2b (outpoint_flag_byte i)) (fun a b E => f_equal n2b (fv_flags_byte a b E)) _ _ E1).
  rewrite (map_factor _ (fun i => ser_outpoint (in_prev i)) (fun a b E => f_equal ser_outpoint (fv_outpoint_inj _ _ E)) _ _ E2).
  rewrite (map_factor _ _ (fv_av_ser pt_ok) _ _ E3).
  rewrite (map_factor _ (fun o => ser_bytes (out_script o)) (fun a b E => f_equal ser_bytes (FBytes_inj _ _ E)) _ _ E4).
  rewrite (map_factor _ (fun i => ser_u32 (in_seq i)) (fun a b E => f_equal ser_u32 (FNum_inj _ _ E)) _ _ E5).
  now rewrite (map_factor _ (issuance_or_zero pt_ok) (fun a b => fv_iss_opt_cases a b [x00] (ser_issuance pt_ok)) _ _ E6), (map_factor _ _ fv_issproofs_ser _ _ E7). Qed.

Lemma field_sha_outputs t t' : forallb canon_out (tx_out t) = true -> forallb canon_out (tx_out t') = true ->
  Field (tap_outputs_view t = tap_outputs_view t') (tap_outputs_msg pt_ok H t) (tap_outputs_msg pt_ok H t').
Proof. intros CO CO' r r'. unfold tap_outputs_msg, tap_outputs_view. rewrite <- !app_assoc.
  apply (field_step (field_outputs pt_ok H Hlen _ _ CO CO')); intros E1. apply (field_step (field_outwits pt_ok H Hlen _ _ CO CO')); intros E2 ->.
  left. now rewrite E1, E2. Qed.
Lemma back_sha_outputs t t' : Back (tap_outputs_msg pt_ok H t = tap_outputs_msg pt_ok H t') (tap_outputs_view t) (tap_outputs_view t').
Proof. apply field_by_len; [reflexivity|]. intros [= E1 E2]. unfold tap_outputs_msg, sha_outputs, sha_output_witnesses.
  now rewrite (map_factor _ _ (fv_txout_ser pt_ok) _ _ E1), (map_factor _ _ fv_outwit_ser _ _ E2). Qed.

Lemma field_acp_input me me' prev prev' : canon_in me = true -> canon_in me' = true -> canon_out prev = true -> canon_out prev' = true ->
  Field (tap_input_view me prev = tap_input_view me' prev') (tap_input_msg pt_ok H me prev) (tap_input_msg pt_ok H me' prev').
Proof. intros Cm Cm' Cp Cp' r r'. unfold tap_input_msg, tap_input_view. rewrite <- !app_assoc.
  destruct (canon_in_facts pt_ok me Cm) as (_ & _ & Sq & Is & _). destruct (canon_in_facts pt_ok me' Cm') as (_ & _ & Sq' & Is' & _).
  destruct (canon_out_facts pt_ok prev Cp) as (Wa & Wv & _ & Ws & _). destruct (canon_out_facts pt_ok prev' Cp') as (Wa' & Wv' & _ & Ws' & _).
  apply (field_step (field_one _ _)); intros Ef%flag_byte_inj. destruct (fv_flags_inv _ _ Ef) as [_ En].
  apply (field_step (field_enc c_outpoint _ _ c_outpoint_lawful (wf_outpoint pt_ok _ Cm) (wf_outpoint pt_ok _ Cm'))); intros Eo.
  apply (field_step (field_enc (c_asset pt_ok) _ _ (c_asset_lawful pt_ok) Wa Wa')); intros Ea.
  apply (field_step (field_enc (c_value pt_ok) _ _ (c_value_lawful pt_ok) Wv Wv')); intros Ev.
  apply (field_step (field_enc (c_varbytes BIG) _ _ (c_varbytes_lawful BIG) Ws Ws')); intros Es.
  apply (field_step (field_u32 _ _ Sq Sq')); intros Eq. unfold fv_iss_opt. rewrite Ef, Eo, Ea, Ev, Es, Eq, <- En. destruct (issuance_null me) eqn:Z.
  - intros [= ->]. left. split; reflexivity.
  - rewrite <- !app_assoc. apply (field_step (field_enc (c_issuance pt_ok) _ _ (c_issuance_lawful pt_ok) (Is eq_refl) (Is' (eq_sym En)))); intros Ei.
    apply (field_step (field_issproofs_hash pt_ok H Hlen _ _ Cm Cm')); intros Ep ->. left. rewrite Ei, Ep. split; reflexivity. Qed.
Lemma back_acp_input me me' prev prev' :
  Back (tap_input_msg pt_ok H me prev = tap_input_msg pt_ok H me' prev') (tap_input_view me prev) (tap_input_view me' prev').
Proof. intros R R'. unfold tap_input_msg, tap_input_view. cbn [app]. apply field_head; intros ->%fv_flags_byte. apply field_head; intros ->%fv_outpoint_inj.
  apply field_head; intros [= ->]. apply field_head; intros [= ->]. apply field_head; intros [= ->]. apply field_head; intros [= ->].
  apply field_head; intros [En Ei]%fv_iss_opt_inv. apply field_head; intros Ep ->. left. split; [|reflexivity]. rewrite <- En in *.
  destruct (issuance_null me); [reflexivity|]. apply FSome_inj, fv_issproofs_ser in Ep. now rewrite (Ei eq_refl), Ep. Qed.

Lemma field_annex (annex annex' : option bytes) : (if annex then 1 else 0) = (if annex' then 1 else 0) ->
  (match annex with Some a => len_ok a | None => true end) = true -> (match annex' with Some a => len_ok a | None => true end) = true ->
  Field (annex = annex') (match annex with Some a => H (ser_bytes a) | None => [] end) (match annex' with Some a => H (ser_bytes a) | None => [] end).
Proof. destruct annex as [a|], annex' as [a'|]; intros P L L'; try discriminate P; [|exact (field_by_len eq_refl (fun _ => eq_refl))].
  exact (field_hashed H Hlen (c_varbytes BIG) (fun x => x) Some a a' (c_varbytes_lawful BIG) (len_ok_wf _ L) (len_ok_wf _ L') (fun E => f_equal Some E)). Qed.
Lemma field_single t t' idx idx' ht so so' : forallb canon_out (tx_out t) = true -> forallb canon_out (tx_out t') = true ->
  tap_single_part pt_ok H t idx ht = Some so -> tap_single_part pt_ok H t' idx' ht = Some so' ->
  Field (tap_single_view t idx ht = tap_single_view t' idx' ht) so so'.
Proof. unfold tap_single_part, tap_single_view. intros CO CO' So So'. destruct (tap_output_type ht =? SIGHASH_SINGLE).
  - destruct (nth_error (tx_out t) idx) as [o|] eqn:No; [|discriminate]. destruct (nth_error (tx_out t') idx') as [o'|] eqn:No'; [|discriminate].
    injection So as <-. injection So' as <-. intros r r'. rewrite <- !app_assoc.
    apply (field_step (field_txout_hash pt_ok H Hlen o o' (forallb_nth _ _ _ _ CO No) (forallb_nth _ _ _ _ CO' No'))); intros ->.
    apply (field_step (field_outwit_hash pt_ok H Hlen o o' (forallb_nth _ _ _ _ CO No) (forallb_nth _ _ _ _ CO' No'))); intros -> ->. now left.
  - injection So as <-. injection So' as <-. exact (field_by_len eq_refl (fun _ => eq_refl)). Qed.
Lemma back_single t t' idx idx' ht so so' : tap_single_part pt_ok H t idx ht = Some so -> tap_single_part pt_ok H t' idx' ht = Some so' ->
  Back (so = so') (tap_single_view t idx ht) (tap_single_view t' idx' ht).
Proof. unfold tap_single_part, tap_single_view. intros So So'. destruct (tap_output_type ht =? SIGHASH_SINGLE).
  - destruct (nth_error (tx_out t) idx) as [o|]; [|discriminate]. destruct (nth_error (tx_out t') idx') as [o'|]; [|discriminate].
    injection So as <-. injection So' as <-. intros R R'. cbn [app]. apply field_head; intros ->%(fv_txout_ser pt_ok).
    apply field_head; intros ->%fv_outwit_ser ->. now left.
  - injection So as <-. injection So' as <-. exact (field_by_len eq_refl (fun _ => eq_refl)). Qed.
Lemma leaf_inj (leaf leaf' : option (bytes * N)) : (if leaf then 1 else 0) = (if leaf' then 1 else 0) ->
  (match leaf with Some (h, pos) => Nat.eqb (length h) 32 && (pos <? 4294967296) | None => true end) = true ->
  (match leaf' with Some (h, pos) => Nat.eqb (length h) 32 && (pos <? 4294967296) | None => true end) = true ->
  (match leaf with Some (h, pos) => h ++ [x00] ++ ser_u32 pos | None => [] end) = (match leaf' with Some (h, pos) => h ++ [x00] ++ ser_u32 pos | None => [] end) ->
  leaf = leaf'.
Proof. destruct leaf as [[h p]|], leaf' as [[h' p']|]; intros P L L' E; try discriminate P; [|reflexivity].
  apply andb_true_iff in L as [L1 L2]. apply andb_true_iff in L' as [L1' L2']. apply Nat.eqb_eq in L1, L1'. apply N.ltb_lt in L2, L2'.
  apply app_eq_len in E as [-> E]; [|lia]. apply (app_inv_head [x00]), ser_u32_inj in E; auto. now subst. Qed.

Theorem taproot_msg_sensitive t t' spent spent' idx idx' annex annex' leaf leaf' ht ht' g g' m :
  spec_taproot_msg pt_ok H t spent idx annex leaf ht g = Some m -> spec_taproot_msg pt_ok H t' spent' idx' annex' leaf' ht' g' = Some m ->
  canon_tx t = true -> canon_tx t' = true -> forallb canon_out spent = true -> forallb canon_out spent' = true ->
  tap_query_ok g annex leaf idx = true -> tap_query_ok g' annex' leaf' idx' = true ->
  taproot_committed t spent idx annex leaf ht g = taproot_committed t' spent' idx' annex' leaf' ht' g' \/ Collision H.
Proof. intros S S' C C' CS CS' Q Q'.
  destruct (spec_taproot_msg_inv _ _ _ _ _ _ _ _ _ _ S) as (V & _ & _ & me & prev & so & Nme & Npv & So & ->).
  destruct (spec_taproot_msg_inv _ _ _ _ _ _ _ _ _ _ S') as (V' & _ & _ & me' & prev' & so' & Nme' & Npv' & So' & E).
  destruct (canon_tx_facts pt_ok t C) as (Vv & Vl & CI & CO & _). destruct (canon_tx_facts pt_ok t' C') as (Vv' & Vl' & CI' & CO' & _).
  destruct (tap_query_facts _ _ _ _ Q) as (Qg & Qa & Ql & Qi). destruct (tap_query_facts _ _ _ _ Q') as (Qg' & Qa' & Ql' & Qi').
  rewrite (taproot_committed_parts _ _ _ _ _ _ _ _ _ Nme Npv), (taproot_committed_parts _ _ _ _ _ _ _ _ _ Nme' Npv'). revert E. unfold tap_msg.
  apply (field_step (field_len g g' (eq_trans Qg (eq_sym Qg')))); intros ->. apply (field_step (field_same g')); intros _.
  apply (field_step (field_byte ht ht' (tap_valid_lt _ V) (tap_valid_lt _ V'))); intros ->.
  apply (field_step (field_u32 _ _ Vv Vv')); intros ->. apply (field_step (field_u32 _ _ Vl Vl')); intros ->.
  apply (field_step (field_unless _ [] [] (field_sha_inputs _ _ _ _ CI CI' CS CS'))); intros ->.
  apply (field_step (field_when _ [] [] (field_sha_outputs _ _ CO CO'))); intros ->.
  apply (field_step (field_byte _ _ (spend_type_lt leaf annex) (spend_type_lt leaf' annex'))); intros Est.
  apply spend_type_inj in Est as [Eleaf Eannex].
  apply (field_step (field_ite _ _ _ _ _ (field_acp_input _ _ _ _ (forallb_nth _ _ _ _ CI Nme) (forallb_nth _ _ _ _ CI' Nme') (forallb_nth _ _ _ _ CS Npv) (forallb_nth _ _ _ _ CS' Npv'))
                                 (field_u32 _ _ Qi Qi') (fun E => E) (fun E => f_equal (fun n => [FNum n]) E))); intros ->.
  apply (field_step (field_annex _ _ Eannex Qa Qa')); intros ->.
  apply (field_step (field_single _ _ _ _ _ _ _ CO CO' So So')); intros -> El. apply leaf_inj in El as ->; auto. Qed.

Theorem taproot_committed_complete t t' spent spent' idx idx' annex annex' leaf leaf' ht ht' g g' m m' :
  spec_taproot_msg pt_ok H t spent idx annex leaf ht g = Some m -> spec_taproot_msg pt_ok H t' spent' idx' annex' leaf' ht' g' = Some m' ->
  taproot_committed t spent idx annex leaf ht g = taproot_committed t' spent' idx' annex' leaf' ht' g' -> m = m'.
Proof. intros S S' E.
  destruct (spec_taproot_msg_inv _ _ _ _ _ _ _ _ _ _ S) as (_ & _ & _ & me & prev & so & Nme & Npv & So & ->).
  destruct (spec_taproot_msg_inv _ _ _ _ _ _ _ _ _ _ S') as (_ & _ & _ & me' & prev' & so' & Nme' & Npv' & So' & ->).
  rewrite (taproot_committed_parts _ _ _ _ _ _ _ _ _ Nme Npv), (taproot_committed_parts _ _ _ _ _ _ _ _ _ Nme' Npv') in E. unfold tap_msg. injection E as -> -> -> -> E. apply or_False. revert E.
  apply (field_step (field_unless _ [] [] (back_sha_inputs _ _ _ _))); intros ->.
  apply (field_step (field_when _ [] [] (back_sha_outputs _ _))); intros ->.
  apply field_head; intros Elf. apply field_head; intros Ean.
  assert (annex = annex') as <- by (destruct annex, annex'; congruence).
  apply (field_step (field_ite _ _ _ _ _ (back_acp_input _ _ _ _) (field_one _ _) (fun E => E) (fun E => f_equal ser_u32 (FNum_inj _ _ E)))); intros ->.
  apply (field_step (back_single _ _ _ _ _ _ _ So So')); intros -> El.
  assert (leaf = leaf') as <- by (destruct leaf as [[]|], leaf' as [[]|]; congruence). now left. Qed.
End TAPROOT.

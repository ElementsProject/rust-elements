(* C13 — proofs.  Two logics over the cache monad of Model/SighashImpl.v: `Ev` evaluates a query under the cache invariant `Good`, and
   `Sim R` runs one query from two states related by R.  Coherence of operation sequences is `Sim` for "both states are good for the same
   transaction"; independence of script_sig and witness stacks (Proofs/SighashWitness.v) is `Sim` for "transactions that differ at most
   there, equal caches".  The walk through the three pre-image writers is done once, for any such R. *)
From Coq Require Import List Arith NArith Bool Lia.
From Coq.Strings Require Import Byte.
From EV Require Import Base.Bytes Base.Codec Gen.Tables Model.Tx Model.SighashImpl Model.SighashCache Model.SighashSpec Model.SighashQuery.
Import ListNotations.
Open Scope N_scope.
Set Default Timeout 60.

Lemma schnorr_eqb_spec a b : schnorr_eqb a b = true <-> a = b.
Proof. split; [|intros ->; apply N.eqb_refl]. destruct a, b; vm_compute; congruence. Qed.
Lemma ecdsa_eqb_spec a b : ecdsa_eqb a b = true <-> a = b.
Proof. split; [|intros ->; apply N.eqb_refl]. destruct a, b; vm_compute; congruence. Qed.

Lemma nth_error_lt {A} (l : list A) n : (n < length l)%nat -> exists a, nth_error l n = Some a.
Proof. intros L. destruct (nth_error l n) eqn:E; [eauto|]. apply nth_error_None in E. lia. Qed.
Lemma mapi_from_ext {A B} (f g : nat -> A -> B) : (forall n a, f n a = g n a) -> forall l n, mapi_from n f l = mapi_from n g l.
Proof. intros E. induction l; intros; cbn; [reflexivity|]. now rewrite E, IHl. Qed.
Lemma mapi_from_length {A B} (f : nat -> A -> B) l : forall n, length (mapi_from n f l) = length l.
Proof. induction l; intros; cbn; auto. Qed.
Lemma map_mapi_from {A B C} (g : B -> C) (h : nat -> A -> B) l : forall n, map g (mapi_from n h l) = mapi_from n (fun k a => g (h k a)) l.
Proof. induction l; intros; cbn; [reflexivity|]. now rewrite IHl. Qed.
Lemma mapi_from_const {A B} (g : A -> B) l : forall n, mapi_from n (fun _ a => g a) l = map g l.
Proof. induction l; intros; cbn; [reflexivity|]. now rewrite IHl. Qed.
Lemma mapi_mapi_from {A B C} (f : nat -> B -> C) (h : nat -> A -> B) l : forall n, mapi_from n f (mapi_from n h l) = mapi_from n (fun k a => f k (h k a)) l.
Proof. induction l; intros; cbn; [reflexivity|]. now rewrite IHl. Qed.
Lemma nth_mapi_from {A B} (f : nat -> A -> B) l : forall n k, nth_error (mapi_from n f l) k = option_map (f (n + k)%nat) (nth_error l k).
Proof. induction l; intros n [|k]; cbn; try reflexivity. { now rewrite Nat.add_0_r. } rewrite IHl. now replace (S n + k)%nat with (n + S k)%nat by lia. Qed.
Lemma concat_mapi_flat_map {A B} (e : B -> bytes) (f : nat -> A -> B) l : forall n, concat (mapi_from n (fun k a => e (f k a)) l) = flat_map e (mapi_from n f l).
Proof. induction l; intros; cbn; [reflexivity|]. now rewrite IHl. Qed.
Lemma forallb_mapi {A B} (p : A -> bool) (q : B -> bool) (f : nat -> A -> B) : (forall n a, p a = true -> q (f n a) = true) ->
  forall l n, forallb p l = true -> forallb q (mapi_from n f l) = true.
Proof. intros E. induction l as [|a l IH]; intros n F; cbn in *; [reflexivity|]. apply andb_true_iff in F as [Fa Fl]. now rewrite (E _ _ Fa), IH. Qed.
Lemma F2_mapi {A B} (R : A -> A -> Prop) (f : nat -> A -> B) : (forall n a b, R a b -> f n a = f n b) ->
  forall l l', Forall2 R l l' -> forall n, mapi_from n f l = mapi_from n f l'.
Proof. intros E l l' F. induction F as [|a b l l' Rab F IH]; intros n; cbn; [reflexivity|]. now rewrite (E _ _ _ Rab), IH. Qed.
Lemma map_enumerate {A B} (f : nat * A -> B) l : forall n, map f (enumerate_from n l) = mapi_from n (fun k a => f (k, a)) l.
Proof. induction l; intros; cbn; [reflexivity|]. now rewrite IHl. Qed.

Section PROOFS.
Variable pt_ok : bytes -> bool.
Variable maxvec : N.
Variable H : bytes -> bytes.
Variable Htag : bytes -> bytes.

Notation compute_common := (compute_common pt_ok maxvec H).
Notation compute_segwit := (compute_segwit H).
Notation compute_taproot := (compute_taproot pt_ok maxvec H).
Notation common_cache_get := (common_cache_get pt_ok maxvec H).
Notation segwit_cache_get := (segwit_cache_get pt_ok maxvec H).
Notation taproot_cache_get := (taproot_cache_get pt_ok maxvec H).
Notation taproot_encode := (taproot_encode pt_ok maxvec H).
Notation segwit_encode := (segwit_encode pt_ok maxvec H).
Notation legacy_encode := (legacy_encode pt_ok maxvec).
Notation query := (query pt_ok maxvec H Htag).
Notation step := (step pt_ok maxvec H Htag).
Notation run := (run pt_ok maxvec H Htag).
Notation fresh_answers := (fresh_answers pt_ok maxvec H Htag).

Lemma bind_get_tx {B} (k : tx -> M B) s : bind get_tx k s = k (st_tx s) s.
Proof. reflexivity. Qed.
Lemma bind_lift {A B} (r : sres A) (k : A -> M B) s :
  bind (lift r) k s = match r with SOk a => k a s | SErr e => (s, SErr e) | SPanic => (s, SPanic) end.
Proof. reflexivity. Qed.

Lemma mapM_snd {A B} (f : A -> B) (m : M A) s : snd (mapM f m s) = match snd (m s) with SOk a => SOk (f a) | SErr e => SErr e | SPanic => SPanic end.
Proof. unfold mapM, bind, ret. now destruct (m s) as [s' [a|e|]]. Qed.

Definition Good (t : tx) (spent : list txout) (s : state) : Prop :=
  st_tx s = t /\
  (st_common s = None \/ st_common s = Some (compute_common t)) /\
  (st_segwit s = None \/ st_segwit s = Some (compute_segwit (compute_common t))) /\
  (st_taproot s = None \/ st_taproot s = Some (compute_taproot t spent)).
Lemma Good_init t spent : Good t spent (init t).
Proof. unfold Good, init; cbn. auto. Qed.

Definition Ev (t : tx) (spent : list txout) {A} (m : M A) (r : sres A) : Prop :=
  forall s, Good t spent s -> exists s', m s = (s', r) /\ Good t spent s'.

Section EV.
Variable t : tx.
Variable spent : list txout.
Notation Ev := (Ev t spent). Notation Good := (Good t spent).

Lemma Ev_ret {A} (a : A) : Ev (ret a) (SOk a).
Proof. intros s G. exists s. auto. Qed.
Lemma Ev_lift {A} (r : sres A) : Ev (lift r) r.
Proof. intros s G. exists s. auto. Qed.
Lemma Ev_get_tx : Ev get_tx (SOk t).
Proof. intros s G. exists s. split; [|exact G]. unfold get_tx. destruct G as [-> _]. reflexivity. Qed.
Lemma Ev_bind_ok {A B} (m : M A) (k : A -> M B) a r : Ev m (SOk a) -> Ev (k a) r -> Ev (bind m k) r.
Proof. intros Hm Hk s G. destruct (Hm s G) as (s1 & E1 & G1). destruct (Hk s1 G1) as (s2 & E2 & G2).
  exists s2. split; [|exact G2]. unfold bind. now rewrite E1. Qed.
Lemma Ev_bind_err {A B} (m : M A) (k : A -> M B) e : Ev m (SErr e) -> Ev (bind m k) (SErr e).
Proof. intros Hm s G. destruct (Hm s G) as (s1 & E1 & G1). exists s1. split; [|exact G1]. unfold bind. now rewrite E1. Qed.
Lemma Ev_bind_panic {A B} (m : M A) (k : A -> M B) : Ev m SPanic -> Ev (bind m k) SPanic.
Proof. intros Hm s G. destruct (Hm s G) as (s1 & E1 & G1). exists s1. split; [|exact G1]. unfold bind. now rewrite E1. Qed.
Lemma Ev_fun {A} (m : M A) r r' : Ev m r -> Ev m r' -> r = r'.
Proof. intros E1 E2. destruct (E1 (init t) (Good_init t spent)) as (s1 & X1 & _). destruct (E2 (init t) (Good_init t spent)) as (s2 & X2 & _). congruence. Qed.
Lemma Ev_snd {A} (m : M A) r s : Ev m r -> Good s -> snd (m s) = r /\ Good (fst (m s)).
Proof. intros E G. destruct (E s G) as (s1 & X & G1). rewrite X. auto. Qed.

Lemma Ev_common : Ev common_cache_get (SOk (compute_common t)).
Proof. intros s (Et & Hc & Hs & Ht). unfold SighashImpl.common_cache_get. destruct Hc as [Hc|Hc]; rewrite Hc.
  - eexists. split; [rewrite Et; reflexivity|]. unfold Good; cbn. auto.
  - exists s. split; [reflexivity|]. unfold Good. auto. Qed.
Lemma Ev_taproot : Ev (taproot_cache_get spent) (SOk (compute_taproot t spent)).
Proof. intros s (Et & Hc & Hs & Ht). unfold SighashImpl.taproot_cache_get. destruct Ht as [Ht|Ht]; rewrite Ht.
  - eexists. split; [rewrite Et; reflexivity|]. unfold Good; cbn. auto.
  - exists s. split; [reflexivity|]. unfold Good. auto. Qed.
Lemma Ev_segwit : Ev segwit_cache_get (SOk (compute_segwit (compute_common t))).
Proof. intros s G. pose proof G as (Et & Hc & Hs & Ht). unfold SighashImpl.segwit_cache_get. destruct Hs as [Hs|Hs]; rewrite Hs.
  - destruct (Ev_common s G) as (s1 & E1 & (Et1 & Hc1 & Hs1 & Ht1)). rewrite E1. eexists. split; [reflexivity|]. unfold Good; cbn. auto.
  - exists s. split; [reflexivity|exact G]. Qed.
Lemma Ev_init {A} (m : M A) r : Ev m r -> snd (m (init t)) = r.
Proof. intros E. apply (Ev_snd m r (init t) E), Good_init. Qed.
Lemma Ev_ret_eq {A} (a b : A) : a = b -> Ev (ret a) (SOk b).
Proof. intros ->. apply Ev_ret. Qed.
(* a step of a writer: x or y is appended to what has been written so far *)
Lemma Ev_if_app (b : bool) (m1 m2 : M bytes) w x y : Ev m1 (SOk (w ++ x)) -> Ev m2 (SOk (w ++ y)) -> Ev (if b then m1 else m2) (SOk (w ++ if b then x else y)).
Proof. now destruct b. Qed.
Lemma Ev_when (b : bool) (m : M bytes) w x : Ev m (SOk (w ++ x)) -> Ev (if b then m else ret w) (SOk (w ++ if b then x else [])).
Proof. destruct b; [easy|]. intros _. apply Ev_ret_eq. now rewrite app_nil_r. Qed.
Lemma Ev_unless (b : bool) (m : M bytes) w x : Ev m (SOk (w ++ x)) -> Ev (if b then ret w else m) (SOk (w ++ if b then [] else x)).
Proof. destruct b; [|easy]. intros _. apply Ev_ret_eq. now rewrite app_nil_r. Qed.
End EV.

(* what the writers read of a transaction is unchanged by script_sig, script witness and pegin witness *)
Lemma in_sig_eq_refl a : in_sig_eq a a. Proof. unfold in_sig_eq. auto 7. Qed.
Lemma sig_has_issuance a b : in_sig_eq a b -> has_issuance a = has_issuance b.
Proof. unfold in_sig_eq, has_issuance. intros (_ & _ & _ & -> & _). reflexivity. Qed.
Lemma sig_outpoint_flag a b : in_sig_eq a b -> outpoint_flag a = outpoint_flag b.
Proof. intros E. unfold outpoint_flag. rewrite (sig_has_issuance _ _ E). destruct E as (_ & -> & _). reflexivity. Qed.
Lemma compute_common_sig t t' : tx_sig_eq t t' -> compute_common t = compute_common t'.
Proof. intros (V & L & I & O). unfold SighashImpl.compute_common. rewrite O.
  f_equal; f_equal; (apply (F2_flat_map in_sig_eq); [|exact I]); intros a b (Ep & _ & Es & Ei & _); unfold has_issuance; now rewrite ?Ep, ?Es, ?Ei. Qed.
Lemma compute_taproot_sig t t' ps : tx_sig_eq t t' -> compute_taproot t ps = compute_taproot t' ps.
Proof. intros (V & L & I & O). unfold SighashImpl.compute_taproot. f_equal; f_equal; [apply (F2_map in_sig_eq)|apply (F2_flat_map in_sig_eq)]; try exact I.
  - intros a b E. now rewrite (sig_outpoint_flag a b E).
  - now intros a b (_ & _ & _ & _ & -> & ->). Qed.
Lemma check_all_sig pv t t' : tx_sig_eq t t' -> check_all pv t = check_all pv t'.
Proof. intros (_ & _ & I & _). unfold check_all. destruct pv; [reflexivity|]. now rewrite (Forall2_length _ _ _ I). Qed.
Lemma legacy_encode_tx_sig t t' idx sc ty : tx_sig_eq t t' -> legacy_encode_tx pt_ok maxvec t idx sc ty = legacy_encode_tx pt_ok maxvec t' idx sc ty.
Proof. intros (V & L & I & O). unfold legacy_encode_tx. rewrite V, L, O, (Forall2_length _ _ _ I). destruct (ecdsa_split ty) as [sighash acp].
  pose proof (F2_nth _ _ _ I idx) as N.
  rewrite !map_enumerate. erewrite (F2_mapi in_sig_eq) with (l' := tx_in t'); [|intros n a b (-> & -> & -> & -> & _); reflexivity|exact I].
  destruct (nth_error (tx_in t) idx) as [a|], (nth_error (tx_in t') idx) as [b|]; try contradiction; [|reflexivity].
  destruct N as (-> & -> & -> & -> & _). reflexivity. Qed.

Section SIM.
Variable R : state -> state -> Prop.
Variable okps : list txout -> Prop.                 (* the lists of spent outputs the taproot cache may be asked for *)
Definition Sim {A} (m m' : M A) : Prop := forall s s', R s s' -> snd (m s) = snd (m' s') /\ R (fst (m s)) (fst (m' s')).
Hypothesis R_tx : forall s s', R s s' -> tx_sig_eq (st_tx s) (st_tx s').
Hypothesis Sim_common : Sim common_cache_get common_cache_get.
Hypothesis Sim_segwit : Sim segwit_cache_get segwit_cache_get.
Hypothesis Sim_taproot : forall ps, okps ps -> Sim (taproot_cache_get ps) (taproot_cache_get ps).

Lemma Sim_ret {A} (a : A) : Sim (ret a) (ret a). Proof. intros s s' r. auto. Qed.
Lemma Sim_lift {A} (r : sres A) : Sim (lift r) (lift r). Proof. intros s s' r'. auto. Qed.
Lemma Sim_bind {A B} (m m' : M A) (k k' : A -> M B) : Sim m m' -> (forall a, Sim (k a) (k' a)) -> Sim (bind m k) (bind m' k').
Proof. intros Hm Hk s s' r. destruct (Hm s s' r) as [E R1]. unfold bind. destruct (m s) as [s1 x], (m' s') as [s1' x']. cbn [fst snd] in *. subst x'.
  destruct x as [a|e|]; [apply Hk; exact R1|auto|auto]. Qed.
Lemma Sim_bind_lift {A B} (r : sres A) (k k' : A -> M B) : (forall a, r = SOk a -> Sim (k a) (k' a)) -> Sim (bind (lift r) k) (bind (lift r) k').
Proof. intros Hk s s' r'. unfold bind, lift. destruct r as [a|e|]; [now apply Hk|auto|auto]. Qed.
Lemma Sim_bind_tx {B} (k k' : tx -> M B) : (forall t t', tx_sig_eq t t' -> Sim (k t) (k' t')) -> Sim (bind get_tx k) (bind get_tx k').
Proof. intros Hk s s' r. unfold bind, get_tx. apply Hk; [now apply R_tx|exact r]. Qed.
(* a value of the transaction bound inside a query: the inputs at the same position are related *)
Lemma Sim_bind_nth {B} l l' idx (r0 : sres txin) (K K' : txin -> M B) : Forall2 in_sig_eq l l' -> (forall a a', in_sig_eq a a' -> Sim (K a) (K' a')) ->
  Sim (bind (lift (match nth_error l idx with Some i => SOk i | None => r0 end)) K) (bind (lift (match nth_error l' idx with Some i => SOk i | None => r0 end)) K').
Proof. intros F HK. pose proof (F2_nth _ _ _ F idx) as N. destruct (nth_error l idx) as [a|], (nth_error l' idx) as [a'|]; try contradiction.
  - intros s s' r. unfold bind, lift. apply HK; assumption.
  - apply Sim_bind_lift. intros a _. apply HK, in_sig_eq_refl. Qed.
Lemma Sim_mapM {A B} (f : A -> B) (m m' : M A) : Sim m m' -> Sim (mapM f m) (mapM f m').
Proof. intros S. unfold mapM. apply Sim_bind; [exact S|]. intros. apply Sim_ret. Qed.

(* the same query body on both sides, once its data no longer mentions the transaction *)
Ltac rsim := repeat
  match goal with
  | |- Sim (ret _) (ret _) => apply Sim_ret
  | |- Sim (lift _) (lift _) => apply Sim_lift
  | |- Sim common_cache_get _ => apply Sim_common
  | |- Sim segwit_cache_get _ => apply Sim_segwit
  | |- Sim (taproot_cache_get _) _ => apply Sim_taproot; auto
  | |- Sim (bind (lift _) _) (bind (lift _) _) => apply Sim_bind_lift; intros ? ?
  | |- Sim (bind _ _) (bind _ _) => apply Sim_bind; [|intro]
  | |- Sim (if ?b then _ else _) _ => destruct b
  | |- Sim (let '(_, _) := ?x in _) _ => destruct x
  | |- Sim (match ?x with Some _ => _ | None => _ end) _ => destruct x
  end.

Theorem taproot_encode_sim idx pv annex leaf ty g : (forall ps, get_all pv = SOk ps -> okps ps) ->
  Sim (taproot_encode idx pv annex leaf ty g) (taproot_encode idx pv annex leaf ty g).
Proof. intros Hpv. unfold SighashImpl.taproot_encode. apply Sim_bind_tx. intros t t' E. pose proof E as (V & L & I & O).
  rewrite (check_all_sig pv t t' E), V, L, O, (Forall2_length _ _ _ I).
  apply Sim_bind; [apply Sim_lift|intros []]. destruct (schnorr_split ty) as [sighash acp]. cbv zeta.
  apply Sim_bind; [rsim|intro w1]. apply Sim_bind; [rsim|intro w2].
  apply Sim_bind.
  { destruct acp; [|apply Sim_ret]. apply (Sim_bind_nth _ _ _ (SErr _)); [exact I|]. intros a a' Ea. rewrite (sig_outpoint_flag _ _ Ea), (sig_has_issuance _ _ Ea).
    destruct Ea as (-> & _ & -> & -> & -> & ->). rsim. }
  intro w3. rsim. Qed.
Theorem segwit_encode_sim idx sc v ty : Sim (segwit_encode idx sc v ty) (segwit_encode idx sc v ty).
Proof. unfold SighashImpl.segwit_encode. apply Sim_bind_tx. intros t t' E. pose proof E as (V & L & I & O). rewrite V, L, O.
  destruct (ecdsa_split ty) as [sighash acp]. cbv zeta.
  apply Sim_bind; [rsim|intro w1]. apply Sim_bind; [rsim|intro w2]. apply Sim_bind; [rsim|intro w3].
  apply (Sim_bind_nth _ _ _ SPanic); [exact I|]. intros a a' Ea. rewrite (sig_has_issuance _ _ Ea). destruct Ea as (-> & _ & -> & -> & _). rsim. Qed.
Theorem legacy_encode_sim idx sc ty : Sim (legacy_encode idx sc ty) (legacy_encode idx sc ty).
Proof. unfold SighashImpl.legacy_encode. apply Sim_bind_tx. intros t t' E. rewrite (legacy_encode_tx_sig t t' idx sc ty E). apply Sim_lift. Qed.
Theorem legacy_sighash_sim idx sc ty : Sim (legacy_sighash pt_ok maxvec H idx sc ty) (legacy_sighash pt_ok maxvec H idx sc ty).
Proof. unfold legacy_sighash. apply Sim_bind_tx. intros t t' (V & L & I & O). rewrite O, (Forall2_length _ _ _ I). destruct (ecdsa_split ty) as [sighash acp].
  match goal with |- Sim (if ?b then _ else _) _ => destruct b end; [apply Sim_ret|apply Sim_mapM, legacy_encode_sim]. Qed.

Definition op_okps (o : op) : Prop := match op_prevouts o with Some pv => forall ps, get_all pv = SOk ps -> okps ps | None => True end.
Theorem query_sim o : op_okps o -> Sim (query o) (query o).
Proof. destruct o; cbn [SighashCache.query op_okps op_prevouts]; intros Hpv.
  - apply legacy_sighash_sim.
  - apply Sim_mapM, segwit_encode_sim.
  - apply Sim_bind; [apply Sim_lift|intro a]. now apply Sim_mapM, taproot_encode_sim.
  - now apply Sim_mapM, taproot_encode_sim.
  - now apply Sim_mapM, taproot_encode_sim.
  - apply Sim_ret. Qed.
Theorem preimage_sim o : op_okps o -> Sim (preimage pt_ok maxvec H o) (preimage pt_ok maxvec H o).
Proof. destruct o; cbn [preimage op_okps op_prevouts]; intros Hpv.
  - apply legacy_encode_sim.
  - apply segwit_encode_sim.
  - apply Sim_bind; [apply Sim_lift|intro a]. now apply taproot_encode_sim.
  - now apply taproot_encode_sim.
  - now apply taproot_encode_sim.
  - apply Sim_ret. Qed.
End SIM.

Lemma flat_map_update_nth {A B} (g : A -> list B) (f : A -> A) : (forall a, g (f a) = g a) -> forall l n, flat_map g (update_nth n f l) = flat_map g l.
Proof. intros E. induction l as [|a l IH]; intros [|n]; cbn; try reflexivity; [now rewrite E|now rewrite IH]. Qed.
Lemma map_update_nth {A B} (g : A -> B) (f : A -> A) : (forall a, g (f a) = g a) -> forall l n, map g (update_nth n f l) = map g l.
Proof. intros E. induction l as [|a l IH]; intros [|n]; cbn; try reflexivity; [now rewrite E|now rewrite IH]. Qed.
Lemma update_nth_length {A} (f : A -> A) : forall l n, length (update_nth n f l) = length l.
Proof. induction l as [|a l IH]; intros [|n]; cbn; auto. Qed.
Lemma compute_common_witness t i w : compute_common (set_script_witness t i w) = compute_common t.
Proof. unfold SighashImpl.compute_common, set_script_witness; cbn [tx_in tx_out]. f_equal; f_equal; try reflexivity; apply flat_map_update_nth; reflexivity. Qed.
Lemma compute_taproot_witness t spent i w : compute_taproot (set_script_witness t i w) spent = compute_taproot t spent.
Proof. unfold SighashImpl.compute_taproot, set_script_witness; cbn [tx_in tx_out]. f_equal; f_equal;
  first [apply flat_map_update_nth | apply map_update_nth]; reflexivity. Qed.
Lemma Good_witness_mut t spent s i w : Good t spent s -> Good (set_script_witness t i w) spent (fst (witness_mut i w s)).
Proof. intros (Et & Hc & Hs & Ht). unfold Good, witness_mut; cbn. rewrite compute_common_witness, compute_taproot_witness, Et. auto. Qed.

Section COHERENT.
Variable t : tx.
Variable spent : list txout.
Definition Both (s s' : state) : Prop := Good t spent s /\ Good t spent s'.
Lemma Sim_Ev {A} (m : M A) r : Ev t spent m r -> Sim Both m m.
Proof. intros E s s' [G G']. destruct (E s G) as (s1 & X & G1). destruct (E s' G') as (s1' & X' & G1'). rewrite X, X'. cbn. unfold Both. auto. Qed.
Lemma Both_tx s s' : Both s s' -> tx_sig_eq (st_tx s) (st_tx s').
Proof. intros [(-> & _) (-> & _)]. repeat split; auto. apply Forall2_diag, in_sig_eq_refl. Qed.
Lemma query_good o s : Good t spent s -> consistent_prevouts spent o -> snd (query o s) = snd (query o (init t)) /\ Good t spent (fst (query o s)).
Proof. intros G C. assert (O : op_okps (eq spent) o).
  { unfold op_okps. unfold consistent_prevouts in C. destruct (op_prevouts o) as [[|l]|]; [discriminate| |exact I]. intros ps [= <-]. now symmetry. }
  destruct (query_sim Both (eq spent) Both_tx (Sim_Ev _ _ (Ev_common t spent)) (Sim_Ev _ _ (Ev_segwit t spent))
              (fun ps E => eq_ind _ (fun ps => Sim Both (taproot_cache_get ps) (taproot_cache_get ps)) (Sim_Ev _ _ (Ev_taproot t spent)) ps E)
              o O s (init t) (conj G (Good_init t spent))) as [E [G1 _]]. auto. Qed.
End COHERENT.

Lemma step_good t spent s o : Good t spent s -> consistent_prevouts spent o ->
  snd (step s o) = snd (step (init t) o) /\ Good (apply_wit t o) spent (fst (step s o)).
Proof. intros G C. pose proof G as (Et & _). pose proof (query_good t spent o s G C) as [E G'].
  destruct o; unfold SighashCache.step; try (destruct (query _ s), (query _ (init t)); cbn [fst snd apply_wit] in *; now subst).
  cbn [apply_wit]. unfold witness_mut at 1 2; cbn [fst snd]. split.
  - unfold init; cbn. now rewrite Et.
  - apply (Good_witness_mut t spent s i w G). Qed.

Theorem run_coherent_from spent : forall ops t s, Good t spent s -> Forall (consistent_prevouts spent) ops -> run s ops = fresh_answers t ops.
Proof. induction ops as [|o ops IH]; intros t s G F; cbn [SighashCache.run SighashCache.fresh_answers]; [reflexivity|].
  inversion F as [|? ? C F']; subst. destruct (step_good t spent s o G C) as [E G'].
  destruct (step s o) as [s' x] eqn:S. cbn [fst snd] in *. rewrite E. f_equal. apply IH; assumption. Qed.

Fixpoint final_state (s : state) (ops : list op) : state := match ops with [] => s | o :: r => final_state (fst (step s o)) r end.

Theorem acp_one_eq_all s spent idx o annex leaf ty g :
  schnorr_acp ty = true ->
  length spent = length (tx_in (st_tx s)) -> nth_error spent idx = Some o ->
  taproot_encode idx (POne idx o) annex leaf ty g s = taproot_encode idx (PAll spent) annex leaf ty g s.
Proof. intros A L N.
  assert (P1 : pv_get (POne idx o) idx = SOk o) by (cbn; now rewrite Nat.eqb_refl).
  assert (P2 : pv_get (PAll spent) idx = SOk o) by (cbn; now rewrite N).
  unfold SighashImpl.taproot_encode. rewrite !bind_get_tx, !bind_lift. cbn [check_all]. rewrite L, Nat.eqb_refl.
  rewrite P1, P2. unfold schnorr_acp in A. destruct (schnorr_split ty) as [b acp]. cbn [snd] in A. subst acp. reflexivity. Qed.
End PROOFS.

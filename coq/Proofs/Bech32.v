(* Proofs about the checksum engine of Model/Bech32.v: GF(2)-linearity of the step and the syndrome formula; the zero-feed
   map Z is invertible, so "no one- or two-symbol error maps a codeword to a codeword" reduces to a linear-size kernel sweep
   (no Z^d(u), 1 <= d < L, is a bare symbol), from which the quadratic-size table test of C17_table follows as well. *)
From Coq Require Import List Arith NArith Bool Lia Sorting.Mergesort Sorting.Permutation Orders.
From Coq.Strings Require Import Byte.
From EV Require Import Base.Bytes Model.Bech32.
Import ListNotations.
Open Scope N_scope.

Lemma sel_xorb a b g : sel (xorb a b) g = N.lxor (sel a g) (sel b g).
Proof. destruct a, b; cbn; now rewrite ?N.lxor_nilpotent, ?N.lxor_0_l, ?N.lxor_0_r. Qed.
Lemma lxor_swap4 a b c d : N.lxor (N.lxor a b) (N.lxor c d) = N.lxor (N.lxor a c) (N.lxor b d).
Proof. rewrite !N.lxor_assoc. f_equal. rewrite <- !N.lxor_assoc. f_equal. apply N.lxor_comm. Qed.
Lemma lxor_cancel a b c : N.lxor a b = N.lxor a c -> b = c.
Proof. intros H. rewrite <- (N.lxor_0_l b), <- (N.lxor_0_l c), <- (N.lxor_nilpotent a), !N.lxor_assoc, H. reflexivity. Qed.
Lemma mix_lin gen : forall i t t', mix (N.lxor t t') i gen = N.lxor (mix t i gen) (mix t' i gen).
Proof. induction gen as [|g r IH]; intros i t t'; cbn [mix]. { now rewrite N.lxor_0_l. }
  rewrite N.lxor_spec, sel_xorb, IH. apply lxor_swap4. Qed.
Lemma mix_0 gen : forall i, mix 0 i gen = 0.
Proof. induction gen as [|g r IH]; intros i; cbn [mix]; [reflexivity|]. rewrite N.bits_0, IH. reflexivity. Qed.
Lemma land_lxor_l a b m : N.land (N.lxor a b) m = N.lxor (N.land a m) (N.land b m).
Proof. apply N.bits_inj; intros n. rewrite !N.land_spec, !N.lxor_spec, !N.land_spec.
  destruct (N.testbit a n), (N.testbit b n), (N.testbit m n); reflexivity. Qed.
Lemma lt_pow2_iff v k : v <> 0 -> (v < 2 ^ k <-> N.log2 v < k).
Proof. intros NZ. apply N.log2_lt_pow2. lia. Qed.
Lemma lt_pow2_bits v k : v < 2 ^ k -> forall n, k <= n -> N.testbit v n = false.
Proof. intros Hv n Hn. destruct (N.eq_dec v 0) as [->|NZ]; [apply N.bits_0|].
  apply N.bits_above_log2. apply lt_pow2_iff in Hv; [lia|assumption]. Qed.
Lemma bits_lt_pow2 v k : (forall n, k <= n -> N.testbit v n = false) -> v < 2 ^ k.
Proof. intros H. destruct (N.eq_dec v 0) as [->|NZ]. { apply N.neq_0_lt_0, N.pow_nonzero. lia. }
  apply lt_pow2_iff; [assumption|]. destruct (N.lt_ge_cases (N.log2 v) k) as [L|L]; [assumption|].
  specialize (H _ L). rewrite N.bit_log2 in H by assumption. discriminate. Qed.
Lemma lxor_lt_pow2 a b k : a < 2 ^ k -> b < 2 ^ k -> N.lxor a b < 2 ^ k.
Proof. intros Ha Hb. apply bits_lt_pow2. intros n Hn. now rewrite N.lxor_spec, (lt_pow2_bits a k), (lt_pow2_bits b k). Qed.
Lemma lor_lt_pow2 a b k : a < 2 ^ k -> b < 2 ^ k -> N.lor a b < 2 ^ k.
Proof. intros Ha Hb. apply bits_lt_pow2. intros n Hn. now rewrite N.lor_spec, (lt_pow2_bits a k), (lt_pow2_bits b k). Qed.
Lemma lxor_lt32 a b : a < 32 -> b < 32 -> N.lxor a b < 32.
Proof. change 32 with (2 ^ 5). apply lxor_lt_pow2. Qed.
Lemma lor_low_is_lxor x v : v < 32 -> N.lor (N.shiftl x 5) v = N.lxor (N.shiftl x 5) v.
Proof. intros Hv. symmetry. apply N.lxor_lor. apply N.bits_inj; intros n. rewrite N.land_spec, N.bits_0.
  destruct (N.lt_ge_cases n 5) as [H|H].
  - rewrite N.shiftl_spec_low by assumption. reflexivity.
  - change 32 with (2 ^ 5) in Hv. rewrite (lt_pow2_bits v 5 Hv n H). apply andb_false_r. Qed.

Theorem step_linear gen sh s s' v v' : v < 32 -> v' < 32 ->
  step gen sh (N.lxor s s') (N.lxor v v') = N.lxor (step gen sh s v) (step gen sh s' v').
Proof. intros Hv Hv'. unfold step. pose proof (lxor_lt32 _ _ Hv Hv') as Hvv.
  rewrite !lor_low_is_lxor by assumption.
  rewrite N.shiftr_lxor, !land_lxor_l, N.shiftl_lxor, mix_lin.
  set (A := N.shiftl (N.land s (N.ones sh)) 5). set (B := N.shiftl (N.land s' (N.ones sh)) 5).
  set (M := mix _ 0 gen). set (M' := mix _ 0 gen).
  rewrite (lxor_swap4 A B v v'). apply lxor_swap4. Qed.

Lemma step_0_v gen sh v : step gen sh 0 v = v.
Proof. unfold step. rewrite N.shiftr_0_l, N.land_0_l, mix_0, N.shiftl_0_l, N.lor_0_l, N.lxor_0_r. reflexivity. Qed.

Section Engine.
Variable gen : list N. Variable sh : N.
Notation step := (step gen sh).
Definition feedg (s : N) (w : list N) : N := fold_left step w s.
Definition Zs (s : N) : N := step s 0.
Fixpoint Zp (n : nat) (s : N) : N := match n with O => s | S k => Zp k (Zs s) end.

Lemma step_split s v : v < 32 -> step s v = N.lxor (Zs s) v.
Proof. intros Hv. unfold Zs. rewrite <- (N.lxor_0_r s) at 1. rewrite <- (N.lxor_0_l v) at 1.
  rewrite step_linear by lia. now rewrite step_0_v. Qed.
Lemma Zs_lin a b : Zs (N.lxor a b) = N.lxor (Zs a) (Zs b).
Proof. unfold Zs. rewrite <- (N.lxor_0_r 0) at 1. apply step_linear; lia. Qed.
Lemma Zs_0 : Zs 0 = 0. Proof. apply step_0_v. Qed.
Lemma Zp_lin n : forall a b, Zp n (N.lxor a b) = N.lxor (Zp n a) (Zp n b).
Proof. induction n as [|n IH]; intros a b; cbn [Zp]; [reflexivity|]. now rewrite Zs_lin, IH. Qed.
Lemma Zp_0 n : Zp n 0 = 0.
Proof. induction n as [|n IH]; cbn [Zp]; [reflexivity|]. now rewrite Zs_0. Qed.
Lemma Zp_succ_r n : forall s, Zp (S n) s = Zs (Zp n s).
Proof. induction n as [|n IH]; intros s; [reflexivity|]. cbn [Zp] in *. now rewrite IH. Qed.
Lemma Zp_add d : forall a s, Zp (d + a) s = Zp a (Zp d s).
Proof. induction d as [|d IH]; intros a s; [reflexivity|]. cbn [Nat.add Zp]. apply IH. Qed.

Lemma feedg_app a b s : feedg s (a ++ b) = feedg (feedg s a) b.
Proof. apply fold_left_app. Qed.

Definition sym (v : N) : Prop := v < 32.
Definition syms (w : list N) : Prop := Forall sym w.

Fixpoint xorl (a b : list N) : list N :=
  match a, b with x :: a', y :: b' => N.lxor x y :: xorl a' b' | _, _ => [] end.
Lemma xorl_length a : forall b, length a = length b -> length (xorl a b) = length a.
Proof. induction a as [|x a IH]; intros [|y b] L; cbn in *; try lia. now rewrite IH by lia. Qed.
Lemma xorl_syms a : forall b, syms a -> syms b -> syms (xorl a b).
Proof. induction a as [|x a IH]; intros [|y b] Ha Hb; cbn [xorl]; try constructor.
  - inversion Ha; inversion Hb; subst. now apply lxor_lt32.
  - inversion Ha; inversion Hb; subst. now apply IH. Qed.
Lemma xorl_invol a : forall b, length a = length b -> xorl a (xorl a b) = b.
Proof. induction a as [|x a IH]; intros [|y b] L; cbn in *; try lia; [reflexivity|].
  rewrite IH by lia. f_equal. now rewrite <- N.lxor_assoc, N.lxor_nilpotent, N.lxor_0_l. Qed.

Lemma feed_linear w : forall w' s s', length w = length w' -> syms w -> syms w' ->
  feedg (N.lxor s s') (xorl w w') = N.lxor (feedg s w) (feedg s' w').
Proof. induction w as [|x w IH]; intros [|y w'] s s' L Hw Hw'; cbn in L; try lia; [reflexivity|].
  inversion Hw; inversion Hw'; subst. cbn [xorl feedg fold_left]. rewrite step_linear by assumption.
  apply IH; [lia|assumption|assumption]. Qed.

Fixpoint syn (e : list N) : N := match e with [] => 0 | x :: r => N.lxor (Zp (length r) x) (syn r) end.
Lemma syn_cons_0 r : syn (0 :: r) = syn r.
Proof. cbn [syn]. now rewrite Zp_0, N.lxor_0_l. Qed.
Lemma feed_split r : forall s, syms r -> feedg s r = N.lxor (Zp (length r) s) (feedg 0 r).
Proof. induction r as [|x r IH]; intros s Hr; cbn [feedg fold_left length Zp].
  - now rewrite N.lxor_0_r.
  - inversion Hr; subst. fold (feedg (step s x) r). fold (feedg (step 0 x) r).
    rewrite (IH (step s x)) by assumption. rewrite (IH (step 0 x)) by assumption.
    rewrite step_0_v, step_split by assumption. rewrite Zp_lin.
    rewrite !N.lxor_assoc. reflexivity. Qed.
Lemma feed0_syn e : syms e -> feedg 0 e = syn e.
Proof. induction e as [|x r IH]; intros He; [reflexivity|]. inversion He; subst.
  cbn [feedg fold_left syn]. fold (feedg (step 0 x) r). rewrite step_0_v, feed_split by assumption. now rewrite IH. Qed.

Theorem feed_syndrome s w e : length w = length e -> syms w -> syms e ->
  feedg s (xorl w e) = N.lxor (feedg s w) (syn e).
Proof. intros L Hw He. rewrite <- (N.lxor_0_r s) at 1. rewrite feed_linear by assumption. now rewrite feed0_syn. Qed.

Definition nz (x : N) : bool := negb (x =? 0).
Definition weight (e : list N) : nat := length (filter nz e).
Fixpoint hamming (a b : list N) : nat :=
  match a, b with x :: a', y :: b' => ((if N.eqb x y then 0 else 1) + hamming a' b')%nat | _, _ => 0%nat end.
Lemma weight_cons x r : weight (x :: r) = ((if N.eqb x 0 then 0 else 1) + weight r)%nat.
Proof. unfold weight. cbn [filter]. unfold nz. now destruct (x =? 0). Qed.
Lemma weight_xorl a : forall b, weight (xorl a b) = hamming a b.
Proof. induction a as [|x a IH]; intros [|y b]; cbn [xorl hamming]; try reflexivity. rewrite weight_cons, IH.
  destruct (N.eqb_spec x y) as [->|NE]; [now rewrite N.lxor_nilpotent|].
  destruct (N.eqb_spec (N.lxor x y) 0) as [E|_]; [apply N.lxor_eq in E; contradiction|reflexivity]. Qed.

Lemma feed_error s w w' : length w = length w' -> syms w -> syms w' ->
  feedg s w' = N.lxor (feedg s w) (syn (xorl w w')) /\ syms (xorl w w') /\ weight (xorl w w') = hamming w w'.
Proof. intros Len Hw Hw'. pose proof (xorl_syms w w' Hw Hw') as He. split; [|split; [exact He|apply weight_xorl]].
  rewrite <- (xorl_invol w w' Len) at 1. apply feed_syndrome; [now rewrite xorl_length|assumption|assumption]. Qed.

Lemma syn_weight0 e : weight e = 0%nat -> syn e = 0.
Proof. induction e as [|x r IH]; intros W; [reflexivity|]. rewrite weight_cons in W. destruct (N.eqb_spec x 0) as [->|NE]; [|discriminate W].
  rewrite syn_cons_0. now apply IH. Qed.
Lemma syn_weight1 e : syms e -> weight e = 1%nat ->
  exists a u, (a < length e)%nat /\ 0 < u < 32 /\ syn e = Zp a u.
Proof. induction e as [|x r IH]; intros He W; [discriminate|]. inversion He as [|? ? Hx Hr]; subst. rewrite weight_cons in W. cbn [length].
  destruct (N.eqb_spec x 0) as [->|NE].
  - destruct (IH Hr W) as (a & u & La & Hu & E). exists a, u. rewrite syn_cons_0. repeat split; lia || exact E.
  - exists (length r), x. unfold sym in Hx. cbn [syn]. rewrite (syn_weight0 r) by lia. rewrite N.lxor_0_r. repeat split; lia. Qed.
Lemma syn_weight2 e : syms e -> weight e = 2%nat ->
  exists a b u v, (a < b)%nat /\ (b < length e)%nat /\ 0 < u < 32 /\ 0 < v < 32 /\ syn e = N.lxor (Zp b v) (Zp a u).
Proof. induction e as [|x r IH]; intros He W; [discriminate|]. inversion He as [|? ? Hx Hr]; subst. rewrite weight_cons in W. cbn [length].
  destruct (N.eqb_spec x 0) as [->|NE].
  - destruct (IH Hr W) as (a & b & u & v & Lab & Lb & Hu & Hv & E). exists a, b, u, v. rewrite syn_cons_0. repeat split; lia || exact E.
  - destruct (syn_weight1 r Hr) as (a & u & La & Hu & E); [lia|].
    exists a, (length r), u, x. unfold sym in Hx. cbn [syn]. rewrite E. repeat split; lia. Qed.

Fixpoint orbit (n : nat) (s : N) : list N := match n with O => [] | S k => s :: orbit k (Zs s) end.
Definition table (L : nat) : list N := flat_map (fun u => orbit L (N.of_nat u)) (seq 1 31).

Lemma orbit_map n : forall s, orbit n s = map (fun a => Zp a s) (seq 0 n).
Proof. induction n as [|n IH]; intros s; [reflexivity|]. cbn [orbit seq map Zp]. f_equal.
  rewrite IH, <- seq_shift, map_map. reflexivity. Qed.
Lemma in_table_inv L x : In x (table L) -> exists a u, (a < L)%nat /\ 0 < u < 32 /\ x = Zp a u.
Proof. unfold table. rewrite in_flat_map. intros (u & Iu & Ix). rewrite orbit_map, in_map_iff in Ix. destruct Ix as (a & <- & Ia).
  apply in_seq in Iu, Ia. exists a, (N.of_nat u). repeat split; lia. Qed.
End Engine.

(* all xor-combinations of a non-empty selection of the entries *)
Fixpoint span (b : list N) : list N :=
  match b with [] => [] | x :: r => let s := span r in x :: s ++ map (N.lxor x) s end.
Lemma in_span_cons u x r : In u (span (x :: r)) <-> x = u \/ In u (span r) \/ exists y, N.lxor x y = u /\ In y (span r).
Proof. change (span (x :: r)) with (x :: span r ++ map (N.lxor x) (span r)). cbn [In]. now rewrite in_app_iff, in_map_iff. Qed.
Lemma span_map f b u : (forall x y, f (N.lxor x y) = N.lxor (f x) (f y)) -> In u (span b) -> In (f u) (span (map f b)).
Proof. intros Lin. revert u. induction b as [|x r IH]; intros u; cbn [map]; [intros []|]. rewrite !in_span_cons.
  intros [<-|[I|(y & <- & I)]]; [now left|right; left; now apply IH|].
  right; right. exists (f y). split; [now rewrite Lin|now apply IH]. Qed.
Definition basis : list N := [16; 8; 4; 2; 1].
Lemma span_basis u : 0 < u < 32 -> In u (span basis).
Proof. intros Hu. assert (E : existsb (N.eqb u) (span basis) = true).
  { assert (A : forallb (fun n => existsb (N.eqb (N.of_nat n)) (span basis)) (seq 1 31) = true) by reflexivity.
    rewrite forallb_forall in A. specialize (A (N.to_nat u)). rewrite Nnat.N2Nat.id in A. apply A, in_seq. lia. }
  apply existsb_exists in E as (x & I & E). apply N.eqb_eq in E. now subst. Qed.

Lemma span_fix f b : (forall x y, f (N.lxor x y) = N.lxor (f x) (f y)) -> map f b = b -> forall u, In u (span b) -> f u = u.
Proof. intros Lin. induction b as [|x r IH]; intros E u; [intros []|]. cbn [map] in E. injection E as Ex Er. rewrite in_span_cons.
  intros [<-|[I|(y & <- & I)]]; [assumption|now apply IH|]. now rewrite Lin, Ex, (IH Er y I). Qed.
Fixpoint eql (a b : list N) : bool := match a, b with [], [] => true | x :: a', y :: b' => (x =? y) && eql a' b' | _, _ => false end.
Lemma eql_eq a : forall b, eql a b = true -> a = b.
Proof. induction a as [|x a IH]; intros [|y b] E; try discriminate; [reflexivity|]. cbn in E. apply andb_true_iff in E as [E1 E2].
  apply N.eqb_eq in E1. now rewrite E1, (IH b E2). Qed.

Section Invertible.
Variable gen : list N. Variable sh : N.
Notation step := (step gen sh). Notation Zs := (Zs gen sh). Notation Zp := (Zp gen sh).

Definition gen_bounded : Prop := Forall (fun g => g < 2 ^ (sh + 5)) gen.
(* the five low bits of the feedback tell which symbol was shifted out *)
Definition low_ok : bool := forallb (fun t => negb (N.land (mix (N.of_nat t) 0 gen) 31 =? 0)) (seq 1 31).

Lemma sym_bound u : u < 32 -> u < 2 ^ (sh + 5).
Proof. intros H. apply N.lt_le_trans with (2 ^ 5); [exact H|]. apply N.pow_le_mono_r; lia. Qed.
Lemma mix_bound top : gen_bounded -> forall i, mix top i gen < 2 ^ (sh + 5).
Proof. unfold gen_bounded. induction gen as [|g r IH]; intros F i; cbn [mix]. { apply N.neq_0_lt_0, N.pow_nonzero. lia. }
  inversion F; subst. apply lxor_lt_pow2; [|now apply IH]. destruct (N.testbit top i); cbn [sel]; [assumption|]. apply N.neq_0_lt_0, N.pow_nonzero. lia. Qed.
Lemma step_bound s v : gen_bounded -> v < 32 -> step s v < 2 ^ (sh + 5).
Proof. intros G Hv. unfold Bech32.step. apply lxor_lt_pow2; [|now apply mix_bound]. apply lor_lt_pow2.
  - apply bits_lt_pow2. intros m Hm. rewrite N.shiftl_spec_high' by lia.
    rewrite N.land_spec, N.ones_spec_high by lia. apply andb_false_r.
  - exact (sym_bound v Hv). Qed.

Lemma feedg_bound w : gen_bounded -> syms w -> forall s, s < 2 ^ (sh + 5) -> feedg gen sh s w < 2 ^ (sh + 5).
Proof. intros GB Sw. induction Sw as [|v w Hv _ IH]; intros s Hs; [exact Hs|]. apply IH, step_bound; assumption. Qed.

(* Z r = (low part of r) << 5 xor feedback(top symbol of r): if it vanishes, its five low bits say the top symbol is 0,
   then the feedback is 0 and so is the low part *)
Lemma Zs_ker r : low_ok = true -> r < 2 ^ (sh + 5) -> Zs r = 0 -> r = 0.
Proof. intros LO Hr E. unfold Proofs.Bech32.Zs, Bech32.step in E. rewrite N.lor_0_r in E. apply N.lxor_eq in E.
  set (top := N.land (N.shiftr r sh) 31) in *.
  assert (Ht : top < 32) by (unfold top; change 31 with (N.ones 5); rewrite N.land_ones; now apply N.mod_lt).
  assert (T0 : top = 0).
  { destruct (N.eq_dec top 0) as [|NZ]; [assumption|exfalso].
    unfold low_ok in LO. rewrite forallb_forall in LO. specialize (LO (N.to_nat top)). rewrite Nnat.N2Nat.id, <- E in LO.
    assert (L0 : N.land (N.shiftl (N.land r (N.ones sh)) 5) 31 = 0).
    { change 31 with (N.ones 5). rewrite N.land_ones, N.shiftl_mul_pow2. apply N.mod_mul. discriminate. }
    rewrite L0 in LO. discriminate LO. apply in_seq. lia. }
  rewrite T0, mix_0 in E. apply N.shiftl_eq_0_iff in E.
  rewrite N.land_ones in E. unfold top in T0. change 31 with (N.ones 5) in T0. rewrite N.land_ones, N.shiftr_div_pow2 in T0.
  assert (P : 2 ^ (sh + 5) = 2 ^ sh * 32) by (rewrite N.pow_add_r; reflexivity).
  assert (NZ : 2 ^ sh <> 0) by (apply N.pow_nonzero; discriminate).
  assert (D : r / 2 ^ sh < 32) by (apply N.div_lt_upper_bound; lia).
  rewrite N.mod_small in T0 by assumption.
  rewrite (N.div_mod r (2 ^ sh) NZ), T0, E. lia. Qed.
Lemma Zs_inj s t : low_ok = true -> s < 2 ^ (sh + 5) -> t < 2 ^ (sh + 5) -> Zs s = Zs t -> s = t.
Proof. intros LO Hs Ht E. apply N.lxor_eq, (Zs_ker _ LO); [now apply lxor_lt_pow2|]. now rewrite Zs_lin, E, N.lxor_nilpotent. Qed.
Lemma Zp_bound : gen_bounded -> forall n s, s < 2 ^ (sh + 5) -> Zp n s < 2 ^ (sh + 5).
Proof. intros GB n. induction n as [|n IH]; intros s Hs; cbn [Proofs.Bech32.Zp]; [assumption|]. apply IH, step_bound; [assumption|reflexivity]. Qed.
Lemma Zp_inj : gen_bounded -> low_ok = true -> forall n s t, s < 2 ^ (sh + 5) -> t < 2 ^ (sh + 5) -> Zp n s = Zp n t -> s = t.
Proof. intros GB LO n. induction n as [|n IH]; intros s t Hs Ht E; cbn [Proofs.Bech32.Zp] in E; [assumption|].
  apply IH in E; [now apply Zs_inj|apply step_bound|apply step_bound]; (assumption || reflexivity). Qed.

Fixpoint orbits (n : nat) (b : list N) : list (list N) := match n with O => [] | S k => b :: orbits k (map Zs b) end.
Lemma in_orbits n : forall a b, (a < n)%nat -> In (map (Zp a) b) (orbits n b).
Proof. induction n as [|n IH]; intros a b H; [lia|]. cbn [orbits]. destruct a as [|a].
  - left. symmetry. apply map_id.
  - right. rewrite <- (map_map Zs (Zp a)). apply IH. lia. Qed.
(* Z^a is linear, so Z^a(u) for u = 1..31 are the xor-combinations of Z^a(16), ..., Z^a(1): five orbits stand for 31 *)
Lemma in_span_orbit a u : 0 < u < 32 -> In (Zp a u) (span (map (Zp a) basis)).
Proof. intros Hu. apply (span_map (Zp a)); [apply Zp_lin|now apply span_basis]. Qed.
(* the table of all Z^a(u), a < L, in another order *)
Definition stab (L : nat) : list N := flat_map span (orbits L basis).
Lemma in_stab L a u : (a < L)%nat -> 0 < u < 32 -> In (Zp a u) (stab L).
Proof. intros La Hu. apply in_flat_map. exists (map (Zp a) basis). split; [now apply in_orbits|now apply in_span_orbit]. Qed.

(* no single symbol comes back as a single symbol within a word of L symbols: Z^d(u) >= 32 for 1 <= d < L, u = 1..31.
   b runs through Z^1, Z^2, ... of the basis; the first h are tested, and after n steps the basis must be back: when Z^L is the
   identity on symbols, Z^d(u) = v gives Z^(L-d)(v) = u, so testing the first half of the positions is enough *)
Fixpoint far_cycle (n h : nat) (b : list N) : bool :=
  match n with
  | O => eql b basis
  | S n' => let b' := map Zs b in
            match h with O => far_cycle n' O b' | S h' => forallb (N.leb 32) (span b') && far_cycle n' h' b' end
  end.
Definition far_ok (L : nat) : bool := far_cycle L (L / 2) basis.
Definition code_ok (L : nat) : bool := forallb (fun g => g <? 2 ^ (sh + 5)) gen && low_ok && far_ok L.
Lemma code_ok_spec L : code_ok L = true -> gen_bounded /\ low_ok = true /\ far_ok L = true.
Proof. unfold code_ok. rewrite !andb_true_iff, forallb_forall. intros [[G LO] F]. repeat split; try assumption.
  apply Forall_forall. intros g Ig. now apply N.ltb_lt, G. Qed.
Lemma far_cycle_spec n : forall h j, far_cycle n h (map (Zp j) basis) = true ->
  (forall d u, (d < n)%nat -> (d < h)%nat -> 0 < u < 32 -> 32 <= Zp (S d + j) u) /\ map (Zp (n + j)) basis = basis.
Proof. induction n as [|n IH]; intros h j F; cbn [far_cycle] in F.
  - split; [intros; lia|]. now apply eql_eq.
  - rewrite map_map in F. rewrite (map_ext _ (Zp (S j))) in F by (intros; symmetry; apply Zp_succ_r).
    assert (T : far_cycle n (pred h) (map (Zp (S j)) basis) = true) by (destruct h; [exact F|now apply andb_true_iff in F]).
    destruct (IH _ _ T) as [A B]. split; [|now replace (S n + j)%nat with (n + S j)%nat by lia].
    intros d u Hd Hh Hu. destruct h as [|h]; [lia|]. apply andb_true_iff in F as [F _]. destruct d as [|d].
    + rewrite forallb_forall in F. apply N.leb_le, F. exact (in_span_orbit (S j) u Hu).
    + replace (S (S d) + j)%nat with (S d + S j)%nat by lia. apply A; [lia|cbn; lia|assumption]. Qed.

Lemma far_spec L d u : gen_bounded -> low_ok = true -> far_ok L = true -> (S d < L)%nat -> 0 < u < 32 -> 32 <= Zp (S d) u.
Proof. intros GB LO F Hd Hu. unfold far_ok in F. change (far_cycle L (L / 2) (map (Zp 0) basis) = true) in F. destruct (far_cycle_spec L (L / 2) 0%nat F) as [A B].
  rewrite Nat.add_0_r in B.
  assert (Fix : forall x, 0 < x < 32 -> Zp L x = x) by (intros x Hx; exact (span_fix (Zp L) basis (Zp_lin gen sh L) B x (span_basis x Hx))).
  destruct (Nat.le_gt_cases (S d) (L / 2)) as [H|H]. { rewrite <- (Nat.add_0_r (S d)). apply A; [lia|lia|assumption]. }
  destruct (N.le_gt_cases 32 (Zp (S d) u)) as [|V]; [assumption|exfalso]. set (v := Zp (S d) u) in *.
  assert (V0 : v <> 0). { intros E. unfold v in E. rewrite <- (Zp_0 gen sh (S d)) in E. apply Zp_inj in E; try assumption; [lia|now apply sym_bound|now apply sym_bound]. }
  pose proof (Nat.div_mod_eq L 2) as DM. pose proof (Nat.mod_upper_bound L 2 ltac:(discriminate)) as MB.
  assert (E : Zp (L - S d) v = u) by (unfold v; rewrite <- Zp_add; replace (S d + (L - S d))%nat with L by lia; now apply Fix).
  assert (X : 32 <= Zp (S (L - S d - 1) + 0) v) by (apply A; [lia|lia|lia]).
  replace (S (L - S d - 1) + 0)%nat with (L - S d)%nat in X by lia. lia. Qed.

(* position and value of an error are read off Z^a(u): undo the a common steps, then Z^d(v) is a bare symbol only for d = 0 *)
Lemma separated_le L a d u v : code_ok L = true -> (d + a < L)%nat -> 0 < u < 32 -> 0 < v < 32 -> Zp a u = Zp (d + a) v -> d = 0%nat /\ u = v.
Proof. intros OK Ha Hu Hv E. apply code_ok_spec in OK as (GB & LO & F). rewrite Zp_add in E.
  apply Zp_inj in E; [|assumption|assumption|now apply sym_bound|apply Zp_bound; [assumption|now apply sym_bound]].
  destruct d as [|d]; [now split|]. pose proof (far_spec L d v GB LO F) as X. rewrite <- E in X. lia. Qed.
Theorem separated L a b u v : code_ok L = true -> (a < L)%nat -> (b < L)%nat -> 0 < u < 32 -> 0 < v < 32 -> Zp a u = Zp b v -> a = b /\ u = v.
Proof. intros OK La Lb Hu Hv E. destruct (Nat.le_ge_cases a b) as [H|H].
  - replace b with (b - a + a)%nat in E, Lb by lia. destruct (separated_le L a (b - a) u v OK Lb Hu Hv E) as [D ->]. split; [lia|reflexivity].
  - replace a with (a - b + b)%nat in E, La by lia. destruct (separated_le L b (a - b) v u OK La Hv Hu (eq_sym E)) as [D ->]. split; [lia|reflexivity]. Qed.
Lemma Zp_nonzero L a u : code_ok L = true -> 0 < u < 32 -> Zp a u <> 0.
Proof. intros OK Hu E. apply code_ok_spec in OK as (GB & LO & _). rewrite <- (Zp_0 gen sh a) in E.
  apply Zp_inj in E; [lia|assumption|assumption|now apply sym_bound|now apply sym_bound]. Qed.
End Invertible.

Lemma NoDup_flat_map_intro {A B} (g : A -> list B) l : NoDup l -> (forall x, In x l -> NoDup (g x)) ->
  (forall x y b, In x l -> In y l -> In b (g x) -> In b (g y) -> x = y) -> NoDup (flat_map g l).
Proof. induction l as [|z l IH]; intros ND P D; [constructor|]. inversion ND as [|? ? NI ND']; subst. cbn [flat_map]. apply NoDup_app_intro.
  - apply P. now left.
  - apply IH; [assumption|intros; apply P; now right|]. intros x y b Ix Iy. apply D; now right.
  - intros b Bz Bl. apply in_flat_map in Bl as (y & Iy & By). apply NI. now rewrite (D z y b (or_introl eq_refl) (or_intror Iy) Bz By). Qed.
Lemma NoDup_map_intro {A B} (f : A -> B) l : NoDup l -> (forall a b, In a l -> In b l -> f a = f b -> a = b) -> NoDup (map f l).
Proof. induction l as [|x l IH]; intros ND I; [constructor|]. inversion ND as [|? ? NI ND']; subst. cbn. constructor.
  - rewrite in_map_iff. intros (y & E & Iy). apply NI. now rewrite (I x y (or_introl eq_refl) (or_intror Iy) (eq_sym E)).
  - apply IH; [assumption|]. intros a b Ia Ib. apply I; now right. Qed.

Module NOrder <: TotalLeBool.
  Definition t := N. Definition leb := N.leb.
  Theorem leb_total : forall a1 a2, leb a1 a2 = true \/ leb a2 a1 = true.
  Proof. intros a b. unfold leb. destruct (N.leb_spec a b); [now left|right]. apply N.leb_le. lia. Qed.
End NOrder.
Module NSort := Sort NOrder.
Fixpoint adj_distinct (l : list N) : bool :=
  match l with a :: ((b :: _) as r) => negb (a =? b) && adj_distinct r | _ => true end.
Definition nodupb (l : list N) : bool := adj_distinct (NSort.sort l).

Lemma nodup_adj_distinct l : NoDup l -> adj_distinct l = true.
Proof. induction l as [|a l IH]; intros ND; [reflexivity|]. inversion ND as [|? ? NI ND']; subst. destruct l as [|b r]; [reflexivity|].
  cbn [adj_distinct] in *. rewrite (IH ND'), andb_true_r. apply negb_true_iff, N.eqb_neq. intros ->. apply NI. now left. Qed.
Lemma nodupb_complete l : NoDup l -> nodupb l = true.
Proof. intros ND. apply nodup_adj_distinct, (Permutation_NoDup (NSort.Permuted_sort l) ND). Qed.

(* a finite set of numbers as a binary trie over their bits; all that is used is that an inserted number is found *)
Inductive trie := Leaf | Node (here : bool) (l r : trie).
Fixpoint tins (p : positive) (t : trie) : trie :=
  let '(h, l, r) := match t with Leaf => (false, Leaf, Leaf) | Node h l r => (h, l, r) end in
  match p with xH => Node true l r | xO q => Node h (tins q l) r | xI q => Node h l (tins q r) end.
Fixpoint tmem (p : positive) (t : trie) : bool :=
  match t with Leaf => false | Node h l r => match p with xH => h | xO q => tmem q l | xI q => tmem q r end end.
Lemma tmem_ins p : forall t, tmem p (tins p t) = true.
Proof. induction p as [p IH|p IH|]; intros [|h l r]; cbn [tins tmem]; auto. Qed.
Lemma tmem_ins_other p : forall q t, tmem q t = true -> tmem q (tins p t) = true.
Proof. induction p as [p IH|p IH|]; intros [q|q|] [|h l r]; cbn [tins tmem]; auto; discriminate. Qed.
Definition tset (l : list N) : trie := fold_left (fun t x => tins (N.succ_pos x) t) l Leaf.
Definition tin (x : N) (t : trie) : bool := tmem (N.succ_pos x) t.
Lemma tset_in l x : In x l -> tin x (tset l) = true.
Proof. unfold tset, tin. generalize Leaf. induction l as [|y l IH]; intros t []; cbn [fold_left]; [subst y|now apply IH].
  generalize (tmem_ins (N.succ_pos x) t). generalize (tins (N.succ_pos x) t). clear.
  induction l as [|y l IH]; intros t H; cbn [fold_left]; [assumption|]. now apply IH, tmem_ins_other. Qed.

Section Distance.
Variable gen : list N. Variable sh : N.
Notation feedg := (feedg gen sh). Notation Zp := (Zp gen sh). Notation table := (table gen sh). Notation syn := (syn gen sh).

(* C17_table's boolean: all Z^a(u), a < L, u = 1..31, pairwise distinct and non-zero *)
Definition table_ok (L : nat) : bool := let t := table L in nodupb t && negb (existsb (N.eqb 0) t).
(* C17_switch's boolean for a residue difference D: D is not a two-error syndrome (no D xor Z^a(u) is a Z^b(v)), not a
   one-error syndrome, and not zero *)
Definition switch_ok (L : nat) (D : N) : bool :=
  let t := stab gen sh L in let S := tset t in negb (existsb (fun x => tin (N.lxor D x) S) t) && negb (tin D S) && negb (D =? 0).

(* the quadratic-size statement of C17_table follows from the linear-size certificate *)
Theorem table_ok_complete L : code_ok gen sh L = true -> table_ok L = true.
Proof. intros OK. unfold table_ok. apply andb_true_intro. split.
  - apply nodupb_complete. unfold Bech32.table. apply NoDup_flat_map_intro; [apply seq_NoDup| |].
    + intros u Iu. rewrite orbit_map. apply NoDup_map_intro; [apply seq_NoDup|]. intros a b Ia Ib E. apply in_seq in Iu, Ia, Ib.
      apply (separated gen sh L a b _ _ OK) in E; [tauto|lia..].
    + intros u v x Iu Iv Xu Xv. rewrite orbit_map, in_map_iff in Xu, Xv. destruct Xu as (a & <- & Ia), Xv as (b & E & Ib).
      apply in_seq in Iu, Iv, Ia, Ib. apply (separated gen sh L b a _ _ OK) in E; [lia|lia..].
  - apply negb_true_iff. destruct (existsb _ _) eqn:X; [exfalso|reflexivity].
    apply existsb_exists in X as (x & Ix & E). apply N.eqb_eq in E. subst x. apply in_table_inv in Ix as (a & u & _ & Hu & E).
    exact (Zp_nonzero gen sh L a u OK Hu (eq_sym E)). Qed.

Theorem distance3 L : code_ok gen sh L = true -> forall s w w', length w = length w' -> (length w <= L)%nat ->
  syms w -> syms w' -> (1 <= hamming w w' <= 2)%nat -> feedg s w' <> feedg s w.
Proof. intros OK s w w' Len LL Hw Hw' Hd. pose proof (xorl_length w w' Len) as Le.
  destruct (feed_error gen sh s w w' Len Hw Hw') as (-> & He & W). set (e := xorl w w') in *.
  intros E. assert (S0 : syn e = 0) by (apply (lxor_cancel (feedg s w)); now rewrite N.lxor_0_r).
  assert (C : weight e = 1%nat \/ weight e = 2%nat) by lia. destruct C as [C|C].
  - destruct (syn_weight1 gen sh e He C) as (a & u & La & Hu & Es). rewrite Es in S0. exact (Zp_nonzero gen sh L a u OK Hu S0).
  - destruct (syn_weight2 gen sh e He C) as (a & b & u & v & Lab & Lb & Hu & Hv & Es). rewrite Es in S0. apply N.lxor_eq in S0.
    apply (separated gen sh L) in S0; try lia; try assumption. Qed.

Theorem distance3_switch L D : switch_ok L D = true -> forall s w w', length w = length w' -> (length w <= L)%nat ->
  syms w -> syms w' -> (hamming w w' <= 2)%nat -> feedg s w' <> N.lxor (feedg s w) D.
Proof. intros OK s w w' Len LL Hw Hw' Hd. unfold switch_ok in OK. apply andb_true_iff in OK as [OK DZ]. apply andb_true_iff in OK as [N2 N1].
  apply negb_true_iff in N2, N1. apply negb_true_iff, N.eqb_neq in DZ. pose proof (xorl_length w w' Len) as Le.
  destruct (feed_error gen sh s w w' Len Hw Hw') as (-> & He & W). set (e := xorl w w') in *.
  intros E. assert (S0 : syn e = D) by (apply (lxor_cancel (feedg s w)); exact E).
  assert (C : weight e = 0%nat \/ weight e = 1%nat \/ weight e = 2%nat) by lia. destruct C as [C|[C|C]].
  - rewrite (syn_weight0 gen sh e C) in S0. congruence.
  - destruct (syn_weight1 gen sh e He C) as (a & u & La & Hu & Es). rewrite <- S0, Es, tset_in in N1; [discriminate|]. apply in_stab; [lia|assumption].
  - destruct (syn_weight2 gen sh e He C) as (a & b & u & v & Lab & Lb & Hu & Hv & Es).
    assert (X : existsb (fun x => tin (N.lxor D x) (tset (stab gen sh L))) (stab gen sh L) = true); [|congruence].
    apply existsb_exists. exists (Zp a u). split; [apply in_stab; [lia|assumption]|].
    rewrite <- S0, Es, N.lxor_assoc, N.lxor_nilpotent, N.lxor_0_r. apply tset_in, in_stab; [lia|assumption]. Qed.
End Distance.

Definition sym_word (w : list N) : Prop := Forall (fun v => v < 32) w.

Lemma feed_feedg c s w : feed c s w = feedg (c_gen c) (shift_of c) s w.
Proof. reflexivity. Qed.
Lemma valid_codeword_iff c w : valid_codeword c w = true <-> feedg (c_gen c) (shift_of c) 1 w = c_target c.
Proof. apply N.eqb_eq. Qed.
Lemma valid_codeword_false c w : valid_codeword c w = false <-> feedg (c_gen c) (shift_of c) 1 w <> c_target c.
Proof. apply N.eqb_neq. Qed.
Lemma residue_app c p w : sym_word w ->
  residue c (p ++ w) = N.lxor (Zp (c_gen c) (shift_of c) (length w) (residue c p)) (feedg (c_gen c) (shift_of c) 0 w).
Proof. intros Sw. unfold residue. rewrite !feed_feedg, feedg_app. now apply feed_split. Qed.

Lemma two_errors (c : code) L : code_ok (c_gen c) (shift_of c) L = true ->
  forall w w', sym_word w -> sym_word w' -> length w = length w' -> (length w <= L)%nat -> (1 <= hamming w w' <= 2)%nat ->
  valid_codeword c w = true -> valid_codeword c w' = false.
Proof. intros OK w w' Hw Hw' Len LL Hd V. apply valid_codeword_iff in V. apply valid_codeword_false.
  rewrite <- V. exact (distance3 (c_gen c) (shift_of c) L OK 1 w w' Len LL Hw Hw' Hd). Qed.

Lemma switch_errors (c0 cm : code) L : c_gen c0 = c_gen cm -> c_len c0 = c_len cm ->
  switch_ok (c_gen c0) (shift_of c0) L (N.lxor (c_target c0) (c_target cm)) = true ->
  forall w w', sym_word w -> sym_word w' -> length w = length w' -> (length w <= L)%nat -> (hamming w w' <= 2)%nat ->
  (valid_codeword c0 w = true -> valid_codeword cm w' = false) /\ (valid_codeword cm w = true -> valid_codeword c0 w' = false).
Proof. intros EG EL OK w w' Hw Hw' Len LL Hd.
  assert (ES : shift_of c0 = shift_of cm) by (unfold shift_of; now rewrite EL).
  pose proof (distance3_switch (c_gen c0) (shift_of c0) L _ OK 1 w w' Len LL Hw Hw' Hd) as NE.
  rewrite !valid_codeword_iff, !valid_codeword_false, <- EG, <- ES.
  split; intros V E; apply NE; rewrite E, V.
  - now rewrite <- N.lxor_assoc, N.lxor_nilpotent, N.lxor_0_l.
  - now rewrite (N.lxor_comm (c_target c0)), <- N.lxor_assoc, N.lxor_nilpotent, N.lxor_0_l. Qed.

Lemma hamming_app p : forall w w', hamming (p ++ w) (p ++ w') = hamming w w'.
Proof. induction p as [|x p IH]; intros w w'; [reflexivity|]. cbn [app hamming]. now rewrite N.eqb_refl, IH. Qed.
Lemma hamming_refl w : hamming w w = 0%nat.
Proof. induction w as [|x w IH]; [reflexivity|]. cbn [hamming]. now rewrite N.eqb_refl, IH. Qed.

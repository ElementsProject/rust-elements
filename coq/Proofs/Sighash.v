(* C03 — proofs: the implementation model's pre-images equal the specification's messages (refinement), irrelevance of
   uncommitted fields, and (partial) sensitivity to committed ones: the fields a message states outright, hashed parts up to a
   collision.  Sensitivity to every committed field is Proofs/SighashCommit*.v. *)
From Coq Require Import List Arith NArith Bool Lia.
From Coq.Strings Require Import Byte.
From EV Require Import Base.Bytes Base.Codec Gen.Tables Model.Tx Model.SighashImpl Model.SighashCache Model.SighashSpec Model.SighashQuery
  Proofs.Tx Proofs.SighashCache.
Import ListNotations.
Open Scope N_scope.
Set Default Timeout 120.

(* the sighash types: the split tables of the Rust text against the hash-type arithmetic of the specification *)
Lemma ecdsa_split_flags ty : exists b, ecdsa_split ty = (b, anyone_can_pay (ecdsa_u32 ty)) /\
  ecdsa_eqb b ESingle = hash_single (ecdsa_u32 ty) /\ ecdsa_eqb b ENone = hash_none (ecdsa_u32 ty) /\
  ecdsa_eqb b EAll = negb (hash_single (ecdsa_u32 ty)) && negb (hash_none (ecdsa_u32 ty)).
Proof. destruct ty; eexists; vm_compute; auto. Qed.
Definition tap_single (ty : schnorr_ty) : bool := schnorr_eqb ty SSingle || schnorr_eqb ty SSingleAcp.
Lemma schnorr_split_flags ty : ty <> SReserved ->
  tap_type_valid (schnorr_u8 ty) = true /\ tap_single ty = (tap_output_type (schnorr_u8 ty) =? SIGHASH_SINGLE) /\
  exists b, schnorr_split ty = (b, tap_input_acp (schnorr_u8 ty)) /\
    schnorr_eqb b SSingle = (tap_output_type (schnorr_u8 ty) =? SIGHASH_SINGLE) /\
    negb (schnorr_eqb b SNone) && negb (schnorr_eqb b SSingle) = (tap_output_type (schnorr_u8 ty) =? SIGHASH_ALL).
Proof. destruct ty; try congruence; intros _; do 2 (split; [reflexivity|]); eexists; vm_compute; auto. Qed.
Lemma none_not_single ht : hash_none ht = true -> hash_single ht = false.
Proof. unfold hash_none, hash_single. intros E. apply N.eqb_eq in E. rewrite E. reflexivity. Qed.

Section ENC.
Variable pt_ok : bytes -> bool.
Variable maxvec : N.

Lemma e_script_ser b : e_script maxvec b = ser_bytes b. Proof. reflexivity. Qed.
Lemma e_issuance_ser i : e_issuance pt_ok i = ser_issuance pt_ok i. Proof. reflexivity. Qed.
Lemma e_outpoint_ser o : e_outpoint o = ser_outpoint o. Proof. reflexivity. Qed.
Lemma e_txout_ser o : e_txout pt_ok maxvec o = ser_txout pt_ok o. Proof. reflexivity. Qed.
Lemma e_rangeproof_ser p : e_rangeproof maxvec p = ser_proof p. Proof. destruct p; reflexivity. Qed.
Lemma e_surjproof_ser p : e_surjproof maxvec p = ser_proof p. Proof. destruct p; reflexivity. Qed.
Lemma e_outwit_ser o : e_outwit maxvec (out_wit o) = output_witness o.
Proof. unfold output_witness. rewrite <- e_surjproof_ser, <- e_rangeproof_ser. reflexivity. Qed.
Lemma has_issuance_null i : has_issuance i = negb (issuance_null i). Proof. reflexivity. Qed.
Lemma outpoint_flag_eq i : outpoint_flag i = outpoint_flag_byte i.
Proof. unfold outpoint_flag, outpoint_flag_byte. rewrite has_issuance_null. destruct (in_pegin i), (issuance_null i); reflexivity. Qed.
Lemma iss_or_zero i : (if has_issuance i then e_issuance pt_ok (in_iss i) else [x00]) = issuance_or_zero pt_ok i.
Proof. unfold issuance_or_zero. rewrite has_issuance_null. destruct (issuance_null i); reflexivity. Qed.

Lemma e_txin_canonical i : wire_has_issuance (wire_vout i) = has_issuance i -> e_txin pt_ok maxvec i = enc (c_txin pt_ok maxvec) i.
Proof. intros E. unfold e_txin, c_txin, c_txin_nowit, c_conv, c_txin_wire, c_dep; cbn [enc wire_of_txin fst snd]. rewrite E.
  destruct (has_issuance i); cbn [enc c_txin_head c_pair c_conv c_unit]; rewrite <- ?app_assoc; reflexivity. Qed.
End ENC.

Section LEGACY.
Variable pt_ok : bytes -> bool.
Variable maxvec : N.
Notation e_txin := (e_txin pt_ok maxvec).
Notation e_txout := (e_txout pt_ok maxvec).

(* the inputs and outputs that are signed, as in-memory values: what the implementation builds and serializes, and what the
   specification's SerializeInput / SerializeOutput write *)
Definition sig_in (ht : N) (idx : nat) (sc : bytes) (n : nat) (i : txin) : txin :=
  {| in_prev := in_prev i; in_pegin := in_pegin i; in_script := (if Nat.eqb n idx then sc else []);
     in_seq := (if negb (Nat.eqb n idx) && (hash_single ht || hash_none ht) then 0 else in_seq i); in_iss := in_iss i; in_wit := empty_inwit |}.
Definition sig_ins (ht : N) (idx : nat) (sc : bytes) (t : tx) (me : txin) : list txin :=
  if anyone_can_pay ht then [sig_in ht idx sc idx me] else mapi (sig_in ht idx sc) (tx_in t).
Definition sig_out (ht : N) (idx : nat) (n : nat) (o : txout) : txout := if hash_single ht && negb (Nat.eqb n idx) then null_txout else strip_out o.
Definition sig_outs (ht : N) (idx : nat) (t : tx) : list txout :=
  if hash_none ht then [] else if hash_single ht then mapi (sig_out ht idx) (firstn (idx + 1) (tx_out t)) else map strip_out (tx_out t).

Lemma legacy_input_sig ht idx sc n i : legacy_input pt_ok true ht idx sc n i = e_txin (sig_in ht idx sc n i).
Proof. unfold SighashImpl.e_txin, legacy_input, legacy_prevout, index_with_flags, wire_vout, has_issuance, issuance_null.
  cbn [sig_in in_prev in_pegin in_script in_seq in_iss]. rewrite <- !app_assoc. repeat f_equal.
  - destruct (Nat.eqb n idx); reflexivity.
  - destruct (issuance_is_null (in_iss i)); reflexivity. Qed.
Lemma legacy_output_sig ht idx n o : legacy_output pt_ok ht idx n o = e_txout (sig_out ht idx n o).
Proof. unfold legacy_output, sig_out. destruct (hash_single ht && negb (Nat.eqb n idx)); reflexivity. Qed.

Lemma spec_legacy_msg_sig t idx sc ht me : nth_error (tx_in t) idx = Some me -> legacy_single_bug t idx ht = false ->
  spec_legacy_msg pt_ok true t idx sc ht =
  Some (ser_u32 (tx_version t) ++ e_txins pt_ok maxvec (sig_ins ht idx sc t me) ++ e_txouts pt_ok maxvec (sig_outs ht idx t) ++ ser_u32 (tx_lock t) ++ ser_u32 ht).
Proof. intros N Bug. unfold spec_legacy_msg, e_txins, e_txouts, sig_ins, sig_outs, mapi, compact_size. rewrite N, Bug. do 2 f_equal. f_equal; [|f_equal].
  - destruct (anyone_can_pay ht); [cbn; now rewrite app_nil_r, legacy_input_sig|].
    rewrite mapi_from_length. f_equal. rewrite <- concat_mapi_flat_map. f_equal. apply mapi_from_ext, legacy_input_sig.
  - unfold legacy_single_bug in Bug. destruct (hash_none ht); [reflexivity|]. destruct (hash_single ht); cbn [andb] in Bug.
    + apply Nat.leb_gt in Bug. rewrite mapi_from_length, firstn_length. replace (Nat.min (idx + 1) (length (tx_out t))) with (idx + 1)%nat by lia.
      f_equal. rewrite <- concat_mapi_flat_map. f_equal. apply mapi_from_ext, legacy_output_sig.
    + rewrite map_length, flat_map_concat_map, map_map. reflexivity. Qed.

Lemma spec_legacy_msg_some flags t idx sc ht m : spec_legacy_msg pt_ok flags t idx sc ht = Some m ->
  exists me, nth_error (tx_in t) idx = Some me /\ legacy_single_bug t idx ht = false.
Proof. unfold spec_legacy_msg. destruct (nth_error (tx_in t) idx) as [me|]; [|discriminate]. destruct (legacy_single_bug t idx ht); [discriminate|]. eauto. Qed.

(* the implementation serializes the same lists (it keeps the witness of a signed output, which the encoder does not write) *)
Lemma e_txouts_strip l : e_txouts pt_ok maxvec (map strip_out l) = e_txouts pt_ok maxvec l.
Proof. unfold e_txouts. now rewrite map_length, !flat_map_concat_map, map_map. Qed.
Lemma e_txouts_single ht idx l : hash_single ht = true ->
  e_txouts pt_ok maxvec (mapi (sig_out ht idx) l) = e_txouts pt_ok maxvec (mapi (fun k a => if Nat.eqb k idx then a else default_txout) l).
Proof. intros Hs. unfold e_txouts, mapi. rewrite !mapi_from_length, <- !concat_mapi_flat_map. do 2 f_equal. apply mapi_from_ext. intros k a.
  unfold sig_out. rewrite Hs. now destruct (Nat.eqb k idx). Qed.

Theorem legacy_refines t idx sc ty m :
  spec_legacy_msg pt_ok true t idx sc (ecdsa_u32 ty) = Some m -> legacy_encode_tx pt_ok maxvec t idx sc ty = SOk m.
Proof. intros S. destruct (spec_legacy_msg_some _ _ _ _ _ _ S) as (me & Nth & Bug).
  rewrite (spec_legacy_msg_sig _ _ _ _ _ Nth Bug) in S. apply Some_inj in S. subst m. unfold legacy_encode_tx.
  assert (Lt : (idx < length (tx_in t))%nat) by (apply nth_error_Some; congruence). apply Nat.ltb_lt in Lt. rewrite Lt. cbn [negb].
  destruct (ecdsa_split_flags ty) as (b & -> & -> & -> & ->). cbv iota beta. unfold legacy_single_bug in Bug. rewrite Bug, Nth, !map_enumerate.
  unfold sig_ins, sig_outs, sig_in. destruct (hash_none (ecdsa_u32 ty)) eqn:Hn; [rewrite (none_not_single _ Hn)|destruct (hash_single (ecdsa_u32 ty)) eqn:Hs];
    rewrite ?e_txouts_strip, ?(e_txouts_single _ _ _ Hs); cbn [negb andb]; destruct (anyone_can_pay (ecdsa_u32 ty)); cbv iota; rewrite <- !app_assoc.
  all: rewrite ?Nat.eqb_refl; reflexivity. Qed.
End LEGACY.

Section EVAL.
Variable pt_ok : bytes -> bool.
Variable maxvec : N.
Variable H : bytes -> bytes.
Variable t : tx.
Variable spent : list txout.
Notation Ev := (Ev pt_ok maxvec H t spent).
Lemma Ev_bind_lift_err {A B} e (k : A -> M B) : Ev (bind (lift (SErr e)) k) (SErr e).
Proof. apply Ev_bind_err, Ev_lift. Qed.
Lemma Ev_bind_lift_panic {A B} (k : A -> M B) : Ev (bind (lift SPanic) k) SPanic.
Proof. apply Ev_bind_panic, Ev_lift. Qed.
End EVAL.

(* run the reads that open a query: the transaction, a cache, a value already computed *)
Ltac ev := repeat (eapply Ev_bind_ok; [first [apply Ev_get_tx | apply Ev_common | apply Ev_segwit | apply Ev_taproot | apply Ev_lift]|]).

Section SEGWIT.
Variable pt_ok : bytes -> bool.
Variable maxvec : N.
Variable H : bytes -> bytes.

Lemma compute_common_spec t : compute_common pt_ok maxvec H t =
  {| cc_prevouts := sha_prevouts H t; cc_sequences := sha_sequences H t; cc_outputs := sha_outputs pt_ok H t; cc_issuances := sha_issuances pt_ok H t;
     cc_output_witnesses := sha_output_witnesses H t |}.
Proof. unfold compute_common, sha_prevouts, sha_sequences, sha_outputs, sha_issuances, sha_output_witnesses. rewrite !flat_map_concat_map. do 3 f_equal.
  apply map_ext, (iss_or_zero pt_ok). Qed.
Lemma compute_segwit_spec t : compute_segwit H (compute_common pt_ok maxvec H t) =
  {| sc_prevouts := hash_prevouts H t; sc_sequences := hash_sequence H t; sc_issuances := hash_issuance pt_ok H t; sc_outputs := hash_outputs pt_ok H t |}.
Proof. now rewrite compute_common_spec. Qed.

Lemma compute_taproot_spec t sp : compute_taproot pt_ok maxvec H t sp =
  {| tc_script_pubkeys := sha_scriptpubkeys H sp; tc_outpoint_flags := sha_outpoint_flags H t; tc_asset_amounts := sha_asset_amounts pt_ok H sp;
     tc_issuance_rangeproofs := sha_issuance_rangeproofs H t |}.
Proof. unfold compute_taproot, sha_scriptpubkeys, sha_outpoint_flags, sha_asset_amounts, sha_issuance_rangeproofs. rewrite !flat_map_concat_map. do 2 f_equal.
  apply map_ext. intros. now rewrite outpoint_flag_eq. Qed.

(* the writer in any good state: the specification's message, and the documented panic exactly where the specification defines none *)
Theorem segwit_encode_ev t spent idx sc v ty :
  Ev pt_ok maxvec H t spent (segwit_encode pt_ok maxvec H idx sc v ty)
     (match spec_segwit_msg pt_ok H t idx sc v (ecdsa_u32 ty) with Some m => SOk m | None => SPanic end).
Proof. unfold spec_segwit_msg, segwit_encode.
  ev. destruct (ecdsa_split_flags ty) as (b & -> & -> & -> & _). cbv zeta iota beta.
  eapply Ev_bind_ok; [apply Ev_if_app; ev; apply Ev_ret|]. eapply Ev_bind_ok; [apply Ev_if_app; ev; apply Ev_ret|].
  eapply Ev_bind_ok; [apply Ev_if_app; ev; apply Ev_ret|].
  destruct (nth_error (tx_in t) idx) as [me|]; [|apply Ev_bind_lift_panic]. ev.
  destruct (nth_error (tx_out t) idx) as [o|] eqn:No.
  - assert (Lt : (idx < length (tx_out t))%nat) by (apply nth_error_Some; congruence). apply Nat.ltb_lt in Lt. rewrite Lt, andb_true_r.
    eapply Ev_bind_ok; [apply Ev_if_app; [|apply Ev_if_app]; ev; apply Ev_ret|]. apply Ev_ret_eq.
    rewrite compute_segwit_spec, has_issuance_null. destruct (issuance_null me); cbn [negb]; rewrite <- !app_assoc; reflexivity.
  - apply nth_error_None, Nat.ltb_ge in No. rewrite No, andb_false_r.
    eapply Ev_bind_ok; [apply Ev_if_app; ev; apply Ev_ret|]. apply Ev_ret_eq.
    rewrite compute_segwit_spec, has_issuance_null. destruct (issuance_null me); cbn [negb]; rewrite <- !app_assoc; destruct (hash_single (ecdsa_u32 ty)); reflexivity. Qed.
End SEGWIT.

Section TAPMSG.
Variable pt_ok : bytes -> bool.
Variable H : bytes -> bytes.

Definition tap_single_part (t : tx) (idx : nat) (ht : N) : option bytes :=
  if tap_output_type ht =? SIGHASH_SINGLE
  then option_map (fun o => H (ser_txout pt_ok o) ++ H (output_witness o)) (nth_error (tx_out t) idx) else Some [].
(* the three transaction-dependent parts: the sub-hashes over all inputs and spent outputs, those over all outputs, the signed input;
   then the message once its input `me`, the output `prev` it spends and the SIGHASH_SINGLE part `so` are known *)
Definition tap_inputs_msg (t : tx) (spent : list txout) : list byte :=
  sha_outpoint_flags H t ++ sha_prevouts H t ++ sha_asset_amounts pt_ok H spent ++ sha_scriptpubkeys H spent
  ++ sha_sequences H t ++ sha_issuances pt_ok H t ++ sha_issuance_rangeproofs H t.
Definition tap_outputs_msg (t : tx) : list byte := sha_outputs pt_ok H t ++ sha_output_witnesses H t.
Definition tap_input_msg (me : txin) (prev : txout) : list byte :=
  [n2b (outpoint_flag_byte me)] ++ ser_outpoint (in_prev me)
  ++ ser_asset pt_ok (out_asset prev) ++ ser_value pt_ok (out_value prev) ++ ser_bytes (out_script prev)
  ++ ser_u32 (in_seq me)
  ++ (if issuance_null me then [x00] else ser_issuance pt_ok (in_iss me) ++ H (issuance_proofs me)).
Definition tap_msg (t : tx) (spent : list txout) (idx : nat) (annex : option bytes) (leaf : option (bytes * N)) (ht : N) (g : bytes)
                   (me : txin) (prev : txout) (so : bytes) : bytes :=
  g ++ g ++ [n2b ht] ++ ser_u32 (tx_version t) ++ ser_u32 (tx_lock t)
  ++ (if tap_input_acp ht then [] else tap_inputs_msg t spent)
  ++ (if tap_output_type ht =? SIGHASH_ALL then tap_outputs_msg t else [])
  ++ [n2b (2 * (if leaf then 1 else 0) + (if annex then 1 else 0))]
  ++ (if tap_input_acp ht then tap_input_msg me prev else ser_u32 (N.of_nat idx))
  ++ (match annex with Some a => H (ser_bytes a) | None => [] end)
  ++ so
  ++ (match leaf with Some (tapleaf_hash, codesep_pos) => tapleaf_hash ++ [x00] ++ ser_u32 codesep_pos | None => [] end).

Lemma spec_taproot_msg_inv t spent idx annex leaf ht g m : spec_taproot_msg pt_ok H t spent idx annex leaf ht g = Some m ->
  tap_type_valid ht = true /\ length spent = length (tx_in t) /\ annex_valid annex = true /\
  exists me prev so, nth_error (tx_in t) idx = Some me /\ nth_error spent idx = Some prev /\ tap_single_part t idx ht = Some so /\
                     m = tap_msg t spent idx annex leaf ht g me prev so.
Proof. unfold spec_taproot_msg. change (if tap_output_type ht =? SIGHASH_SINGLE then _ else _) with (tap_single_part t idx ht). intros S.
  destruct (tap_type_valid ht); [|discriminate]. destruct (Nat.eqb_spec (length spent) (length (tx_in t))) as [L|]; [|discriminate].
  destruct (annex_valid annex); [|discriminate]. destruct (nth_error (tx_in t) idx) as [me|]; [|discriminate].
  destruct (nth_error spent idx) as [prev|]; [|discriminate]. destruct (tap_single_part t idx ht) as [so|]; [|discriminate].
  apply Some_inj in S. repeat split; auto. now exists me, prev, so. Qed.
Lemma spec_taproot_msg_eq t spent idx annex leaf ht g me prev so :
  tap_type_valid ht = true -> length spent = length (tx_in t) -> annex_valid annex = true ->
  nth_error (tx_in t) idx = Some me -> nth_error spent idx = Some prev -> tap_single_part t idx ht = Some so ->
  spec_taproot_msg pt_ok H t spent idx annex leaf ht g = Some (tap_msg t spent idx annex leaf ht g me prev so).
Proof. intros V L A Nme Np So. unfold spec_taproot_msg. change (if tap_output_type ht =? SIGHASH_SINGLE then _ else _) with (tap_single_part t idx ht).
  now rewrite V, L, Nat.eqb_refl, A, Nme, Np, So. Qed.
(* the hypotheses of C03_taproot_refines are those under which the specification defines a message *)
Lemma taproot_defined t spent idx annex leaf ty g :
  ty <> SReserved -> length spent = length (tx_in t) -> (idx < length (tx_in t))%nat -> annex_valid annex = true ->
  (tap_single ty = true -> (idx < length (tx_out t))%nat) ->
  exists m, spec_taproot_msg pt_ok H t spent idx annex leaf (schnorr_u8 ty) g = Some m.
Proof. intros NR L Lt A Sg. destruct (schnorr_split_flags ty NR) as (V & Es & _).
  destruct (nth_error_lt _ _ Lt) as [me Nth]. rewrite <- L in Lt. destruct (nth_error_lt _ _ Lt) as [prev Np].
  assert (exists so, tap_single_part t idx (schnorr_u8 ty) = Some so) as [so So].
  { unfold tap_single_part. rewrite <- Es. destruct (tap_single ty); [|eauto]. destruct (nth_error (tx_out t) idx) eqn:No; [cbn; eauto|].
    apply nth_error_None in No. specialize (Sg eq_refl). lia. }
  eexists. apply spec_taproot_msg_eq; eassumption. Qed.
End TAPMSG.

Section TAPROOT.
Variable pt_ok : bytes -> bool.
Variable maxvec : N.
Variable H : bytes -> bytes.

Lemma annex_opt_valid a : annex_valid a = true -> annex_opt a = SOk a.
Proof. destruct a as [[|b r]|]; cbn; try discriminate; [|reflexivity]. intros E. change ANNEX_PREFIX with 80. now rewrite E. Qed.
Lemma nat_u32_small n : N.of_nat n < 4294967296 -> nat_u32 n = N.of_nat n.
Proof. intros. unfold nat_u32. now apply N.mod_small. Qed.
Lemma spend_type_eq {A B} (annex : option A) (leaf : option B) : N.lor (if annex then 1 else 0) (if leaf then 2 else 0) = 2 * (if leaf then 1 else 0) + (if annex then 1 else 0).
Proof. now destruct annex, leaf. Qed.

Lemma Ev_tap_single t spent idx ht (w so : bytes) : tap_single_part pt_ok H t idx ht = Some so ->
  Ev pt_ok maxvec H t spent
     (if tap_output_type ht =? SIGHASH_SINGLE then
        out <- lift (opt_ok (nth_error (tx_out t) idx) (SingleWithoutCorrespondingOutput (N.of_nat idx) (N.of_nat (length (tx_out t))))) ;;
        ret ((w ++ H (e_txout pt_ok maxvec out)) ++ H (e_outwit maxvec (out_wit out)))
      else ret w) (SOk (w ++ so)).
Proof. unfold tap_single_part. destruct (tap_output_type ht =? SIGHASH_SINGLE).
  - destruct (nth_error (tx_out t) idx) as [o|]; [|discriminate]. intros [= <-]. cbn [opt_ok]. ev. apply Ev_ret_eq.
    now rewrite e_outwit_ser, <- app_assoc.
  - intros [= <-]. apply Ev_ret_eq. now rewrite app_nil_r. Qed.
Lemma opt_app {A} (o : option A) (w : bytes) f : match o with Some a => w ++ f a | None => w end = w ++ match o with Some a => f a | None => [] end.
Proof. destruct o; [reflexivity|now rewrite app_nil_r]. Qed.

Theorem taproot_refines_ev t spent idx annex leaf ty g m :
  spec_taproot_msg pt_ok H t spent idx annex leaf (schnorr_u8 ty) g = Some m -> N.of_nat idx < 4294967296 ->
  Ev pt_ok maxvec H t spent (taproot_encode pt_ok maxvec H idx (PAll spent) annex leaf ty g) (SOk m).
Proof. intros S Hidx. destruct (spec_taproot_msg_inv _ _ _ _ _ _ _ _ _ _ S) as (V & L & _ & me & prev & so & Nme & Np & So & ->).
  assert (NR : ty <> SReserved) by (intros ->; discriminate V). destruct (schnorr_split_flags ty NR) as (_ & _ & b & Sp & Es & Ea).
  unfold taproot_encode. ev. cbn [check_all]. rewrite L, Nat.eqb_refl, Sp, Nme. ev. cbv beta iota.
  cbn [get_all pv_get opt_ok]. rewrite Ea, Es, Np, if_negb, spend_type_eq, (nat_u32_small _ Hidx). cbv zeta iota beta.
  (* the blocks of the writer, each appending its part to the head `w`, which is kept folded while they are re-associated *)
  set (w := _ ++ e_u32 (tx_lock t)).
  eapply Ev_bind_ok; [apply Ev_unless; ev; apply Ev_ret_eq; rewrite <- !app_assoc; reflexivity|].
  eapply Ev_bind_ok; [apply Ev_when; ev; apply Ev_ret_eq; rewrite <- !app_assoc; reflexivity|].
  eapply Ev_bind_ok; [apply Ev_if_app; [|apply Ev_ret]; ev; apply Ev_if_app; apply Ev_ret_eq; rewrite <- !app_assoc; reflexivity|].
  eapply Ev_bind_ok; [exact (Ev_tap_single _ _ _ _ _ _ So)|]. apply Ev_ret_eq.
  (* what was written is the message, up to association *)
  subst w. rewrite opt_app, compute_common_spec, compute_taproot_spec, has_issuance_null, outpoint_flag_eq, !e_rangeproof_ser.
  unfold tap_msg, tap_inputs_msg, tap_outputs_msg, tap_input_msg.
  destruct leaf as [[h pos]|]; rewrite <- !app_assoc, ?app_nil_r; destruct (issuance_null me); reflexivity. Qed.
End TAPROOT.

Section IRRELEVANT.
Variable pt_ok : bytes -> bool.
Variable H : bytes -> bytes.
Variable flags : bool.

Lemma in_sig_core a b : in_sig_eq a b -> in_core_eq a b.
Proof. unfold in_sig_eq, in_core_eq. tauto. Qed.
Lemma tx_sig_core t t' : tx_sig_eq t t' -> tx_core_eq t t'.
Proof. intros (V & L & I & O). repeat split; auto.
  - clear -I. induction I; constructor; auto using in_sig_core.
  - rewrite O. apply Forall2_diag. unfold out_core_eq. auto. Qed.

Lemma legacy_input_core ht idx sc n a b : in_core_eq a b -> legacy_input pt_ok flags ht idx sc n a = legacy_input pt_ok flags ht idx sc n b.
Proof. destruct a, b. unfold in_core_eq. cbn. intros (-> & -> & -> & ->). reflexivity. Qed.
Lemma ser_txout_core a b : out_core_eq a b -> ser_txout pt_ok a = ser_txout pt_ok b.
Proof. destruct a, b. unfold out_core_eq. cbn. intros (-> & -> & -> & ->). reflexivity. Qed.
Lemma legacy_output_core ht idx n a b : out_core_eq a b -> legacy_output pt_ok ht idx n a = legacy_output pt_ok ht idx n b.
Proof. intros E. unfold legacy_output. now rewrite (ser_txout_core _ _ E). Qed.

(* script_sig and every witness field (script witness, pegin witness, issuance range proofs, output witnesses) are outside the
   legacy and segwit v0 messages *)
Theorem legacy_core t t' idx sc ht : tx_core_eq t t' -> spec_legacy_msg pt_ok flags t idx sc ht = spec_legacy_msg pt_ok flags t' idx sc ht.
Proof. intros (V & L & I & O). unfold spec_legacy_msg, legacy_single_bug, mapi.
  pose proof (F2_nth _ _ _ I idx) as Nth. rewrite <- (Forall2_length _ _ _ I), <- (Forall2_length _ _ _ O), V, L.
  destruct (nth_error (tx_in t) idx) as [a|], (nth_error (tx_in t') idx) as [b|]; try contradiction; [|reflexivity].
  rewrite (legacy_input_core ht idx sc idx _ _ Nth).
  rewrite (F2_mapi _ _ (legacy_input_core ht idx sc) _ _ I).
  rewrite (F2_map _ _ ser_txout_core _ _ O).
  rewrite (F2_mapi _ _ (legacy_output_core ht idx) _ _ (F2_firstn _ _ _ O (idx + 1))). reflexivity. Qed.

Theorem segwit_core t t' idx sc v ht : tx_core_eq t t' -> spec_segwit_msg pt_ok H t idx sc v ht = spec_segwit_msg pt_ok H t' idx sc v ht.
Proof. intros (V & L & I & O). unfold spec_segwit_msg, hash_prevouts, hash_sequence, hash_issuance, hash_outputs.
  pose proof (F2_nth _ _ _ I idx) as Nth. pose proof (F2_nth _ _ _ O idx) as No. rewrite V, L, (F2_map _ _ ser_txout_core _ _ O).
  (* every function mapped over the inputs reads only fields that the relation keeps *)
  do 3 (erewrite (F2_map in_core_eq) with (l := tx_in t) (l' := tx_in t');
        [|intros a b (Ep & _ & Es & Ei); unfold issuance_or_zero, issuance_null; now rewrite ?Ep, ?Es, ?Ei|exact I]).
  destruct (nth_error (tx_in t) idx) as [a|], (nth_error (tx_in t') idx) as [b|]; try contradiction; [|reflexivity].
  destruct Nth as (Ep & _ & Es & Ei). unfold issuance_null. rewrite Ep, Es, Ei.
  destruct (nth_error (tx_out t) idx) as [oa|], (nth_error (tx_out t') idx) as [ob|]; try contradiction; [|reflexivity].
  now rewrite (ser_txout_core _ _ No). Qed.

(* taproot: script_sig, script witness and pegin witness are outside the message (the issuance range proofs and the output
   witnesses are inside) *)
Theorem taproot_sig t t' spent idx annex leaf ht g : tx_sig_eq t t' ->
  spec_taproot_msg pt_ok H t spent idx annex leaf ht g = spec_taproot_msg pt_ok H t' spent idx annex leaf ht g.
Proof. intros (V & L & I & O). unfold spec_taproot_msg, sha_outpoint_flags, sha_prevouts, sha_sequences, sha_issuances, sha_issuance_rangeproofs,
    sha_outputs, sha_output_witnesses.
  pose proof (F2_nth _ _ _ I idx) as Nth. rewrite <- (Forall2_length _ _ _ I), V, L, O.
  do 5 (erewrite (F2_map in_sig_eq) with (l := tx_in t) (l' := tx_in t');
        [|intros a b (Ep & Eg & Es & Ei & Ea & Ek); unfold outpoint_flag_byte, issuance_or_zero, issuance_proofs, issuance_null; now rewrite ?Ep, ?Eg, ?Es, ?Ei, ?Ea, ?Ek|exact I]).
  destruct (nth_error (tx_in t) idx) as [a|], (nth_error (tx_in t') idx) as [b|]; try contradiction; [|reflexivity].
  destruct Nth as (Ep & Eg & Es & Ei & Ea & Ek). unfold outpoint_flag_byte, issuance_proofs, issuance_null. now rewrite Ep, Eg, Es, Ei, Ea, Ek. Qed.

(* legacy SIGHASH_SINGLE: the other outputs (and how many follow) are outside the message *)
Lemma single_outputs ht : hash_single ht = true -> forall idx outs n o, nth_error outs idx = Some o ->
  concat (mapi_from n (legacy_output pt_ok ht (n + idx)) (firstn (idx + 1) outs)) = concat (repeat (ser_txout pt_ok null_txout) idx) ++ ser_txout pt_ok o.
Proof. intros S. induction idx as [|k IH]; intros [|x r] n o E; try discriminate; cbn [nth_error] in E.
  - inversion E; subst. cbn. unfold legacy_output. rewrite Nat.add_0_r, Nat.eqb_refl, S. cbn. now rewrite app_nil_r.
  - cbn [Nat.add firstn mapi_from concat repeat]. unfold legacy_output at 1. rewrite S.
    replace (Nat.eqb n (n + Datatypes.S k)) with false by (symmetry; apply Nat.eqb_neq; lia). cbn [andb negb].
    replace (n + Datatypes.S k)%nat with (Datatypes.S n + k)%nat by lia. rewrite (IH r (Datatypes.S n) o E). now rewrite <- app_assoc. Qed.
Theorem legacy_single t t' idx sc ht : hash_single ht = true -> tx_eq_at_output idx t t' ->
  spec_legacy_msg pt_ok flags t idx sc ht = spec_legacy_msg pt_ok flags t' idx sc ht.
Proof. intros S (V & L & I & O). unfold spec_legacy_msg, legacy_single_bug, mapi. rewrite S, V, L, I. cbn [andb].
  destruct (nth_error (tx_in t') idx); [|reflexivity].
  destruct (nth_error (tx_out t) idx) as [o|] eqn:E1; symmetry in O.
  - assert (L1 : Nat.leb (length (tx_out t)) idx = false) by (apply Nat.leb_gt, nth_error_Some; congruence).
    assert (L2 : Nat.leb (length (tx_out t')) idx = false) by (apply Nat.leb_gt, nth_error_Some; congruence).
    rewrite L1, L2. pose proof (single_outputs ht S idx (tx_out t) 0 o E1) as X1. pose proof (single_outputs ht S idx (tx_out t') 0 o O) as X2.
    cbn [Nat.add] in X1, X2. rewrite X1, X2. destruct (hash_none ht); reflexivity.
  - apply nth_error_None in E1. apply nth_error_None in O. apply Nat.leb_le in E1. apply Nat.leb_le in O. now rewrite E1, O. Qed.

(* SIGHASH_NONE / SIGHASH_SINGLE (legacy, segwit v0): what the messages read of the inputs survives erasing the other sequence numbers *)
Lemma erase_map {B} (g : txin -> B) idx l : (forall i q, g (set_seq i q) = g i) -> map g (erase_other_sequences idx l) = map g l.
Proof. intros E. unfold erase_other_sequences, mapi. rewrite map_mapi_from. rewrite <- (mapi_from_const g l 0). apply mapi_from_ext.
  intros n a. destruct (Nat.eqb n idx); auto. Qed.
Lemma erase_nth idx l : nth_error (erase_other_sequences idx l) idx = nth_error l idx.
Proof. unfold erase_other_sequences, mapi. rewrite nth_mapi_from. cbn [Nat.add]. rewrite Nat.eqb_refl. now destruct (nth_error l idx). Qed.
Lemma erase_length idx l : length (erase_other_sequences idx l) = length l.
Proof. apply mapi_from_length. Qed.
Lemma erase_legacy_inputs ht idx sc l : (hash_single ht || hash_none ht) = true ->
  mapi (legacy_input pt_ok flags ht idx sc) (erase_other_sequences idx l) = mapi (legacy_input pt_ok flags ht idx sc) l.
Proof. intros Z. unfold erase_other_sequences, mapi. rewrite mapi_mapi_from. apply mapi_from_ext. intros n a.
  destruct (Nat.eqb n idx) eqn:E; [reflexivity|]. unfold legacy_input. rewrite E, Z. reflexivity. Qed.
End IRRELEVANT.

Section FRESH.
Variable pt_ok : bytes -> bool.
Variable maxvec : N.
Variable H : bytes -> bytes.
Variable Htag : bytes -> bytes.
Notation impl_msg := (impl_msg pt_ok maxvec H).
Notation impl_digest := (impl_digest pt_ok maxvec H Htag).

Lemma legacy_msg_fresh t idx sc ty : impl_msg t (OLegacy idx sc ty) = legacy_encode_tx pt_ok maxvec t idx sc ty.
Proof. reflexivity. Qed.
Lemma legacy_digest_fresh t idx sc ty : impl_digest t (OLegacy idx sc ty) =
  if Nat.ltb idx (length (tx_in t)) && legacy_single_bug t idx (ecdsa_u32 ty) then SOk uint256_one
  else match legacy_encode_tx pt_ok maxvec t idx sc ty with SOk m => SOk (H (H m)) | SErr e => SErr e | SPanic => SPanic end.
Proof. unfold SighashQuery.impl_digest, query, legacy_sighash, legacy_single_bug. rewrite bind_get_tx. cbn [init st_tx].
  destruct (ecdsa_split_flags ty) as (b & -> & -> & _).
  destruct (hash_single (ecdsa_u32 ty)), (Nat.ltb idx (length (tx_in t))), (Nat.leb (length (tx_out t)) idx); cbn [andb]; try reflexivity; apply mapM_snd. Qed.
Lemma legacy_encode_tx_bug t idx sc ty : (idx < length (tx_in t))%nat -> legacy_single_bug t idx (ecdsa_u32 ty) = true ->
  legacy_encode_tx pt_ok maxvec t idx sc ty = SOk uint256_one.
Proof. intros Lt%Nat.ltb_lt Bug. unfold legacy_encode_tx, legacy_single_bug in *. rewrite Lt. destruct (ecdsa_split_flags ty) as (b & -> & -> & _).
  now rewrite Bug. Qed.
(* the two convenience entry points are taproot_sighash without annex, on the key path resp. on the script path with no code separator *)
Lemma key_spend_eq t idx pv ty g : impl_digest t (OTapKey idx pv ty g) = impl_digest t (OTaproot idx pv None None ty g).
Proof. reflexivity. Qed.
Lemma script_spend_eq t idx pv lh ty g : impl_digest t (OTapScript idx pv lh ty g) = impl_digest t (OTaproot idx pv None (Some (lh, 4294967295)) ty g).
Proof. reflexivity. Qed.
End FRESH.

Definition Collision (H : bytes -> bytes) : Prop := exists a b, a <> b /\ H a = H b.
Section SENSITIVE.
Variable pt_ok : bytes -> bool.
Variable H : bytes -> bytes.
Variable flags : bool.
Hypothesis Hlen : forall x, length (H x) = 32%nat.

Lemma hash_eq a b : H a = H b -> a = b \/ Collision H.
Proof. intros E. destruct (bytes_eqb_spec a b) as [->|N]; [now left|]. right. now exists a, b. Qed.
Lemma dhash_eq a b : H (H a) = H (H b) -> a = b \/ Collision H.
Proof. intros E. destruct (hash_eq _ _ E) as [E'|C]; [|now right]. now apply hash_eq. Qed.
Lemma digest_eq (h : bytes -> bytes) o o' d : option_map h o = Some d -> option_map h o' = Some d -> exists m m', o = Some m /\ o' = Some m' /\ h m = h m'.
Proof. intros (m & -> & ->)%option_map_some (m' & -> & E)%option_map_some. now exists m, m'. Qed.
Lemma digest_fun (h : bytes -> bytes) o o' d d' : option_map h o = Some d -> option_map h o' = Some d' ->
  (forall m m', o = Some m -> o' = Some m' -> m = m') -> d = d'.
Proof. intros (m & -> & ->)%option_map_some (m' & -> & ->)%option_map_some E. now rewrite (E m m'). Qed.
Lemma ser_u32_inj a b : a < 4294967296 -> b < 4294967296 -> ser_u32 a = ser_u32 b -> a = b.
Proof. intros Ha Hb E. unfold ser_u32 in E. rewrite <- (le_val_enc 4 a), <- (le_val_enc 4 b) by (cbn; lia). now rewrite E. Qed.
Lemma ser_u32_len a : length (ser_u32 a) = 4%nat. Proof. apply le_enc_length. Qed.
Lemma u32_app_eq a b r r' : a < 4294967296 -> b < 4294967296 -> ser_u32 a ++ r = ser_u32 b ++ r' -> a = b /\ r = r'.
Proof. intros Ha Hb E. apply app_eq_len in E as [E ->]; [|now rewrite !ser_u32_len]. split; [now apply ser_u32_inj|reflexivity]. Qed.
Lemma hash_app_eq a b r r' : H a ++ r = H b ++ r' -> (a = b \/ Collision H) /\ r = r'.
Proof. intros E. apply app_eq_len in E as [E ->]; [|now rewrite !Hlen]. split; [now apply hash_eq|reflexivity]. Qed.

(* legacy: the message is the serialization itself; version, lock time and hash type are read off its two ends *)
Theorem legacy_commits_ends t t' idx idx' sc sc' ht ht' m :
  spec_legacy_msg pt_ok flags t idx sc ht = Some m -> spec_legacy_msg pt_ok flags t' idx' sc' ht' = Some m ->
  tx_version t < 4294967296 -> tx_version t' < 4294967296 -> tx_lock t < 4294967296 -> tx_lock t' < 4294967296 -> ht < 4294967296 -> ht' < 4294967296 ->
  tx_version t = tx_version t' /\ tx_lock t = tx_lock t' /\ ht = ht'.
Proof. unfold spec_legacy_msg. intros S S' V V' L L' T T'.
  destruct (nth_error (tx_in t) idx); [|discriminate]. destruct (legacy_single_bug t idx ht); [discriminate|].
  destruct (nth_error (tx_in t') idx'); [|discriminate]. destruct (legacy_single_bug t' idx' ht'); [discriminate|].
  apply Some_inj in S. apply Some_inj in S'. rewrite <- S' in S. clear S'.
  apply u32_app_eq in S as [Ev S]; auto. rewrite !app_assoc in S.
  apply app_eq_len_r in S as [S Et]; [|now rewrite !ser_u32_len]. apply app_eq_len_r in S as [_ El]; [|now rewrite !ser_u32_len].
  auto using ser_u32_inj. Qed.

(* segwit v0, same hash type: version, the three (possibly zeroed) hash fields and the outpoint are fixed-width fields;
   each hash field, when it is a hash, determines its pre-image up to an explicit collision *)
Theorem segwit_commits t t' idx idx' sc sc' v v' ht m me me' :
  spec_segwit_msg pt_ok H t idx sc v ht = Some m -> spec_segwit_msg pt_ok H t' idx' sc' v' ht = Some m ->
  nth_error (tx_in t) idx = Some me -> nth_error (tx_in t') idx' = Some me' ->
  tx_version t < 4294967296 -> tx_version t' < 4294967296 ->
  length (o_txid (in_prev me)) = 32%nat -> length (o_txid (in_prev me')) = 32%nat -> o_vout (in_prev me) < 4294967296 -> o_vout (in_prev me') < 4294967296 ->
  (tx_version t = tx_version t' /\ in_prev me = in_prev me') /\
  (anyone_can_pay ht = false -> (concat (map (fun i => ser_outpoint (in_prev i)) (tx_in t)) = concat (map (fun i => ser_outpoint (in_prev i)) (tx_in t')) \/ Collision H) /\
                                 (concat (map (issuance_or_zero pt_ok) (tx_in t)) = concat (map (issuance_or_zero pt_ok) (tx_in t')) \/ Collision H)) /\
  (anyone_can_pay ht = false -> hash_single ht = false -> hash_none ht = false ->
     concat (map (fun i => ser_u32 (in_seq i)) (tx_in t)) = concat (map (fun i => ser_u32 (in_seq i)) (tx_in t')) \/ Collision H).
Proof. unfold spec_segwit_msg. intros S S' N N' V V' T T' O O'. rewrite N in S. rewrite N' in S'.
  apply Some_inj in S. apply Some_inj in S'. rewrite <- S' in S. clear S'.
  apply u32_app_eq in S as [Ev S]; auto.
  apply app_eq_len in S as [Ep S]; [|destruct (anyone_can_pay ht); unfold hash_prevouts, sha256d; now rewrite ?Hlen].
  apply app_eq_len in S as [Es S]; [|destruct (negb (anyone_can_pay ht) && negb (hash_single ht) && negb (hash_none ht)); unfold hash_sequence, sha256d; now rewrite ?Hlen].
  apply app_eq_len in S as [Ei S]; [|destruct (anyone_can_pay ht); unfold hash_issuance, sha256d; now rewrite ?Hlen].
  apply app_eq_len in S as [Eo _]; [|unfold ser_outpoint; rewrite !app_length, !ser_u32_len; lia].
  split; [split; [exact Ev|]|split].
  - unfold ser_outpoint in Eo. apply app_eq_len in Eo as [E1 E2]; [|lia]. apply ser_u32_inj in E2; auto.
    destruct (in_prev me), (in_prev me'); cbn in *; congruence.
  - intros A. rewrite A in Ep, Ei. split.
    + unfold hash_prevouts, sha256d in Ep. destruct (dhash_eq _ _ Ep) as [E|C]; auto.
    + unfold hash_issuance, sha256d in Ei. destruct (dhash_eq _ _ Ei) as [E|C]; auto.
  - intros A Sg Nn. rewrite A, Sg, Nn in Es. cbn [negb andb] in Es. unfold hash_sequence, sha256d in Es. destruct (dhash_eq _ _ Es) as [E|C]; auto.
Qed.

(* taproot, same hash type and same spend shape: genesis hash, version, lock time are fixed-width fields; without ANYONECANPAY the
   seven sub-hashes, and for ALL/DEFAULT the outputs hash and the OUTPUT-WITNESS hash, each determine their pre-image up to an
   explicit collision — in particular taproot ALL commits to the output witnesses *)
Theorem taproot_commits t t' spent spent' idx idx' annex annex' leaf leaf' ht g g' m :
  spec_taproot_msg pt_ok H t spent idx annex leaf ht g = Some m -> spec_taproot_msg pt_ok H t' spent' idx' annex' leaf' ht g' = Some m ->
  length g = 32%nat -> length g' = 32%nat -> tx_version t < 4294967296 -> tx_version t' < 4294967296 -> tx_lock t < 4294967296 -> tx_lock t' < 4294967296 ->
  (g = g' /\ tx_version t = tx_version t' /\ tx_lock t = tx_lock t') /\
  (tap_input_acp ht = false ->
     (map (fun i => n2b (outpoint_flag_byte i)) (tx_in t) = map (fun i => n2b (outpoint_flag_byte i)) (tx_in t') \/ Collision H) /\
     (concat (map (fun i => ser_outpoint (in_prev i)) (tx_in t)) = concat (map (fun i => ser_outpoint (in_prev i)) (tx_in t')) \/ Collision H) /\
     (concat (map (fun o => ser_asset pt_ok (out_asset o) ++ ser_value pt_ok (out_value o)) spent) = concat (map (fun o => ser_asset pt_ok (out_asset o) ++ ser_value pt_ok (out_value o)) spent') \/ Collision H) /\
     (concat (map (fun o => ser_bytes (out_script o)) spent) = concat (map (fun o => ser_bytes (out_script o)) spent') \/ Collision H) /\
     (concat (map (fun i => ser_u32 (in_seq i)) (tx_in t)) = concat (map (fun i => ser_u32 (in_seq i)) (tx_in t')) \/ Collision H) /\
     (concat (map (issuance_or_zero pt_ok) (tx_in t)) = concat (map (issuance_or_zero pt_ok) (tx_in t')) \/ Collision H) /\
     (concat (map issuance_proofs (tx_in t)) = concat (map issuance_proofs (tx_in t')) \/ Collision H) /\
     (tap_output_type ht = SIGHASH_ALL ->
        (concat (map (ser_txout pt_ok) (tx_out t)) = concat (map (ser_txout pt_ok) (tx_out t')) \/ Collision H) /\
        (concat (map output_witness (tx_out t)) = concat (map output_witness (tx_out t')) \/ Collision H))).
Proof. intros S S' G G' V V' L L'. destruct (spec_taproot_msg_inv _ _ _ _ _ _ _ _ _ _ S) as (_ & _ & _ & me & prev & so & _ & _ & _ & ->).
  destruct (spec_taproot_msg_inv _ _ _ _ _ _ _ _ _ _ S') as (_ & _ & _ & me' & prev' & so' & _ & _ & _ & E).
  unfold tap_msg, tap_inputs_msg, tap_outputs_msg in E.
  apply app_eq_len in E as [Eg E]; [|now rewrite G, G']. apply app_eq_len in E as [_ E]; [|now rewrite G, G']. apply app_eq_len in E as [_ E]; [|reflexivity].
  apply u32_app_eq in E as [Ev E]; auto. apply u32_app_eq in E as [El E]; auto.
  split; [auto|]. intros A. rewrite A in E. rewrite <- !app_assoc in E.
  apply hash_app_eq in E as [E1 E]. apply hash_app_eq in E as [E2 E]. apply hash_app_eq in E as [E3 E]. apply hash_app_eq in E as [E4 E].
  apply hash_app_eq in E as [E5 E]. apply hash_app_eq in E as [E6 E]. apply hash_app_eq in E as [E7 E].
  repeat (split; [assumption|]). intros OA. rewrite OA in E. cbn [N.eqb SIGHASH_ALL Pos.eqb] in E. rewrite <- !app_assoc in E.
  apply hash_app_eq in E as [E8 E]. apply hash_app_eq in E as [E9 _]. now split. Qed.
End SENSITIVE.

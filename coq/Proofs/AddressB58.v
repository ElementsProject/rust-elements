(* C06, base58check forms: base58check create/verify, the first character of a displayed base58check address (so that the parser never
   takes the segwit branch for it), the round trip parse (display a) = a for p2pkh / p2sh addresses, blinded or not; hence FromStr accepts
   exactly what the parser of some built-in network accepts, and no two built-in networks accept the same string; so (C17) a segwit text
   with a corrupted data part, which keeps its HRP, is rejected under every built-in network. *)
From Coq Require Import List NArith ZArith Bool Lia ZifyN ZifyBool ZifyNat.
From Coq.Strings Require Import Byte.
From EV Require Import Base.Bytes Gen.Tables Model.Bech32 Model.Base58 Model.Address Proofs.Address Proofs.AddressRT Proofs.Numeral.
Ltac Zify.zify_post_hook ::= Z.div_mod_to_equations.
Import ListNotations.
Open Scope N_scope.
Set Default Timeout 30.

Section Check58.
Variable H : bytes -> bytes.

Lemma b58_check_inv s data : b58_decode_check H s = Ok58 data -> exists ck, length ck = 4%nat /\ ck = firstn 4 (H data) /\ b58_decode s = Ok58 (data ++ ck).
Proof. unfold b58_decode_check. destruct (b58_decode s) as [ret|] eqn:D; [|discriminate].
  destruct (Nat.ltb_spec (length ret) 4) as [|L]; [discriminate|]. set (k := (length ret - 4)%nat).
  destruct (bytes_eqb_spec (firstn 4 (H (firstn k ret))) (skipn k ret)) as [E|]; [|discriminate]. intros X. injection X as <-.
  exists (skipn k ret). split; [rewrite skipn_length; unfold k; lia|]. split; [now symmetry|]. now rewrite firstn_skipn. Qed.
Lemma b58_check_canonical s data : b58_decode_check H s = Ok58 data -> b58_encode_check H data = s.
Proof. intros E. destruct (b58_check_inv _ _ E) as (ck & _ & -> & D). unfold b58_encode_check. now apply b58_encode_decode. Qed.
(* round trip: needs a hash of at least four bytes (SHA-256d: 32) *)
Lemma b58_check_roundtrip data : (4 <= length (H data))%nat -> b58_decode_check H (b58_encode_check H data) = Ok58 data.
Proof. intros L4. unfold b58_encode_check, b58_decode_check. rewrite b58_decode_encode.
  assert (LC : length (firstn 4 (H data)) = 4%nat) by (rewrite firstn_length; lia).
  rewrite app_length, LC. destruct (Nat.ltb_spec (length data + 4) 4) as [|_]; [lia|].
  replace (length data + 4 - 4)%nat with (length data) by lia. rewrite firstn_app_len, skipn_app_len.
  now rewrite bytes_eqb_refl. Qed.
End Check58.

(* could `c` be the first character of a text whose prefix (everything before the last '1') matches the HRP `h`? *)
Definition starts_like (c : byte) (h : bytes) : bool := match h with [] => true | h0 :: _ => byte_eqb (to_lower h0) (to_lower c) end.
Definition hrp_first (c : byte) : bool := existsb (fun p => starts_like c (p_bech p) || starts_like c (p_blech p)) builtin.

Lemma match_prefix_first c rest h : match_prefix (find_prefix (c :: rest)) h = true -> starts_like c h = true.
Proof. destruct h as [|h0 hr]; [reflexivity|]. unfold match_prefix, find_prefix. destruct (rsplit x31 (c :: rest)) as [[p q]|] eqn:R.
  - apply rsplit_spec in R as [E _]. destruct p as [|c' p']; cbn [eq_lower]; [discriminate|]. cbn [app] in E. injection E as <- _.
    intros X. apply andb_true_iff in X as [X _]. exact X.
  - cbn [eq_lower]. intros X. apply andb_true_iff in X as [X _]. exact X. Qed.
Lemma hrp_first_false c rest p bl : hrp_first c = false -> In p builtin -> match_prefix (find_prefix (c :: rest)) (hrp_of p bl) = false.
Proof. intros F Ip. destruct (match_prefix (find_prefix (c :: rest)) (hrp_of p bl)) eqn:M; [|reflexivity]. apply match_prefix_first in M.
  rewrite <- F. symmetry. apply existsb_exists. exists p. split; [exact Ip|]. destruct bl; cbn [hrp_of] in M; rewrite M; [apply orb_true_r|reflexivity]. Qed.

Definition nrange (a b : N) : list N := map (fun i => a + N.of_nat i) (seq 0 (N.to_nat (b + 1 - a))).
Lemma nrange_in a b x : a <= x <= b -> In x (nrange a b).
Proof. intros L. unfold nrange. apply in_map_iff. exists (N.to_nat (x - a)). split; [lia|apply in_seq; lia]. Qed.
Lemma nrange_inv a b x : In x (nrange a b) -> a <= x <= b.
Proof. unfold nrange. intros I. apply in_map_iff in I as (i & <- & I). apply in_seq in I. lia. Qed.

(* The sweep: every byte string of n + 1 bytes whose first byte is p (1..255) has a base58 text of exactly m0 + 1 characters, m0 + 1 <= 150,
   whose first character is one of the digits lo/58^m0 .. hi/58^m0, none of which can start a built-in HRP. *)
Definition first_char_ok (p : N) (n : nat) : bool :=
  let lo := p * 256 ^ N.of_nat n in let hi := lo + (256 ^ N.of_nat n - 1) in
  let m0 := N.of_nat (length (digits 58 lo)) - 1 in
  (0 <? p) && (p <? 256) && (58 ^ m0 <=? lo) && (hi <? 58 ^ (m0 + 1)) && (m0 + 1 <=? BASE58_MAX_LEN) &&
  forallb (fun d => negb (hrp_first (b58_char d))) (nrange (lo / 58 ^ m0) (hi / 58 ^ m0)).

Lemma first_char_sound p n : first_char_ok p n = true -> forall bs, length bs = n ->
  exists c rest, b58_encode (n2b p :: bs) = c :: rest /\ hrp_first c = false /\ too_long_for_base58 (c :: rest) = false.
Proof. unfold first_char_ok. set (lo := p * 256 ^ N.of_nat n). set (hi := lo + (256 ^ N.of_nat n - 1)). set (m0 := N.of_nat (length (digits 58 lo)) - 1).
  cbv zeta. intros OK bs Lb. assert (G256 : 2 <= 256) by lia. assert (G58 : 2 <= 58) by lia. repeat (apply andb_true_iff in OK as [OK ?]).
  assert (P0 : 0 < p) by (apply N.ltb_lt; assumption). assert (P256 : p < 256) by (apply N.ltb_lt; assumption).
  assert (B1 : 58 ^ m0 <= lo) by (apply N.leb_le; assumption). assert (B2 : hi < 58 ^ (m0 + 1)) by (apply N.ltb_lt; assumption).
  assert (ML : m0 + 1 <= BASE58_MAX_LEN) by (apply N.leb_le; assumption).
  assert (FA : forall d, lo / 58 ^ m0 <= d <= hi / 58 ^ m0 -> hrp_first (b58_char d) = false).
  { intros d Hd. apply negb_true_iff. match goal with X : forallb _ _ = true |- _ => exact (proj1 (forallb_forall _ _) X d (nrange_in _ _ _ Hd)) end. }
  rewrite b58_encode_conv. cbn [map]. rewrite (b2n_n2b_small p P256). unfold conv. cbn [count_leading].
  destruct (N.eqb_spec 0 p) as [Z|_]; [lia|]. cbn [repeat app].
  set (V := value 256 (p :: map b2n bs) 0). destruct (digits_spec 58 G58 V) as (C & EV).
  assert (LV : lo <= V <= hi).
  { pose proof (value_cons_range 256 G256 p _ (dig256_bytes bs)) as X. rewrite map_length, Lb in X. unfold V, hi, lo. lia. }
  assert (LV' : lo <= value 58 (digits 58 V) 0 <= hi) by (rewrite EV; exact LV).
  destruct (canon_head_bounds 58 G58 (digits 58 V) m0 lo hi C LV' B1 B2) as (d & r & -> & Lr & Bd).
  exists (b58_char d), (map b58_char r). split; [reflexivity|]. split; [apply FA; exact Bd|].
  unfold too_long_for_base58. apply N.ltb_ge. cbn [length]. rewrite map_length. lia. Qed.

(* The same test for given lo, hi, a number M of digits after the first with P = 58^M, and bounds dl, dh on the first digits of lo and hi:
   no division of 470-bit numbers and no digits of lo (both slow in the kernel) *)
Definition first_char_given (p lo hi M P dl dh : N) : bool :=
  (0 <? p) && (p <? 256) && (P <=? lo) && (hi <? 58 * P) && (M + 1 <=? BASE58_MAX_LEN) &&
  (dl * P <=? lo) && (hi <? (dh + 1) * P) && forallb (fun d => negb (hrp_first (b58_char d))) (nrange dl dh).
Lemma first_char_given_ok p n M P dl dh : P = 58 ^ M ->
  first_char_given p (p * 256 ^ N.of_nat n) (p * 256 ^ N.of_nat n + (256 ^ N.of_nat n - 1)) M P dl dh = true -> first_char_ok p n = true.
Proof. unfold first_char_given, first_char_ok. set (lo := p * 256 ^ N.of_nat n). set (hi := lo + (256 ^ N.of_nat n - 1)). cbv zeta.
  intros EP OK. repeat (apply andb_true_iff in OK as [OK ?]).
  assert (B1 : P <= lo) by now apply N.leb_le. assert (B2 : hi < 58 * P) by now apply N.ltb_lt.
  assert (P0 : P <> 0) by (rewrite EP; apply N.pow_nonzero; lia).
  assert (B2' : hi < 58 ^ (M + 1)) by (rewrite N.add_1_r, N.pow_succ_r', <- EP; exact B2).
  assert (Dl : dl <= lo / P) by (apply N.div_le_lower_bound; [exact P0|rewrite N.mul_comm; now apply N.leb_le]).
  assert (Dh : hi / P < dh + 1) by (apply N.div_lt_upper_bound; [exact P0|rewrite N.mul_comm; now apply N.ltb_lt]).
  (* lo has M + 1 digits *)
  destruct (digits_spec 58 ltac:(lia) lo) as (C & EV). rewrite EP in B1.
  destruct (canon_head_bounds 58 ltac:(lia) (digits 58 lo) M lo lo C ltac:(lia) B1 ltac:(unfold hi in B2'; lia)) as (d & r & -> & Lr & _).
  cbn [length]. replace (N.of_nat (S (length r)) - 1) with M by lia. rewrite <- EP.
  repeat (apply andb_true_iff; split); try assumption; [now apply N.ltb_lt|].
  apply forallb_forall. intros x Ix. apply nrange_inv in Ix.
  match goal with X : forallb _ (nrange dl dh) = true |- _ => apply (proj1 (forallb_forall _ _) X x) end. apply nrange_in. lia. Qed.
(* M, dl and dh guessed from the leading bits (1000/5858 is 1/log2 58; lo, hi and 58^M are cut to their top 17 bits before the digits are
   divided out); the test does not trust the guesses.  256^n and the power of 58 are each evaluated once. *)
Definition first_char_fast (p : N) (n : nat) : bool :=
  let pw := 256 ^ N.of_nat n in let lo := p * pw in let hi := lo + (pw - 1) in
  let M0 := N.log2 lo * 1000 / 5858 in let P0 := 58 ^ M0 in let up := 58 * P0 <=? lo in
  let M := if up then M0 + 1 else M0 in let P := if up then 58 * P0 else P0 in
  let k := N.log2 lo - 16 in let Pk := N.shiftr P k in
  first_char_given p lo hi M P (N.shiftr lo k / (Pk + 1)) ((N.shiftr hi k + 1) / Pk).
Lemma first_char_fast_ok p n : first_char_fast p n = true -> first_char_ok p n = true.
Proof. unfold first_char_fast. cbv zeta. apply first_char_given_ok.
  destruct (_ <=? _); [now rewrite N.add_1_r, N.pow_succ_r'|reflexivity]. Qed.
(* the nine version bytes of the built-in networks, with either payload length (hash / blinding key + hash; + prefix bytes + checksum) *)
Lemma builtin_first_chars : forallb (fun p => forallb (fun x => first_char_ok x 24 && first_char_ok x 58) [p_p2pkh p; p_p2sh p; p_blinded p]) builtin = true.
Proof.
  assert (S : forallb (fun p => forallb (fun x => first_char_fast x 24 && first_char_fast x 58) [p_p2pkh p; p_p2sh p; p_blinded p]) builtin = true)
    by (vm_compute; reflexivity).
  apply forallb_forall. intros p Ip. apply forallb_forall. intros x Ix.
  pose proof (proj1 (forallb_forall _ _) (proj1 (forallb_forall _ _) S p Ip) x Ix) as F. cbv beta in F.
  apply andb_true_iff in F as [F1 F2]. apply andb_true_intro. split; apply first_char_fast_ok; assumption. Qed.
Lemma builtin_first_char p x n : In p builtin -> x = p_p2pkh p \/ x = p_p2sh p \/ x = p_blinded p -> n = 24%nat \/ n = 58%nat -> first_char_ok x n = true.
Proof. intros Ip Ex En. pose proof (proj1 (forallb_forall _ _) builtin_first_chars p Ip) as X. cbv beta in X.
  assert (Ix : In x [p_p2pkh p; p_p2sh p; p_blinded p]) by (destruct Ex as [-> | [-> | ->]]; cbn [In]; tauto).
  pose proof (proj1 (forallb_forall _ _) X x Ix) as Y. cbv beta in Y. apply andb_true_iff in Y as [Y1 Y2]. destruct En as [->| ->]; assumption. Qed.

(* a base58check text of one of the nine version bytes is never read as a segwit string by any built-in network *)
Lemma b58_text_dispatch p x bs : In p builtin -> has_prefix p x -> (length bs = 24 \/ length bs = 58)%nat ->
  too_long_for_base58 (b58_encode (n2b x :: bs)) = false /\
  forall p' bl, In p' builtin -> match_prefix (find_prefix (b58_encode (n2b x :: bs))) (hrp_of p' bl) = false.
Proof. intros Ip Ex En. destruct (first_char_sound x _ (builtin_first_char p x _ Ip Ex En) bs eq_refl) as (c & rest & -> & F & TL).
  split; [exact TL|]. intros p' bl Ip'. now apply hrp_first_false. Qed.

Section B58Addr.
Variable H : bytes -> bytes. Variable pkv : bytes -> bool.

(* C06 one network: a text that base58check-decodes to one of a built-in network's version bytes with the length from_base58 demands
   starts with a character that no built-in HRP starts with, so no built-in network reads it as a segwit string. *)
Lemma b58_accept_not_segwit s data p a p' : In p builtin -> In p' builtin -> b58_decode_check H s = Ok58 data -> from_base58 pkv data p = AOk a ->
  match_prefix (find_prefix s) (p_bech p') = false /\ match_prefix (find_prefix s) (p_blech p') = false.
Proof. intros Ip Ip' DC FB. destruct (b58_check_inv H _ _ DC) as (ck & Lck & _ & D). apply b58_encode_decode in D.
  destruct (from_base58_ok _ _ _ _ FB) as (_ & _ & _ & _ & x & bs & -> & HP & L). cbn [app] in D. rewrite <- (n2b_b2n x) in D. rewrite <- D.
  destruct (b58_text_dispatch p (b2n x) (bs ++ ck) Ip HP) as [_ NM]; [rewrite app_length, Lck; lia|]. split; [exact (NM p' false Ip')|exact (NM p' true Ip')]. Qed.

Lemma hrp_owner s p bl q a : In p builtin -> In q builtin -> match_prefix (find_prefix s) (hrp_of p bl) = true ->
  parse_with_params H pkv s q = AOk a -> q = p.
Proof. intros Ip Iq M E. destruct (parse_ok _ _ _ _ _ E) as [(bl' & M' & _)|[_ B]]; [exact (proj1 (hrp_match_unique _ _ _ _ _ Iq Ip M' M))|].
  apply parse_b58_ok in B as (_ & d & DC & F). destruct (b58_accept_not_segwit s d q a p Iq Ip DC F) as [A B]. destruct bl; cbn [hrp_of] in M; congruence. Qed.

Lemma from_str_b58_first data x p nets : In p nets -> has_prefix p x -> (forall p', In p' nets -> has_prefix p' x -> p' = p) ->
  from_str_b58 pkv data x nets = from_base58 pkv data p.
Proof. induction nets as [|net r IH]; intros Ip Hp U; [contradiction|]. cbn [from_str_b58].
  destruct ((x =? p_p2pkh net) || (x =? p_p2sh net) || (x =? p_blinded net)) eqn:M.
  - rewrite (U net (or_introl eq_refl)); [reflexivity|]. unfold has_prefix. apply orb_true_iff in M as [M|M]; [apply orb_true_iff in M as [M|M]|];
      apply N.eqb_eq in M; tauto.
  - destruct Ip as [->|Ip].
    + exfalso. unfold has_prefix in Hp. apply orb_false_iff in M as [M M3]. apply orb_false_iff in M as [M1 M2].
      apply N.eqb_neq in M1, M2, M3. tauto.
    + apply IH; [exact Ip|exact Hp|]. intros p' Ip'. apply U. now right. Qed.

Theorem from_str_spec s a : from_str H pkv s = AOk a <-> exists p, In p builtin /\ parse_with_params H pkv s p = AOk a.
Proof. split; [apply from_str_is_parse|]. intros (p & Ip & E). destruct (parse_ok _ _ _ _ _ E) as [(bl & M & F)|[_ B]].
  - now rewrite (proj2 (segwit_dispatch H pkv s p bl Ip M)).
  - apply parse_b58_ok in B as (TL & d & DC & F). unfold from_str.
    rewrite (proj2 (from_str_bech_none pkv s _ builtin)), TL, DC
      by (intros q bl Iq; destruct (b58_accept_not_segwit s d p a q Ip Iq DC F); now destruct bl).
    destruct (from_base58_ok _ _ _ _ F) as (_ & _ & _ & _ & x & bs & -> & HP & _).
    rewrite (from_str_b58_first (x :: bs) (b2n x) p builtin Ip HP); [exact F|].
    intros p' Ip' HP'. exact (builtin_prefixes_distinct9 p' p _ Ip' Ip HP' HP). Qed.

Lemma from_str_rejected s : (forall q, In q builtin -> exists e, parse_with_params H pkv s q = AErr e) -> exists e, from_str H pkv s = AErr e.
Proof. intros A. destruct (from_str H pkv s) as [a|e] eqn:FS; [|eauto]. apply from_str_spec in FS as (q & Iq & Eq).
  destruct (A q Iq) as [e Ee]. congruence. Qed.

Lemma from_base58_display a d : wf_addr pkv a -> b58_payload a = Some d -> from_base58 pkv d (a_params a) = AOk a.
Proof. destruct a as [p pay bo]. unfold b58_payload. cbn [a_params a_payload a_blinder]. intros (Ip & KO & PO) E.
  destruct (builtin_prefix_facts p Ip) as (F1 & F2 & F3 & F4 & F5 & _). pose proof (fun h => b58_finish_builtin p bo h Ip) as B.
  destruct pay as [h|h|v prog]; [| |destruct bo; discriminate E]; destruct bo as [pk|]; injection E as <-;
    [destruct KO; rewrite from_base58_blinded|rewrite from_base58_unblinded|destruct KO; rewrite from_base58_blinded|rewrite from_base58_unblinded];
    rewrite ?b2n_n2b_small; auto; apply B. Qed.
(* C06 round trip, base58check forms.  The hash must return at least the four checksum bytes (SHA-256d returns 32). *)
Theorem roundtrip_base58 a : (forall x, 4 <= length (H x))%nat -> wf_addr pkv a -> ~ is_segwit a ->
  parse_with_params H pkv (display H a) (a_params a) = AOk a /\ from_str H pkv (display H a) = AOk a.
Proof. intros H4 WF NS. pose proof WF as (Ip & _).
  destruct (b58_payload_some a NS) as [d PD]. pose proof (from_base58_display a d WF PD) as FB.
  assert (E : parse_with_params H pkv (display H a) (a_params a) = AOk a); [|split; [exact E|apply from_str_spec; eauto]].
  rewrite (display_b58 H a d PD). pose proof (b58_check_roundtrip H d (H4 d)) as DC.
  rewrite parse_no_hrp by (intros bl; destruct (b58_accept_not_segwit _ d _ a _ Ip Ip DC FB); now destruct bl).
  apply parse_b58_ok. destruct (from_base58_ok _ _ _ _ FB) as (_ & _ & _ & _ & x & bs & -> & HP & L). split; [|eauto].
  assert (L4 : length (firstn 4 (H (x :: bs))) = 4%nat) by (rewrite firstn_length; specialize (H4 (x :: bs)); lia).
  destruct (b58_text_dispatch (a_params a) (b2n x) (bs ++ firstn 4 (H (x :: bs))) Ip HP) as [TL _]; [rewrite app_length, L4; lia|].
  rewrite n2b_b2n in TL. exact TL. Qed.

Theorem one_network_full s p1 p2 a1 a2 : In p1 builtin -> In p2 builtin ->
  parse_with_params H pkv s p1 = AOk a1 -> parse_with_params H pkv s p2 = AOk a2 -> p1 = p2.
Proof. intros I1 I2 E1 E2. destruct (parse_ok _ _ _ _ _ E1) as [(bl & M & _)|[_ B1]]; [symmetry; exact (hrp_owner s p1 bl p2 a2 I1 I2 M E2)|].
  destruct (parse_ok _ _ _ _ _ E2) as [(bl & M & _)|[_ B2]]; [exact (hrp_owner s p2 bl p1 a1 I2 I1 M E1)|].
  apply parse_b58_ok in B1 as (_ & d & DC & F1). apply parse_b58_ok in B2 as (_ & d' & DC' & F2). rewrite DC in DC'. injection DC' as <-.
  destruct (from_base58_ok _ _ _ _ F1) as (_ & _ & _ & _ & x & bs & -> & HP1 & _). destruct (from_base58_ok _ _ _ _ F2) as (_ & _ & _ & _ & x' & bs' & E & HP2 & _).
  injection E as <- _. exact (builtin_prefixes_distinct9 p1 p2 _ I1 I2 HP1 HP2). Qed.

(* C17: a 1-2 symbol corruption of the data part of a segwit address is rejected under every built-in network, for every hash: the
   corrupted text keeps its HRP, so no other network can read it either *)
Theorem address_corrupt_every_network p s a s' : In p builtin -> parse_with_params H pkv s p = AOk a -> is_segwit a -> data_edit s s' ->
  forall p', In p' builtin -> exists e, parse_with_params H pkv s' p' = AErr e.
Proof. intros Ip E SW ED p' Ip'. destruct (address_corrupt H pkv p s a s' Ip E SW ED) as (e & _ & Ee).
  destruct (parse_segwit _ _ _ _ _ E SW) as (bl & M & _). rewrite <- (data_edit_prefix _ _ ED) in M.
  destruct (parse_with_params H pkv s' p') as [a'|e'] eqn:E'; [|eauto]. rewrite (hrp_owner s' p bl p' a' Ip Ip' M E') in E'. congruence. Qed.
End B58Addr.

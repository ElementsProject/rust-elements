(* Encoding then decoding a segwit address (C06): regrouping of bits, character set, the checksum the encoder appends, and
   from_bech32 (display a) = a for every well-formed segwit address. *)
From Coq Require Import List NArith ZArith Bool Lia ZifyN ZifyBool ZifyNat.
From Coq.Strings Require Import Byte.
From EV Require Import Base.Bytes Model.Bech32 Model.Base58 Model.Address Proofs.Bech32 Proofs.Bech32Codes Proofs.Bech32Enc Proofs.Address Proofs.Numeral.
Ltac Zify.zify_post_hook ::= Z.div_mod_to_equations.
Import ListNotations.
Open Scope N_scope.

Lemma bits_of_S k v : bits_of (S k) v = N.testbit v (N.of_nat k) :: bits_of k v.
Proof. unfold bits_of. rewrite seq_S, rev_app_distr. reflexivity. Qed.
Lemma val_of_value bs : forall acc, val_of bs acc = value 2 (map N.b2n bs) acc.
Proof. induction bs as [|b r IH]; intros acc; [reflexivity|]. cbn [val_of map value]. rewrite IH, (N.mul_comm 2 acc). reflexivity. Qed.
Lemma val_of_acc bs acc : val_of bs acc = acc * 2 ^ N.of_nat (length bs) + val_of bs 0.
Proof. rewrite !val_of_value, (value_acc 2 (N.le_refl 2)), map_length. reflexivity. Qed.
Lemma val_bits k : forall v, val_of (bits_of k v) 0 = v mod 2 ^ N.of_nat k.
Proof. induction k as [|k IH]; intros v; [cbn; now rewrite N.mod_1_r|]. rewrite bits_of_S. cbn [val_of].
  rewrite val_of_acc, bits_of_length, IH, Nnat.Nat2N.inj_succ, N.pow_succ_r', (N.mul_comm 2 (2 ^ _)), N.mod_mul_r, <- N.testbit_spec' by (try apply N.pow_nonzero; lia).
  destruct (N.testbit v (N.of_nat k)); cbn [N.b2n]; lia. Qed.
Lemma val_of_lt bs : val_of bs 0 < 2 ^ N.of_nat (length bs).
Proof. pose proof (value_lt 2 (N.le_refl 2) (map N.b2n bs)) as L. rewrite map_length, <- val_of_value in L. apply L.
  apply Forall_forall. intros d Id. apply in_map_iff in Id as ([|] & <- & _); reflexivity. Qed.
Lemma bits_val bs : bits_of (length bs) (val_of bs 0) = bs.
Proof. induction bs as [|b r IH]; [reflexivity|]. cbn [length val_of]. rewrite bits_of_S, val_of_acc. pose proof (val_of_lt r) as L.
  set (k := N.of_nat (length r)) in *. change (2 * 0 + (if b then 1 else 0)) with (N.b2n b).
  (* the value is b * 2^k + (value of r), value of r < 2^k: bit k is b, the bits below are those of r *)
  f_equal.
  - rewrite N.testbit_eqb, <- (N.div_unique _ (2 ^ k) (N.b2n b) (val_of r 0) L) by apply (f_equal (fun t => t + _)), N.mul_comm. now destruct b.
  - rewrite <- IH at 3. unfold bits_of. apply map_ext_in. intros i Ii. apply in_rev, in_seq in Ii.
    rewrite <- (N.mod_pow2_bits_low _ k) by lia. f_equal. rewrite N.add_comm, N.mod_add, N.mod_small; [reflexivity|assumption|apply N.pow_nonzero; lia]. Qed.
Lemma bits5_val a b c d e : bits_of 5 (val_of [a; b; c; d; e] 0) = [a; b; c; d; e].
Proof. exact (bits_val [a; b; c; d; e]). Qed.

Lemma chunk8_short pad : (length pad < 8)%nat -> chunk8 pad = [].
Proof. intros L. do 8 (destruct pad as [|? pad]; [reflexivity|]). cbn [length] in L. lia. Qed.
Lemma chunk8_bytes data : forall pad, (length pad < 8)%nat -> chunk8 (bits_of_bytes data ++ pad) = data.
Proof. induction data as [|b r IH]; intros pad L; [now apply chunk8_short|]. unfold bits_of_bytes in *. cbn [flat_map]. rewrite <- app_assoc.
  change (chunk8 (bits_of 8 (b2n b) ++ ?t)) with (n2b (val_of (bits_of 8 (b2n b)) 0) :: chunk8 t).
  rewrite val_bits, N.mod_small, n2b_b2n, IH by (assumption || apply b2n_lt). reflexivity. Qed.

Lemma by_fives (P : list bool -> Prop) :
  (forall bs, (length bs < 5)%nat -> P bs) -> (forall a b c d e r, P r -> P (a :: b :: c :: d :: e :: r)) -> forall bs, P bs.
Proof. intros Short Step. assert (A : forall m bs, (length bs < 5 * S m)%nat -> P bs); [|intros bs; apply (A (length bs)); lia].
  induction m as [|m IH]; intros bs L; destruct bs as [|a [|b [|c [|d [|e r]]]]]; try (apply Short; cbn [length]; lia); cbn [length] in L.
  - lia.
  - apply Step, IH. lia. Qed.

(* chunk5: what the symbols spell out, how many there are, and the zero padding of the last one *)
Definition padlen (k : nat) : nat := ((5 - k mod 5) mod 5)%nat.
Lemma chunk5_spec bs :
  bits_of_syms (chunk5 bs) = bs ++ repeat false (padlen (length bs)) /\
  length (chunk5 bs) = ((length bs + 4) / 5)%nat /\
  (bs <> [] -> N.land (last (chunk5 bs) 0) (N.ones (N.of_nat (padlen (length bs)))) = 0).
Proof. induction bs as [bs L|a b c d e r (S1 & S2 & S3)] using by_fives.
  - destruct bs as [|a [|b [|c [|d [|e r]]]]]; cbn [length] in L; try lia; unfold bits_of_syms; cbn [chunk5 flat_map app];
      rewrite ?bits5_val; repeat split; try reflexivity; intros _.
    + destruct a; reflexivity.
    + destruct a, b; reflexivity.
    + destruct a, b, c; reflexivity.
    + destruct a, b, c, d; reflexivity.
  - assert (PL : padlen (length (a :: b :: c :: d :: e :: r)) = padlen (length r)).
    { unfold padlen. cbn [length]. replace (S (S (S (S (S (length r)))))) with (length r + 1 * 5)%nat by lia. now rewrite Nat.mod_add by lia. }
    rewrite PL. unfold bits_of_syms in *. cbn [chunk5 flat_map]. rewrite bits5_val, S1. cbn [app length]. rewrite S2. repeat split.
    + lia.
    + intros _. destruct r as [|x r'].
      * cbn. apply N.land_0_r.
      * assert (NE : chunk5 (x :: r') <> []) by (intros Z; apply (f_equal (@length N)) in Z; rewrite S2 in Z; cbn [length] in Z; lia).
        destruct (chunk5 (x :: r')) as [|y ys] eqn:C; [contradiction|]. cbn [last]. apply S3. discriminate. Qed.

Lemma chunk5_sym bs : sym_word (chunk5 bs).
Proof. induction bs as [bs L|a b c d e r IH] using by_fives.
  - destruct bs as [|a [|b [|c [|d [|e r]]]]]; cbn [length] in L; try lia; cbn [chunk5]; repeat constructor; exact (val_of_lt [_; _; _; _; _]).
  - cbn [chunk5]. constructor; [exact (val_of_lt [a; b; c; d; e])|exact IH]. Qed.
Lemma fes_bytes_roundtrip data : fes_to_bytes (bytes_to_fes data) = data.
Proof. unfold fes_to_bytes, bytes_to_fes. destruct (chunk5_spec (bits_of_bytes data)) as (S1 & _).
  rewrite S1. apply chunk8_bytes. rewrite repeat_length. unfold padlen. lia. Qed.
Lemma bits_of_bytes_length data : length (bits_of_bytes data) = (8 * length data)%nat.
Proof. induction data as [|b r IH]; [reflexivity|]. unfold bits_of_bytes in *. cbn [flat_map length]. rewrite app_length, bits_of_length, IH. lia. Qed.
Lemma bytes_to_fes_length data : length (bytes_to_fes data) = ((8 * length data + 4) / 5)%nat.
Proof. unfold bytes_to_fes. destruct (chunk5_spec (bits_of_bytes data)) as (_ & S2 & _).
  now rewrite S2, bits_of_bytes_length. Qed.
Lemma bytes_to_fes_padding data : validate_padding (bytes_to_fes data) = Ok tt.
Proof. unfold validate_padding. destruct (bytes_to_fes data) as [|x xs] eqn:E; [reflexivity|]. rewrite <- E. clear x xs E.
  destruct (chunk5_spec (bits_of_bytes data)) as (_ & S2 & S3). fold (bytes_to_fes data) in *.
  rewrite bits_of_bytes_length in *. rewrite S2.
  assert (PD : ((8 * length data + 4) / 5 * 5 mod 8 = padlen (8 * length data))%nat) by (unfold padlen; lia).
  rewrite PD. destruct (Nat.ltb_spec 4 (padlen (8 * length data))) as [L|L]; [unfold padlen in L; lia|].
  destruct data as [|b r]; [reflexivity|]. rewrite S3; [reflexivity|]. intros Z. apply (f_equal (@length bool)) in Z. rewrite bits_of_bytes_length in Z. discriminate Z. Qed.

Lemma to_char_facts v : v < 32 -> from_char (to_char v) = Some v /\ is_upper (to_char v) = false.
Proof. intros L. assert (I : In v (map N.of_nat (seq 0 32))) by (apply in_map_iff; exists (N.to_nat v); split; [apply Nnat.N2Nat.id|apply in_seq; lia]).
  cbn in I. repeat (destruct I as [<-|I]; [split; reflexivity|]). contradiction. Qed.
Lemma to_lower_not_upper b : is_upper (to_lower b) = false.
Proof. destruct b; reflexivity. Qed.

Lemma lower_no_upper s : existsb is_upper (lower s) = false.
Proof. induction s as [|b r IH]; [reflexivity|]. cbn [lower map existsb]. now rewrite to_lower_not_upper. Qed.
Lemma word_chars w : sym_word w -> syms_of (map to_char w) = Some w /\ existsb is_upper (map to_char w) = false.
Proof. unfold syms_of. induction w as [|v w IH]; intros S; [now split|]. inversion S as [|? ? Hv Hw]; subst.
  destruct (to_char_facts v Hv) as (F1 & F2). destruct (IH Hw) as (I1 & I2). cbn [map all_some existsb]. now rewrite F1, I1, F2, I2. Qed.

Lemma checksum_valid c : In c the_codes -> forall pre, sym_word pre -> valid_codeword c (pre ++ checksum_syms c pre) = true.
Proof. intros I pre Hp. apply valid_codeword_iff.
  destruct (the_codes_bounds c I) as (X1 & X2 & X3). exact (checksum_verifies (c_gen c) (c_len c) X1 X2 (c_target c) pre X3 Hp). Qed.
Lemma checksum_syms_length c pre : length (checksum_syms c pre) = c_len c.
Proof. unfold checksum_syms. apply unpack_all_length. Qed.
Lemma checksum_syms_sym c pre : sym_word (checksum_syms c pre).
Proof. unfold checksum_syms. apply unpack_all_syms. Qed.

Lemma bytes_to_fes_sym data : sym_word (bytes_to_fes data).
Proof. apply chunk5_sym. Qed.

Lemma encode_segwit_chars c h v data : v < 32 -> let w := v :: bytes_to_fes data ++ checksum_syms c (hrp_expand h ++ v :: bytes_to_fes data) in
  encode_segwit c h v data = lower h ++ x31 :: map to_char w /\ syms_of (map to_char w) = Some w /\ existsb is_upper (map to_char w) = false.
Proof. intros V w. split; [reflexivity|]. apply word_chars. constructor; [exact V|]. apply Forall_app. split; [apply bytes_to_fes_sym|apply checksum_syms_sym]. Qed.
Lemma encode_segwit_prefix c h v data : v < 32 -> find_prefix (encode_segwit c h v data) = lower h.
Proof. intros V. destruct (encode_segwit_chars c h v data V) as (-> & S & _). eapply find_prefix_rsplit, rsplit_app, (syms_of_no_sep _ _ S). Qed.

Lemma encode_decode bl h v data : lower h = h -> hrp_parse h = Ok tt -> v <= 16 ->
  (bl = false -> (length h + length (bytes_to_fes data) + 8 <= 90)%nat) -> validate_wpl (sw_cfg bl) v (bytes_to_fes data) = Ok tt ->
  segwit_decode (sw_cfg bl) (encode_segwit (required_code bl v) h v data) = Ok (v, data).
Proof. intros LH PH LV LS VW. set (c := required_code bl v). destruct (encode_segwit_chars c h v data) as (E & S & U); [lia|].
  assert (LEN : length (encode_segwit c h v data) = (length h + length (bytes_to_fes data) + c_len c + 2)%nat)
    by (rewrite E, LH, app_length; cbn [length]; rewrite map_length; cbn [length]; rewrite app_length, checksum_syms_length; lia).
  apply (segwit_decode_ok _ _ _ _ (sw_code_len bl _)). rewrite code_for_sw. fold c.
  exists h, (map to_char (v :: bytes_to_fes data ++ checksum_syms c (hrp_expand h ++ v :: bytes_to_fes data))), (bytes_to_fes data), (checksum_syms c (hrp_expand h ++ v :: bytes_to_fes data)).
  pose proof (required_code_len bl v) as CL. fold c in CL. rewrite LEN, CL. repeat split.
  - rewrite E, LH. apply rsplit_app, (syms_of_no_sep _ _ S).
  - rewrite E, existsb_app, lower_no_upper. cbn [existsb]. now rewrite U.
  - exact PH.
  - exact S.
  - now rewrite checksum_syms_length.
  - now destruct bl.
  - destruct bl; [exact I|]. specialize (LS eq_refl). cbn. lia.
  - destruct bl; [exact I|]. specialize (LS eq_refl). cbn. lia.
  - change (v :: bytes_to_fes data ++ ?k) with ((v :: bytes_to_fes data) ++ k). rewrite app_assoc. apply checksum_valid; [apply required_code_in|].
    apply Forall_app. split; [apply hrp_expand_sym|]. constructor; [lia|apply bytes_to_fes_sym].
  - apply bytes_to_fes_padding.
  - exact VW.
  - symmetry. apply fes_bytes_roundtrip. Qed.

Definition wf_addr (pkv : bytes -> bool) (a : address) : Prop :=
  In (a_params a) builtin /\
  match a_blinder a with Some b => length b = 33%nat /\ pkv b = true | None => True end /\
  match a_payload a with
  | PubkeyHash h | ScriptHash h => length h = 20%nat
  | WitnessProgram v prog => v <= 16 /\ (2 <= length prog <= 40)%nat /\ (v = 0 -> length prog = 20%nat \/ length prog = 32%nat) end.

Lemma builtin_hrp_facts p bl : In p builtin -> let h := hrp_of p bl in lower h = h /\ hrp_parse h = Ok tt /\ (length h <= 3)%nat.
Proof. intros I. cbn in I. destruct I as [<-|[<-|[<-|[]]]], bl; vm_compute; repeat split; lia. Qed.

Section RT.
Variable H : bytes -> bytes. Variable pkv : bytes -> bool.

Lemma from_bech32_display a : wf_addr pkv a -> is_segwit a -> from_bech32 pkv (display H a) (is_blinded a) (a_params a) = AOk a.
Proof. intros (Ip & KO & PO) (v & prog & EP). rewrite EP in PO. destruct PO as (LV & LP & V0).
  apply from_bech32_ok. exists v, prog. repeat split; try assumption; try lia. rewrite (display_segwit H a v prog EP).
  destruct (builtin_hrp_facts (a_params a) (is_blinded a) Ip) as (F1 & F2 & F3).
  pose proof (wit_data_length pkv a prog KO) as LD.
  apply encode_decode; try assumption.
  - intros B. rewrite B in LD. rewrite bytes_to_fes_length, LD. lia.
  - destruct (sw_cfg_limits (is_blinded a)) as (_ & F4 & F5 & F6 & F7). apply validate_wpl_ok. rewrite bytes_to_fes_length, LD, F4, F5, F6, F7. lia. Qed.
Lemma display_prefix a : wf_addr pkv a -> is_segwit a -> find_prefix (display H a) = hrp_of (a_params a) (is_blinded a).
Proof. intros (Ip & _ & PO) (v & prog & EP). rewrite EP in PO. rewrite (display_segwit H a v prog EP), encode_segwit_prefix by lia.
  apply (builtin_hrp_facts _ _ Ip). Qed.
End RT.

(* C14, order and grouping independence for families: every binary merge tree over every permutation of a family of compatible
   descendants succeeds and yields the same PSET.
   Method: a merge result is characterised as a JOIN of the leaves below it (`joins`): first-wins / max fields hold the value that some
   leaf holds (all leaves that hold one agree), OR-ed flags hold the OR over the leaves, key-value fields hold exactly the pairs of the
   leaves, unmerged fields hold what every leaf holds.  Merging a join of L1 into a join of L2 gives a join of L1 ++ L2 (`joins_merge`),
   a leaf is a join of itself, and two joins of permuted leaf lists are equal (`joins_unique`). *)
From Coq Require Import List NArith Bool Lia Arith Permutation.
From Coq.Strings Require Import Byte.
From EV Require Import Base.Bytes Gen.Tables Model.PsetMap Model.PsetMerge Model.PsetTx Proofs.PsetMap Proofs.PsetMerge Proofs.PsetTx.
Import ListNotations.

Inductive ukind := UFirst | UOr | UKeep.
Definition ukind_of (p : merge_policy) : ukind :=
  match p with MP_FirstWins | MP_FirstWinsClearing _ | MP_Max => UFirst | MP_OrFlags => UOr | _ => UKeep end.
Definition lorfold (f : field) (L : list pmap) : N := fold_right (fun m acc => N.lor (flag_of (unk m f)) acc) 0%N L.

Record joins (tbl : list (field * merge_policy)) (L : list pmap) (c : pmap) : Prop := {
  j_wf : wf_map c;
  j_unk : forall f, match ukind_of (policy_of tbl f) with
                    | UFirst => forall v, unk c f = Some v <-> exists m, In m L /\ unk m f = Some v
                    | UOr => (forall m, L = [m] -> unk c f = unk m f) /\ ((2 <= length L)%nat -> unk c f = Some [n2b (lorfold f L)])
                    | UKeep => forall m, In m L -> unk c f = unk m f
                    end;
  j_kyd : forall f, if keeps_kyd (policy_of tbl f)
                    then forall k v, al_find k (kyd c f) = Some v <-> exists m, In m L /\ al_find k (kyd m f) = Some v
                    else forall m, In m L -> kyd c f = kyd m f }.

(* the family: every two members (also a member and itself) satisfy the hypotheses of C14_commutes *)
Definition fam_ok (tbl : list (field * merge_policy)) (F : list pmap) : Prop := forall m m', In m F -> In m' F -> pair_ok tbl m m'.

Lemma keeps_unk_ukind p : keeps_unk p = false <-> ukind_of p = UKeep.
Proof. destruct p; cbn; split; congruence. Qed.

Lemma flag_of_lt v : (flag_of v < 256)%N.
Proof. unfold flag_of. destruct v as [[|x r]|]; try lia. apply b2n_lt. Qed.
Lemma lor_lt256 a b : (a < 256 -> b < 256 -> N.lor a b < 256)%N.
Proof.
  intros A B. rewrite <- (N.mod_small a 256 A), <- (N.mod_small b 256 B). change 256%N with (2 ^ 8)%N.
  rewrite <- !N.land_ones, <- N.land_lor_distr_l, N.land_ones. now apply N.mod_lt.
Qed.
Lemma lorfold_lt f L : (lorfold f L < 256)%N.
Proof. induction L as [|m L IH]; cbn [lorfold fold_right]; [lia|]. apply lor_lt256; [apply flag_of_lt|exact IH]. Qed.
Lemma lorfold_app f L1 L2 : lorfold f (L1 ++ L2) = N.lor (lorfold f L1) (lorfold f L2).
Proof. induction L1 as [|m L IH]; cbn [lorfold fold_right app]; [reflexivity|]. fold (lorfold f (L ++ L2)) (lorfold f L). now rewrite IH, N.lor_assoc. Qed.
Lemma lorfold_perm f L L' : Permutation L L' -> lorfold f L = lorfold f L'.
Proof.
  induction 1 as [|m L L' P IH|m m' L|L L' L'' P1 IH1 P2 IH2]; cbn [lorfold fold_right]; try congruence.
  - fold (lorfold f L) (lorfold f L'). now rewrite IH.
  - rewrite !N.lor_assoc. f_equal. apply N.lor_comm.
Qed.

Definition some_of {M} (L : list M) (g : M -> option bytes) (a : option bytes) : Prop :=
  forall v, a = Some v <-> exists m, In m L /\ g m = Some v.
Lemma some_of_leaf {M} (m : M) g : some_of [m] g (g m).
Proof. intros v. split; [intros H; exists m; split; [now left|exact H]|intros [m' [[<-|[]] H]]; exact H]. Qed.
Lemma some_of_none {M} (L : list M) g a : some_of L g a -> a = None <-> forall m, In m L -> g m = None.
Proof.
  intros H. split.
  - intros -> m Im. destruct (g m) as [v|] eqn:E; [|reflexivity]. symmetry. apply H. eauto.
  - intros N. destruct a as [v|]; [|reflexivity]. destruct (proj1 (H v) eq_refl) as [m [Im E]]. now rewrite (N m Im) in E.
Qed.
Lemma some_of_agree {M} (L1 L2 : list M) g a b : some_of L1 g a -> some_of L2 g b ->
  (forall m m', In m L1 -> In m' L2 -> forall x y, g m = Some x -> g m' = Some y -> x = y) -> forall x y, a = Some x -> b = Some y -> x = y.
Proof. intros HA HB C x y A B. apply HA in A as [m [Im A]]. apply HB in B as [m' [Im' B]]. exact (C m m' Im Im' x y A B). Qed.
Lemma some_of_app {M} (L1 L2 : list M) g a b : some_of L1 g a -> some_of L2 g b -> (forall x y, a = Some x -> b = Some y -> x = y) ->
  some_of (L1 ++ L2) g (first_wins a b).
Proof.
  intros HA HB C v. split.
  - destruct a as [x|]; cbn [first_wins]; intros E; [apply HA in E|apply HB in E]; destruct E as [m [Im E]];
      exists m; (split; [apply in_or_app; auto|exact E]).
  - intros [m [Im E]]. apply in_app_or in Im as [Im|Im].
    + assert (a = Some v) as -> by (apply HA; eauto). reflexivity.
    + assert (b = Some v) as B by (apply HB; eauto). destruct a as [x|]; cbn [first_wins]; [f_equal; eauto|exact B].
Qed.
Lemma some_of_perm {M} (L L' : list M) g a b : Permutation L L' -> some_of L g a -> some_of L' g b -> a = b.
Proof.
  intros P HA HB. destruct a as [v|].
  - destruct (proj1 (HA v) eq_refl) as [m [Im A]]. symmetry. apply HB. exists m. split; [eapply Permutation_in; eauto|exact A].
  - symmetry. apply (some_of_none _ _ _ HB). intros m Im. apply (proj1 (some_of_none _ _ _ HA) eq_refl). eapply Permutation_in; [apply Permutation_sym; exact P|exact Im].
Qed.

Definition all_of {M A} (L : list M) (g : M -> A) (a : A) : Prop := forall m, In m L -> a = g m.
Lemma all_of_leaf {M A} (m : M) (g : M -> A) : all_of [m] g (g m).
Proof. intros m' [<-|[]]. reflexivity. Qed.
Lemma all_of_app {M A} (L1 L2 : list M) (g : M -> A) a : L1 <> [] -> (forall m m', In m L1 -> In m' L2 -> g m = g m') ->
  all_of L1 g a -> all_of (L1 ++ L2) g a.
Proof.
  intros NE C H m Im. apply in_app_or in Im as [Im|Im]; [now apply H|].
  destruct L1 as [|m1 r]; [contradiction|]. rewrite (H m1 (in_eq _ _)). apply C; [apply in_eq|exact Im].
Qed.
Lemma all_of_perm {M A} (L L' : list M) (g : M -> A) a b : L <> [] -> Permutation L L' -> all_of L g a -> all_of L' g b -> a = b.
Proof. intros NE P HA HB. destruct L as [|m r]; [contradiction|]. rewrite (HA m (in_eq _ _)). symmetry. apply HB. exact (Permutation_in _ P (in_eq _ _)). Qed.

Definition or_of (f : field) (L : list pmap) (a : option bytes) : Prop :=
  (forall m, L = [m] -> a = unk m f) /\ ((2 <= length L)%nat -> a = Some [n2b (lorfold f L)]).
Lemma or_of_leaf f m : or_of f [m] (unk m f).
Proof. split; [intros m' [= <-]; reflexivity|cbn; lia]. Qed.
Lemma or_of_flag f L a : L <> [] -> or_of f L a -> flag_of a = lorfold f L.
Proof.
  intros NE [H1 H2]. destruct L as [|m [|m' r]]; [contradiction| |].
  - rewrite (H1 m eq_refl). cbn. now rewrite N.lor_0_r.
  - rewrite H2 by (cbn; lia). cbn [flag_of]. apply b2n_n2b_small, lorfold_lt.
Qed.
Lemma or_of_app f L1 L2 a b : L1 <> [] -> L2 <> [] -> or_of f L1 a -> or_of f L2 b -> or_of f (L1 ++ L2) (or_flags a b).
Proof.
  intros N1 N2 HA HB. split.
  - intros m E. destruct L1 as [|? [|? ?]], L2 as [|? ?]; try contradiction; discriminate E.
  - intros _. unfold or_flags. now rewrite (or_of_flag f L1 a N1 HA), (or_of_flag f L2 b N2 HB), lorfold_app.
Qed.
Lemma or_of_perm f L L' a b : L <> [] -> Permutation L L' -> or_of f L a -> or_of f L' b -> a = b.
Proof.
  intros NE P [A1 A2] [B1 B2]. pose proof (Permutation_length P) as LEN. destruct L as [|m [|m' r]]; [contradiction| |].
  - apply Permutation_length_1_inv in P. subst L'. now rewrite (A1 m eq_refl), (B1 m eq_refl).
  - rewrite A2 by (cbn; lia). rewrite B2 by (rewrite <- LEN; cbn; lia). now rewrite (lorfold_perm f _ _ P).
Qed.

Lemma joins_first tbl L c f : joins tbl L c -> ukind_of (policy_of tbl f) = UFirst -> some_of L (fun m => unk m f) (unk c f).
Proof. intros J U. pose proof (j_unk _ _ _ J f) as H. now rewrite U in H. Qed.
Lemma joins_kept tbl L c f k : joins tbl L c -> keeps_kyd (policy_of tbl f) = true -> some_of L (fun m => al_find k (kyd m f)) (al_find k (kyd c f)).
Proof. intros J K. pose proof (j_kyd _ _ _ J f) as H. rewrite K in H. exact (H k). Qed.

Lemma joins_leaf tbl m : wf_map m -> joins tbl [m] m.
Proof.
  intros W. constructor; [exact W| |].
  - intros f. destruct (ukind_of (policy_of tbl f)).
    + apply (some_of_leaf m (fun m => unk m f)).
    + apply or_of_leaf.
    + apply (all_of_leaf m (fun m => unk m f)).
  - intros f. destruct (keeps_kyd (policy_of tbl f)).
    + intros k. apply (some_of_leaf m (fun m => al_find k (kyd m f))).
    + apply (all_of_leaf m (fun m => kyd m f)).
Qed.

(* what a statement makes of an optional field, by kind; first-wins and max coincide when the operands cannot disagree *)
Lemma apply_unk_first p a b : ukind_of p = UFirst -> (forall x y, a = Some x -> b = Some y -> x = y) -> apply_unk p a b = first_wins a b.
Proof.
  intros U C. destruct p; cbn [ukind_of] in U; try discriminate; cbn [apply_unk]; try reflexivity.
  destruct a as [x|], b as [y|]; cbn [max_opt first_wins]; try reflexivity. rewrite (C x y eq_refl eq_refl). now rewrite N.ltb_irrefl.
Qed.
Lemma apply_unk_or p a b : ukind_of p = UOr -> apply_unk p a b = or_flags a b.
Proof. destruct p; try discriminate; reflexivity. Qed.
Lemma apply_unk_keep p a b : ukind_of p = UKeep -> apply_unk p a b = a.
Proof. destruct p; try discriminate; reflexivity. Qed.

Section Step.
  Variables (guarded : bool) (tbl : list (field * merge_policy)) (F : list pmap).
  Hypothesis ND : nodup_fields tbl = true.
  Hypothesis VC : vecops_canonical tbl = true.
  Hypothesis FAM : fam_ok tbl F.

  Lemma joins_merge L1 L2 c d : incl L1 F -> incl L2 F -> L1 <> [] -> L2 <> [] -> joins tbl L1 c -> joins tbl L2 d ->
    exists e, run_steps guarded tbl c d = Val e /\ joins tbl (L1 ++ L2) e.
  Proof.
    intros I1 I2 N1 N2 JC JD.
    assert (forall m m', In m L1 -> In m' L2 -> pair_ok tbl m m') as PO by (intros m m' Im Im'; apply FAM; auto).
    (* what c and d hold, members of the family hold, and those cannot disagree *)
    assert (forall f, keeps_kyd (policy_of tbl f) = true -> al_agree (kyd c f) (kyd d f)) as CK.
    { intros f K k. apply (some_of_agree L1 L2 _ _ _ (joins_kept _ _ _ f k JC K) (joins_kept _ _ _ f k JD K)).
      intros m m' Im Im'. exact (proj2 (po_compat _ _ _ (PO m m' Im Im')) f k). }
    assert (forall f, ukind_of (policy_of tbl f) = UFirst -> forall x y, unk c f = Some x -> unk d f = Some y -> x = y) as CU.
    { intros f K. apply (some_of_agree L1 L2 _ _ _ (joins_first _ _ _ f JC K) (joins_first _ _ _ f JD K)).
      intros m m' Im Im'. exact (proj1 (po_compat _ _ _ (PO m m' Im Im')) f). }
    (* no clearing statement fires: if c has no value, no member of L1 has one, so no member of L2 and then d has none *)
    assert (quiet tbl c d) as Q.
    { intros f cl I A. assert (ukind_of (policy_of tbl f) = UFirst) as K by now rewrite (In_policy_of _ _ _ ND I).
      apply (some_of_none _ _ _ (joins_first _ _ _ f JD K)). intros m' Im'. destruct L1 as [|m r]; [contradiction|].
      apply (po_quiet_ab _ _ _ (PO m m' (in_eq _ _) Im') f cl I). exact (proj1 (some_of_none _ _ _ (joins_first _ _ _ f JC K)) A m (in_eq _ _)). }
    destruct (run_steps_result guarded tbl c d ND VC (j_wf _ _ _ JC) (j_wf _ _ _ JD) CK Q) as [e [HE E]].
    exists e. split; [exact HE|]. constructor.
    - intros f. apply (E f).
    - intros f. destruct (E f) as (_ & -> & _). pose proof (j_unk _ _ _ JC f) as HC. pose proof (j_unk _ _ _ JD f) as HD.
      destruct (ukind_of (policy_of tbl f)) eqn:K.
      + rewrite (apply_unk_first _ _ _ K (CU f K)). exact (some_of_app L1 L2 (fun m => unk m f) _ _ HC HD (CU f K)).
      + rewrite (apply_unk_or _ _ _ K). exact (or_of_app f L1 L2 _ _ N1 N2 HC HD).
      + rewrite (apply_unk_keep _ _ _ K). apply (all_of_app L1 L2 (fun m => unk m f) _ N1); [|exact HC].
        intros m m' Im Im'. apply (po_agree _ _ _ (PO m m' Im Im') f). now apply keeps_unk_ukind.
    - intros f. destruct (E f) as (_ & _ & R). pose proof (j_kyd _ _ _ JC f) as HC. pose proof (j_kyd _ _ _ JD f) as HD. revert R.
      destruct (keeps_kyd (policy_of tbl f)) eqn:K.
      + intros R k. rewrite R. exact (some_of_app L1 L2 (fun m => al_find k (kyd m f)) _ _ (HC k) (HD k) (CK f K k)).
      + intros ->. apply (all_of_app L1 L2 (fun m => kyd m f) _ N1); [|exact HC].
        intros m m' Im Im'. now apply (po_agree _ _ _ (PO m m' Im Im') f).
  Qed.

  Lemma joins_unique L L' c c' : incl L F -> L <> [] -> Permutation L L' -> joins tbl L c -> joins tbl L' c' -> map_equiv c c'.
  Proof.
    intros I NE P JC JD f. split.
    - pose proof (j_unk _ _ _ JC f) as HC. pose proof (j_unk _ _ _ JD f) as HD. destruct (ukind_of (policy_of tbl f)).
      + exact (some_of_perm L L' (fun m => unk m f) _ _ P HC HD).
      + exact (or_of_perm f L L' _ _ NE P HC HD).
      + exact (all_of_perm L L' (fun m => unk m f) _ _ NE P HC HD).
    - pose proof (j_kyd _ _ _ JC f) as HC. pose proof (j_kyd _ _ _ JD f) as HD. destruct (keeps_kyd (policy_of tbl f)).
      + apply al_sorted_ext; [apply (j_wf _ _ _ JC)|apply (j_wf _ _ _ JD)|]. intros k.
        exact (some_of_perm L L' (fun m => al_find k (kyd m f)) _ _ P (HC k) (HD k)).
      + exact (all_of_perm L L' (fun m => kyd m f) _ _ NE P HC HD).
  Qed.
End Step.

Local Open Scope nat_scope.
Lemma zip_merge_pointwise (mm : pmap -> pmap -> outcome pmap) : forall xs ys n (P : nat -> pmap -> Prop),
  length xs = n -> length ys = n ->
  (forall i, i < n -> exists e, mm (nth i xs empty_map) (nth i ys empty_map) = Val e /\ P i e) ->
  exists cs, zip_merge mm xs ys = Val cs /\ length cs = n /\ forall i, i < n -> P i (nth i cs empty_map).
Proof.
  induction xs as [|x xs IH]; intros [|y ys] n P LX LY H; cbn in LX, LY; subst n; try discriminate.
  - exists []. repeat split. intros i Hi. cbn in Hi. lia.
  - destruct (H 0) as [e [E PE]]; [cbn; lia|]. cbn [nth] in E.
    destruct (IH ys (length xs) (fun i => P (S i)) eq_refl) as [cs [Z [LC PC]]]; [cbn in LY; lia| |].
    { intros i Hi. apply (H (S i)). cbn. lia. }
    exists (e :: cs). cbn [zip_merge]. rewrite E, Z. cbn [obind]. split; [reflexivity|]. split; [cbn; now rewrite LC|].
    intros [|i] Hi; cbn [nth]; [exact PE|]. apply PC. cbn in Hi. lia.
Qed.

Definition no_or (tbl : list (field * merge_policy)) (fs : list field) : bool :=
  forallb (fun f => match ukind_of (policy_of tbl f) with UOr => false | _ => true end) fs.
Lemma joins_agree tbl fs L c m : no_or tbl fs = true -> joins tbl L c -> In m L -> (forall m', In m' L -> agree_on fs m m') -> agree_on fs m c.
Proof.
  intros NO J Im AG f If. unfold no_or in NO. rewrite forallb_forall in NO. specialize (NO f If).
  pose proof (j_unk _ _ _ J f) as H. destruct (ukind_of (policy_of tbl f)); try discriminate.
  - destruct (unk c f) as [v|].
    + destruct (proj1 (H v) eq_refl) as [m' [Im' A]]. now rewrite (AG m' Im' f If).
    + destruct (unk m f) as [v|] eqn:M; [|reflexivity]. symmetry. apply (H v). eauto.
  - symmetry. now apply H.
Qed.

Definition gcol (L : list pset) : list pmap := map pglobal L.
Definition icol (i : nat) (L : list pset) : list pmap := map (fun p => nth i (pinputs p) empty_map) L.
Definition ocol (i : nat) (L : list pset) : list pmap := map (fun p => nth i (poutputs p) empty_map) L.

(* the family: same shape, pairwise the hypotheses of C14_commutes, pairwise agreement on the transaction-identifying fields
   (the latter excludes the lock-time-max finding: no member changes a required lock time) *)
Record pfam (T : tables) (cl : list field) (F : list pset) (ni no : nat) : Prop := {
  pf_shape : forall p, In p F -> length (pinputs p) = ni /\ length (poutputs p) = no;
  pf_pair : forall p q, In p F -> In q F -> pset_pair_ok T p q;
  pf_agree : forall p q, In p F -> In q F -> pset_agree cl p q }.

Record pset_joins (T : tables) (ni no : nat) (L : list pset) (c : pset) : Prop := {
  pj_global : joins (t_global T) (gcol L) (pglobal c);
  pj_ni : length (pinputs c) = ni;
  pj_no : length (poutputs c) = no;
  pj_inputs : forall i, i < ni -> joins (t_input T) (icol i L) (nth i (pinputs c) empty_map);
  pj_outputs : forall i, i < no -> joins (t_output T) (ocol i L) (nth i (poutputs c) empty_map) }.

Definition tables_no_or (T : tables) (cl : list field) : bool :=
  no_or (t_global T) uid_global_fields && no_or (t_input T) (uid_input_fields cl) && no_or (t_output T) uid_output_fields.

(* one position of a family of PSETs (the global map, the i-th input, the i-th output): the maps g p of the members p are merged by tbl,
   and fs are the transaction-identifying fields of the position *)
Record position (tbl : list (field * merge_policy)) (fs : list field) (F : list pset) (g : pset -> pmap) : Prop := {
  ps_nodup : nodup_fields tbl = true;
  ps_canon : vecops_canonical tbl = true;
  ps_no_or : no_or tbl fs = true;
  ps_pair : forall p q, In p F -> In q F -> pair_ok tbl (g p) (g q);
  ps_agree : forall p q, In p F -> In q F -> agree_on fs (g p) (g q) }.

Section Position.
  Variables (guarded : bool) (tbl : list (field * merge_policy)) (fs : list field) (F : list pset) (g : pset -> pmap).
  Hypothesis POS : position tbl fs F g.

  Lemma map_nonempty (L : list pset) : L <> [] -> map g L <> [].
  Proof. intros NE E. now apply map_eq_nil in E. Qed.
  Lemma pos_fam : fam_ok tbl (map g F).
  Proof. intros m m' I I'. apply in_map_iff in I as [p [<- Ip]]. apply in_map_iff in I' as [q [<- Iq]]. now apply (ps_pair _ _ _ _ POS). Qed.
  Lemma pos_leaf p : In p F -> joins tbl (map g [p]) (g p).
  Proof. intros Ip. apply joins_leaf, (po_wf_a _ _ _ (ps_pair _ _ _ _ POS p p Ip Ip)). Qed.
  Lemma pos_merge L1 L2 c d : incl L1 F -> incl L2 F -> L1 <> [] -> L2 <> [] -> joins tbl (map g L1) c -> joins tbl (map g L2) d ->
    exists e, run_steps guarded tbl c d = Val e /\ joins tbl (map g (L1 ++ L2)) e.
  Proof.
    intros I1 I2 N1 N2. rewrite map_app.
    apply (joins_merge guarded tbl (map g F) (ps_nodup _ _ _ _ POS) (ps_canon _ _ _ _ POS) pos_fam); auto using incl_map, map_nonempty.
  Qed.
  Lemma pos_unique L L' c c' : incl L F -> L <> [] -> Permutation L L' -> joins tbl (map g L) c -> joins tbl (map g L') c' -> map_equiv c c'.
  Proof. intros I NE P. apply (joins_unique tbl (map g F)); auto using incl_map, map_nonempty, Permutation_map. Qed.
  Lemma pos_agree L c p : incl L F -> In p L -> joins tbl (map g L) c -> agree_on fs (g p) c.
  Proof.
    intros I Ip J. apply (joins_agree tbl fs (map g L) c (g p) (ps_no_or _ _ _ _ POS) J); [now apply in_map|].
    intros m' Im'. apply in_map_iff in Im' as [q [<- Iq]]. apply (ps_agree _ _ _ _ POS); auto.
  Qed.
End Position.

Section Family.
  Context {id : Type} (id_eqb : id -> id -> bool) (uid : pset -> outcome id).
  Variables (T : tables) (cl : list field) (F : list pset) (ni no : nat) (x : id).
  Hypothesis TOK : tables_ok T = true.
  Hypothesis TCAN : tables_canonical T = true.
  Hypothesis TNO : tables_no_or T cl = true.
  Hypothesis HU : forall p q, pset_agree cl p q -> uid p = uid q.      (* the id is a function of the transaction-identifying fields (C08_uid_depends) *)
  Hypothesis PF : pfam T cl F ni no.
  Hypothesis UX : forall p, In p F -> uid p = Val x.
  Hypothesis XX : id_eqb x x = true.

  Lemma tables_parts : (nodup_fields (t_global T) = true /\ nodup_fields (t_input T) = true /\ nodup_fields (t_output T) = true) /\
                       (vecops_canonical (t_global T) = true /\ vecops_canonical (t_input T) = true /\ vecops_canonical (t_output T) = true) /\
                       (no_or (t_global T) uid_global_fields = true /\ no_or (t_input T) (uid_input_fields cl) = true /\ no_or (t_output T) uid_output_fields = true).
  Proof. split; [exact (tables_ok_parts T TOK)|]. split; [exact (tables_canonical_parts T TCAN)|]. unfold tables_no_or in TNO. rewrite !andb_true_iff in TNO. tauto. Qed.

  Lemma global_pos : position (t_global T) uid_global_fields F pglobal.
  Proof.
    destruct PF as [_ PP PA], tables_parts as [[N _] [[C _] [O _]]].
    constructor; auto; intros p q Ip Iq; [apply (ppo_global _ _ _ (PP p q Ip Iq))|apply (PA p q Ip Iq)].
  Qed.
  Lemma input_pos i : i < ni -> position (t_input T) (uid_input_fields cl) F (fun p => nth i (pinputs p) empty_map).
  Proof.
    intros Hi. destruct PF as [SH PP PA], tables_parts as [[_ [N _]] [[_ [C _]] [_ [O _]]]].
    constructor; auto; intros p q Ip Iq; (apply Forall2_nth; [|now rewrite (proj1 (SH p Ip))]);
      [apply (ppo_inputs _ _ _ (PP p q Ip Iq))|apply (PA p q Ip Iq)].
  Qed.
  Lemma output_pos i : i < no -> position (t_output T) uid_output_fields F (fun p => nth i (poutputs p) empty_map).
  Proof.
    intros Hi. destruct PF as [SH PP PA], tables_parts as [[_ [_ N]] [[_ [_ C]] [_ [_ O]]]].
    constructor; auto; intros p q Ip Iq; (apply Forall2_nth; [|now rewrite (proj2 (SH p Ip))]);
      [apply (ppo_outputs _ _ _ (PP p q Ip Iq))|apply (PA p q Ip Iq)].
  Qed.

  Lemma joins_uid L c : incl L F -> L <> [] -> pset_joins T ni no L c -> uid c = Val x.
  Proof.
    intros I NE [JG JNI JNO JI JO]. destruct L as [|p r]; [contradiction|]. assert (In p F) as Ip by (apply I; now left).
    rewrite <- (UX p Ip). symmetry. apply HU. destruct (pf_shape _ _ _ _ _ PF p Ip) as [SI SO].
    split; [|split].
    - apply (pos_agree _ _ _ _ global_pos (p :: r)); [exact I|now left|exact JG].
    - apply (Forall2_of_nth _ empty_map ni _ _ SI JNI). intros i Hi.
      apply (pos_agree _ _ _ _ (input_pos i Hi) (p :: r)); [exact I|now left|exact (JI i Hi)].
    - apply (Forall2_of_nth _ empty_map no _ _ SO JNO). intros i Hi.
      apply (pos_agree _ _ _ _ (output_pos i Hi) (p :: r)); [exact I|now left|exact (JO i Hi)].
  Qed.

  Lemma leaves_nonempty (t : mtree) : leaves t <> [].
  Proof. induction t as [p|l IHl r IHr]; cbn; [discriminate|]. destruct (leaves l); [contradiction|discriminate]. Qed.

  Lemma eval_tree_joins : forall t, incl (leaves t) F -> exists c, eval_tree_with id_eqb uid T t = Val c /\ pset_joins T ni no (leaves t) c.
  Proof.
    induction t as [p|l IHl r IHr]; intros I; cbn [leaves eval_tree_with] in *.
    - assert (In p F) as Ip by (apply I; now left). exists p. split; [reflexivity|].
      destruct (pf_shape _ _ _ _ _ PF p Ip) as [SI SO].
      constructor; auto.
      + apply (pos_leaf _ _ _ _ global_pos p Ip).
      + intros i Hi. apply (pos_leaf _ _ _ _ (input_pos i Hi) p Ip).
      + intros i Hi. apply (pos_leaf _ _ _ _ (output_pos i Hi) p Ip).
    - assert (incl (leaves l) F /\ incl (leaves r) F) as [Il Ir] by (split; intros q Hq; apply I, in_or_app; auto).
      destruct (IHl Il) as [c [-> JC]]. destruct (IHr Ir) as [d [-> JD]]. cbn [obind].
      pose proof (leaves_nonempty l) as NL. pose proof (leaves_nonempty r) as NR.
      (* both operands are joins, so both have the family's id and the gate opens; then position by position *)
      rewrite (gate_opens _ _ T c d x x (joins_uid _ _ Il NL JC) (joins_uid _ _ Ir NR JD) XX).
      destruct JC as [CG CNI CNO CI CO], JD as [DG DNI DNO DI DO]. unfold merge_maps_with, merge_map_with.
      destruct (pos_merge (t_guarded T) _ _ _ _ global_pos _ _ _ _ Il Ir NL NR CG DG) as [g [-> JG]]. cbn [obind].
      destruct (zip_merge_pointwise (run_steps (t_guarded T) (t_input T)) (pinputs c) (pinputs d) ni
                  (fun i e => joins (t_input T) (icol i (leaves l ++ leaves r)) e) CNI DNI) as [ci [-> [LI PI]]].
      { intros i Hi. exact (pos_merge (t_guarded T) _ _ _ _ (input_pos i Hi) _ _ _ _ Il Ir NL NR (CI i Hi) (DI i Hi)). }
      destruct (zip_merge_pointwise (run_steps (t_guarded T) (t_output T)) (poutputs c) (poutputs d) no
                  (fun i e => joins (t_output T) (ocol i (leaves l ++ leaves r)) e) CNO DNO) as [co [-> [LO PO]]].
      { intros i Hi. exact (pos_merge (t_guarded T) _ _ _ _ (output_pos i Hi) _ _ _ _ Il Ir NL NR (CO i Hi) (DO i Hi)). }
      cbn [obind]. eexists. split; [reflexivity|]. constructor; auto.
  Qed.

  Theorem family_merge (t t' : mtree) : incl (leaves t) F -> Permutation (leaves t) (leaves t') ->
    exists c c', eval_tree_with id_eqb uid T t = Val c /\ eval_tree_with id_eqb uid T t' = Val c' /\ pset_equiv c c'.
  Proof.
    intros I P. assert (incl (leaves t') F) as I' by (intros q Hq; apply I; eapply Permutation_in; [apply Permutation_sym; exact P|exact Hq]).
    destruct (eval_tree_joins t I) as [c [EC [CG CNI CNO CI CO]]]. destruct (eval_tree_joins t' I') as [c' [EC' [DG DNI DNO DI DO]]].
    exists c, c'. split; [exact EC|]. split; [exact EC'|]. pose proof (leaves_nonempty t) as NE.
    split; [|split].
    - exact (pos_unique _ _ pglobal _ _ _ _ I NE P CG DG).
    - apply (Forall2_of_nth _ empty_map ni _ _ CNI DNI). intros i Hi.
      exact (pos_unique _ _ _ _ _ _ _ I NE P (CI i Hi) (DI i Hi)).
    - apply (Forall2_of_nth _ empty_map no _ _ CNO DNO). intros i Hi.
      exact (pos_unique _ _ _ _ _ _ _ I NE P (CO i Hi) (DO i Hi)).
  Qed.
End Family.

(* the example family of Props/C14.v, three descendants of one ancestor: a added a partial signature, b another one, c a key derivation *)
Definition ex_global : pmap := of_entries [(fld "version", Some (u32_enc 2)); (F_tx_version, Some (u32_enc 2)); (F_input_count, Some [x01]); (F_output_count, Some [x01])].
Definition ex_input : pmap := of_entries [(F_prev_txid, Some (repeat x07 32)); (F_prev_index, Some (u32_enc 1))].
Definition ex_output : pmap := of_entries [(F_amount, Some (repeat x00 7 ++ [x05])); (F_asset, Some (repeat x03 32)); (F_script_pubkey, Some [x51])].
Definition ex_member (f : field) (l : alist) : pset := mkpset ex_global [set_kyd ex_input f l] [ex_output].
Definition ex_a := ex_member (fld "partial_sigs") [([x02; x0a], [x30; x01])].
Definition ex_b := ex_member (fld "partial_sigs") [([x02; x0b], [x30; x02])].
Definition ex_c := ex_member (fld "bip32_derivation") [([x02; x0a], [x00; x00; x00; x00])].

Lemma ex_wf (l : list (field * option bytes)) : wf_map (of_entries l). Proof. intros f. reflexivity. Qed.
Lemma ex_pfam : pfam cur_tables uid_cleared_txin_fields [ex_a; ex_b; ex_c] 1 1.
Proof.
  assert (forall f1 l1 f2 l2,
            keeps_kyd (policy_of pset_input_merge f1) && keeps_kyd (policy_of pset_input_merge f2) && al_sorted l1 && al_sorted l2
            && (if bytes_eqb f1 f2 then al_agreeb l1 l2 else true) = true ->
            pset_pair_ok cur_tables (ex_member f1 l1) (ex_member f2 l2) /\ pset_agree uid_cleared_txin_fields (ex_member f1 l1) (ex_member f2 l2)) as K.
  { intros f1 l1 f2 l2 H. rewrite !andb_true_iff in H. destruct H as [[[[K1 K2] S1] S2] A]. split.
    - constructor; cbn [ex_member pglobal pinputs poutputs cur_tables t_global t_input t_output].
      + apply pair_ok_refl, ex_wf.
      + constructor; [|constructor]. now apply pair_ok_kyd.
      + constructor; [|constructor]. apply pair_ok_refl, ex_wf.
    - split; [apply agree_refl|]. split; (constructor; [|constructor]); [intros g _; reflexivity|apply agree_refl]. }
  constructor.
  - intros p [<-|[<-|[<-|[]]]]; split; reflexivity.
  - intros p q [<-|[<-|[<-|[]]]] [<-|[<-|[<-|[]]]]; apply K; reflexivity.
  - intros p q [<-|[<-|[<-|[]]]] [<-|[<-|[<-|[]]]]; apply K; reflexivity.
Qed.

Lemma cur_tables_no_or : tables_no_or cur_tables uid_cleared_txin_fields = true. Proof. vm_compute. reflexivity. Qed.

(* C05 — exact-value and exact-asset proofs (Model/ExactProofs.v): soundness (an accepted proof pins the committed value / asset),
   completeness (the genuine proof is accepted), refusal of every proof whose stated range has more than one element, and
   panic-freedom of the translated acceptance condition; at the end, that the clause of Model/PsetBlind.v (C09) is this verifier. *)
From Coq Require Import List NArith ZArith Bool Lia Setoid Morphisms.
From Coq Require Import ZifyBool ZifyN.
From Coq.Strings Require Import Byte.
From EV Require Import Base.Bytes Base.Zn Base.FreeMod Gen.Tables Gen.SrcExact Model.Ideal Model.ExactProofs Proofs.Ideal.
Import ListNotations.
Open Scope Z_scope.

Lemma src_bvp_accept_spec s e v : src_bvp_accept (s, e) v = true -> (1 <= e)%N -> s = v /\ e = (v + 1)%N.
Proof.
  unfold src_bvp_accept. cbn [fst snd]. intros A L. apply andb_true_iff in A as [A B].
  apply N.eqb_eq in A, B. split; [exact A|lia].
Qed.
Lemma src_bvp_accept_exact v : src_bvp_accept (v, (v + 1)%N) v = true.
Proof. unfold src_bvp_accept. cbn [fst snd]. apply andb_true_iff. split; apply N.eqb_eq; lia. Qed.

Lemma rr_verify_sound rr c spk gen e : rr_verify rr c spk gen = Some e ->
  rp_verify (rr_rp rr) c spk gen = true /\ 0 <= rr_min rr <= rp_value (rr_rp rr) /\ rp_value (rr_rp rr) <= rr_max rr <= U64_MAX
  /\ e = (Z.to_N (rr_min rr), Z.to_N (rr_max rr + 1)).
Proof.
  unfold rr_verify. destruct (_ && _) eqn:E; [|discriminate]. intros [= <-].
  apply andb_true_iff in E as [E D]. apply andb_true_iff in E as [E C]. apply andb_true_iff in E as [E B]. apply andb_true_iff in E as [RV A].
  apply Z.leb_le in A, B, C, D. auto.
Qed.

Lemma rr_verify_single rp c spk gen : rp_verify rp c spk gen = true ->
  rr_verify (mkRR rp (rp_value rp) (rp_value rp)) c spk gen = Some (Z.to_N (rp_value rp), Z.to_N (rp_value rp + 1)).
Proof.
  intro V. destruct (rp_verify_sound _ _ _ _ V) as (_ & (L0 & L1) & _). unfold rr_verify, U64_MAX. cbn [rr_rp rr_min rr_max]. rewrite V.
  replace (rp_value rp <=? rp_value rp) with true by lia. replace (0 <=? rp_value rp) with true by lia.
  replace (rp_value rp <=? 2 ^ 64 - 1) with true by lia. reflexivity.
Qed.

Theorem bvp_sound rr v gen c : bvp_verify rr v gen c = true ->
  geq c (commit (Z.of_N v) gen (rp_vbf (rr_rp rr))) /\ rp_value (rr_rp rr) = Z.of_N v /\ rr_min rr = Z.of_N v /\ rr_max rr = Z.of_N v.
Proof.
  unfold bvp_verify. destruct (rr_verify rr c [] gen) as [e|] eqn:V; [|discriminate]. intro A.
  destruct (rr_verify_sound _ _ _ _ _ V) as (RV & (L0 & L1) & (L2 & L3) & ->).
  apply src_bvp_accept_spec in A; [|lia]. destruct A as [A B].
  assert (rr_min rr = Z.of_N v) by lia. assert (rr_max rr = Z.of_N v) by lia.
  assert (E : rp_value (rr_rp rr) = Z.of_N v) by lia.
  destruct (rp_verify_sound _ _ _ _ RV) as (G & _). rewrite E in G. repeat split; assumption.
Qed.
Theorem bvp_wide_refused rr v gen c : rr_min rr < rr_max rr -> bvp_verify rr v gen c = false.
Proof.
  intro W. destruct (bvp_verify rr v gen c) eqn:A; [|reflexivity].
  destruct (bvp_sound _ _ _ _ A) as (_ & _ & E1 & E2). lia.
Qed.
Theorem bvp_other_value_refused rr v gen c : rp_value (rr_rp rr) <> Z.of_N v -> bvp_verify rr v gen c = false.
Proof.
  intro W. destruct (bvp_verify rr v gen c) eqn:A; [|reflexivity].
  destruct (bvp_sound _ _ _ _ A) as (_ & E & _). contradiction.
Qed.
(* the u64 subtraction `e.end - 1` never goes below zero *)
Theorem bvp_no_panic rr v gen c : bvp_verify_safe rr v gen c = true.
Proof.
  unfold bvp_verify_safe. destruct (rr_verify rr c [] gen) as [e|] eqn:V; [|reflexivity].
  destruct (rr_verify_sound _ _ _ _ _ V) as (_ & (L0 & L1) & (L2 & L3) & ->).
  unfold src_bvp_accept_safe. cbn [fst snd]. destruct (Z.to_N (rr_min rr) =? v)%N; [|reflexivity]. apply N.leb_le. lia.
Qed.

Lemma prove_range_exact v : 0 <= v -> prove_range v (-1) 0 v = Some (v, v).
Proof.
  intro L. unfold prove_range. rewrite Z.ltb_irrefl. destruct (v =? U64_MAX); reflexivity.
Qed.
Theorem bvp_complete v gen vbf : 0 <= v <= U64_MAX ->
  exists rr, bvp_new v (commit v gen vbf) gen vbf = Some rr /\ bvp_verify rr (Z.to_N v) gen (commit v gen vbf) = true.
Proof.
  intros [L U]. unfold bvp_new, rr_new. rewrite (prove_range_exact v L). eexists. split; [reflexivity|].
  unfold bvp_verify. rewrite rr_verify_single by (apply rp_verify_own; [reflexivity|unfold U64_MAX in U; lia]).
  cbn [rp_value]. replace (Z.to_N (v + 1)) with (Z.to_N v + 1)%N by lia. apply src_bvp_accept_exact.
Qed.

Lemma bitlen_bound v : 0 < v -> v < 2 ^ bitlen v.
Proof. intro P. unfold bitlen. pose proof (Z.log2_spec v P) as [_ H]. rewrite <- Z.add_1_r in H. exact H. Qed.
(* either the single value (exponent -1, or no room above the minimum), or the minimum and at least one bit of mantissa that covers the value *)
Lemma prove_range_inv m e b v lo hi : prove_range m e b v = Some (lo, hi) ->
  (lo = v /\ hi = v /\ (e = -1 \/ m = U64_MAX)) \/ (lo = m /\ m <= v /\ exists k, 1 <= k /\ v - m < 2 ^ k /\ hi = m + (2 ^ k - 1)).
Proof.
  unfold prove_range. set (vb := if v - m =? 0 then 1 else bitlen (v - m)). set (k := Z.max vb _).
  destruct ((v <? m) || (64 <? b) || (b <? 0) || (e <? -1) || (18 <? e)) eqn:G; [discriminate|].
  repeat (apply orb_false_iff in G as [G ?]). destruct (0 <? e) eqn:PE; [discriminate|].
  assert (K : 1 <= k /\ v - m < 2 ^ k).
  { assert (VB : 1 <= vb /\ v - m < 2 ^ vb).
    { subst vb. destruct (Z.eqb_spec (v - m) 0) as [->|]; [split; [lia|reflexivity]|].
      split; [unfold bitlen; pose proof (Z.log2_nonneg (v - m)); lia|apply bitlen_bound; lia]. }
    split; [lia|]. apply Z.lt_le_trans with (2 ^ vb); [apply VB|apply Z.pow_le_mono_r; lia]. }
  clearbody k. destruct (Z.eqb_spec m U64_MAX) as [M|M].
  - intros [= <- <-]. left. auto.
  - destruct (0 <=? e) eqn:E0; [|intros [= <- <-]; left; repeat split; lia].
    destruct (_ || _); [discriminate|]. intros [= <- <-]. right. split; [reflexivity|]. split; [lia|]. now exists k.
Qed.
Theorem prove_range_contains m e b v lo hi : prove_range m e b v = Some (lo, hi) -> lo <= v <= hi.
Proof. intro P. destruct (prove_range_inv _ _ _ _ _ _ P) as [(-> & -> & _)|(-> & L & k & _ & K & ->)]; lia. Qed.
(* a range proof made with exp = 0 (every output range proof) states at least two values: it can never pass as an exact-value proof *)
Theorem prove_range_exp0_wide m b v lo hi : m <> U64_MAX -> prove_range m 0 b v = Some (lo, hi) -> lo < hi.
Proof.
  intros NM P. destruct (prove_range_inv _ _ _ _ _ _ P) as [(_ & _ & [|])|(-> & _ & k & K & _ & ->)]; try (discriminate || contradiction).
  assert (2 ^ 1 <= 2 ^ k) by (apply Z.pow_le_mono_r; lia). lia.
Qed.
Theorem wide_proof_refused m b c value vbf msg key gen rr v' gen' c' :
  m <> U64_MAX -> rr_new m c value vbf msg [] key 0 b gen = Some rr -> bvp_verify rr v' gen' c' = false.
Proof.
  intros NM. unfold rr_new. destruct (prove_range m 0 b value) as [[lo hi]|] eqn:PR; [|discriminate]. intros [= <-].
  apply bvp_wide_refused. cbn [rr_min rr_max]. exact (prove_range_exp0_wide _ _ _ _ _ NM PR).
Qed.

Theorem bap_sound sp a g : bap_verify sp a g = true -> geq g (asset_gen a (sp_diff sp)).
Proof.
  unfold bap_verify. intro V. destruct (sp_verify_sound _ _ _ V) as (d & NE & G & _).
  destruct (sp_idx sp) as [|[|n]]; cbn [nth_error] in NE; try discriminate. injection NE as <-.
  unfold asset_gen. exact G.
Qed.
Theorem bap_complete a abf : exists sp, bap_new a abf = Some sp /\ bap_verify sp a (asset_gen a abf) = true.
Proof.
  unfold bap_new, sp_new. cbn [find_tag]. rewrite N.eqb_refl. eexists. split; [reflexivity|].
  unfold bap_verify, sp_verify. cbn [sp_intact sp_gen sp_domain sp_idx sp_diff map fst nth_error geqb_list]. rewrite !geqb_refl. cbn [andb].
  apply geqb_spec. rewrite <- asset_gen_0. apply asset_gen_shift.
Qed.
Theorem bap_binds sp a b g : bap_verify sp a g = true -> bap_verify sp b g = true -> a = b.
Proof.
  intros A B. apply bap_sound in A, B. rewrite A in B. specialize (B (kH a)).
  rewrite !coeff_asset_gen_H, N.eqb_refl in B. destruct (N.eqb_spec a b); [assumption|discriminate].
Qed.

(* bridge to C09: Model/PsetBlind.v states its exact-value clause with `blind_value_proof_verify` (the ideal proof verifies and its value is
   the claimed one, no range). On the proofs blind_value_proof makes — stated range = the single committed value — that is the translated condition *)
From EV Require Import Model.Blind Model.PsetBlind.
Theorem bvp_verify_is_pset_clause rp v gen c : 0 <= v <= U64_MAX ->
  bvp_verify (mkRR rp (rp_value rp) (rp_value rp)) (Z.to_N v) gen c = blind_value_proof_verify rp v gen c.
Proof.
  intros [L U]. unfold bvp_verify, blind_value_proof_verify.
  destruct (rp_verify rp c [] gen) eqn:V; cbn [andb]; [|unfold rr_verify; cbn [rr_rp]; now rewrite V].
  rewrite (rr_verify_single _ _ _ _ V). destruct (rp_verify_sound _ _ _ _ V) as (_ & (L0 & L1) & _).
  unfold src_bvp_accept. cbn [fst snd].
  destruct (rp_value rp =? v) eqn:E.
  - apply Z.eqb_eq in E. subst v. apply andb_true_iff. split; apply N.eqb_eq; lia.
  - apply Z.eqb_neq in E. apply andb_false_iff. left. apply N.eqb_neq. lia.
Qed.

(* C07 — generic theory of the table-driven map codec (Model/PsetMaps.v): round trip, decoder invariant, fixpoint,
   rejections; then the whole-PSET statements.  Everything is over an arbitrary table whose rows satisfy `row_ok`
   (canonisers are idempotent on keys, never lengthen, the transcribed comparator is injective on canonical keys).
   The decoder is read through two facts: a successful `insert_pair` is `set_keyed` at the classified row, canonical
   key and canonical value (`insert_pair_ok`), and `set_keyed` keeps a sorted map of valid entries (`set_keyed_keeps`). *)
From Coq Require Import List Arith NArith ZArith Lia Bool ZifyN ZifyBool ZifyNat.
From Coq.Strings Require Import Byte.
From EV Require Import Base.Bytes Base.Codec Model.PsetRaw Model.PsetMaps Proofs.PsetRaw.
Import ListNotations.
Ltac Zify.zify_post_hook ::= Z.div_mod_to_equations.
Open Scope N_scope.
Set Default Timeout 60.

Lemma find_idx_some {A} (p : A -> bool) l i : find_idx p l = Some i -> exists x, nth_error l i = Some x /\ p x = true.
Proof. revert i. induction l as [|x l IH]; intros i H; cbn in H; [discriminate|]. destruct (p x) eqn:P.
  - injection H as <-. exists x. auto.
  - destruct (find_idx p l) as [j|]; [|discriminate]. injection H as <-. cbn. now apply IH. Qed.
Lemma find_idx_at {A} (p : A -> bool) l i x : find_idx p l = Some i -> nth_error l i = Some x -> p x = true.
Proof. intros F R. destruct (find_idx_some _ _ _ F) as (y & Y & P). congruence. Qed.
Lemma byte_eqb_true a b : byte_eqb a b = true -> a = b. Proof. destruct (byte_eqb_spec a b); [auto|discriminate]. Qed.
Lemma bytes_eqb_true a b : bytes_eqb a b = true -> a = b. Proof. destruct (bytes_eqb_spec a b); [auto|discriminate]. Qed.

Section ONE.
Variable maxvec : N.
Hypothesis Hmax : maxvec + 1 < 2 ^ 64.
Hypothesis Hmin : 4 <= maxvec.
Variable T : table.

Notation mk_key := (mk_key maxvec T).
Notation classify := (classify maxvec T).
Notation insert_pair := (insert_pair maxvec T).
Notation dec_entries := (dec_entries maxvec T).
Notation enc_entry := (enc_entry maxvec T).
Notation enc_entries := (enc_entries maxvec T).
Notation ins := (ins T).
Notation before := (before T).

Definition kvalid (r : row) (k : bytes) : Prop :=
  match r_kind r with KMap => k <> [] /\ r_kcanon r k = Some k | KOpt | KOptLast => k = [] | KReject => False end.
Record row_ok (r : row) : Prop := {
  ro_k : forall kd k, r_kcanon r kd = Some k -> k <> [] /\ r_kcanon r k = Some k /\ (length k <= length kd)%nat;
  ro_vsize : forall k v c, r_vcanon r k v = POk c -> (length c <= length v)%nat;
  ro_proj : forall proj, r_disc r = DSorted proj -> forall a b, r_kcanon r a = Some a -> r_kcanon r b = Some b -> proj a = proj b -> a = b;
  ro_whole : r_addr r = AProp \/ r_addr r = AUnk -> r_kind r = KMap /\ forall kd, kd <> [] -> r_kcanon r kd = Some kd }.
(* the value canoniser is idempotent (not part of row_ok: it failed for TapTree before fix aee9a45, finding F9) *)
Definition v_idem (r : row) : Prop := forall k v c, r_vcanon r k v = POk c -> r_vcanon r k c = POk c.
Definition rows_ok : Prop := forall i r, nth_error T i = Some r -> row_ok r.

Definition elt (e x : entry) : Prop :=
  (slot e < slot x)%nat \/
  (slot e = slot x /\ exists r, nth_error T (slot e) = Some r /\
     match r_disc r with DSorted proj => tcmp (proj (ekey e)) (proj (ekey x)) = Lt | DAppend => ekey e <> ekey x end).
Fixpoint sorted (m : pmap) : Prop := match m with [] => True | x :: r => Forall (elt x) r /\ sorted r end.
Definition weak (e : entry) : Prop :=
  exists r, nth_error T (slot e) = Some r /\ kvalid r (ekey e) /\
            classify (mk_key e) = POk (slot e, ekey e) /\ fits maxvec (mk_key e, evalue e).
Definition vfixed (e : entry) : Prop :=
  exists r, nth_error T (slot e) = Some r /\ r_vcanon r (ekey e) (evalue e) = POk (evalue e).
Definition wf_entry (e : entry) : Prop := weak e /\ vfixed e.
Definition wf_entries (m : pmap) : Prop := sorted m /\ Forall wf_entry m.

Lemma sorted_app a b : sorted (a ++ b) -> sorted a.
Proof. induction a as [|x a IH]; cbn [app sorted]; [auto|]. intros [F S]. apply Forall_app in F as [F _]. auto. Qed.

Lemma ins_in e m y : In y (ins e m) <-> In y (e :: m).
Proof. induction m as [|x m IH]; cbn [ins]; [reflexivity|]. destruct (before e x); [reflexivity|]. cbn [In] in *. rewrite IH. split; intros [H|[H|H]]; auto. Qed.

Lemma elt_not_before x e : elt x e -> before e x = false.
Proof. unfold before. intros [L|[E (r & R & D)]].
  - destruct (Nat.ltb_spec (slot e) (slot x)); [lia|]. destruct (Nat.eqb_spec (slot e) (slot x)); [lia|]. reflexivity.
  - destruct (Nat.ltb_spec (slot e) (slot x)); [lia|]. rewrite <- E, R. destruct (Nat.eqb (slot x) (slot x)); [|reflexivity]. cbn [orb andb].
    destruct (r_disc r) as [proj|]; [|reflexivity]. rewrite (tcmp_anti (proj (ekey x)) (proj (ekey e))), D. reflexivity. Qed.
Lemma elt_not_same x e : elt x e -> same (slot e) (ekey e) x = false.
Proof. unfold same. intros [L|[E (r & R & D)]].
  - destruct (Nat.eqb_spec (slot x) (slot e)); [lia|reflexivity].
  - destruct (bytes_eqb_spec (ekey x) (ekey e)) as [K|K]; [|now rewrite andb_false_r]. exfalso. rewrite K in D.
    destruct (r_disc r) as [proj|]; [rewrite tcmp_refl in D; discriminate|congruence]. Qed.

Lemma ins_last m e : sorted (m ++ [e]) -> ins e m = m ++ [e] /\ has m (slot e) (ekey e) = false.
Proof. unfold has. induction m as [|x m IH]; cbn [app sorted ins existsb]; [auto|]. intros [F S].
  apply Forall_app in F as [_ F]. apply Forall_inv in F. rewrite (elt_not_before _ _ F), (elt_not_same _ _ F).
  destruct (IH S) as [-> ->]. auto. Qed.

Lemma before_elt e x r : nth_error T (slot e) = Some r -> before e x = true -> elt e x.
Proof. unfold before, elt. intros R B. apply orb_true_iff in B as [B|B]; [left; now apply Nat.ltb_lt|].
  apply andb_true_iff in B as [E B]. apply Nat.eqb_eq in E. right. split; [exact E|]. exists r. split; [exact R|]. rewrite R in B.
  destruct (r_disc r) as [proj|]; [|discriminate]. now destruct (tcmp (proj (ekey e)) (proj (ekey x))). Qed.
Lemma not_before_elt e x r :
  nth_error T (slot e) = Some r -> before e x = false -> same (slot e) (ekey e) x = false ->
  (forall proj, r_disc r = DSorted proj -> slot x = slot e -> proj (ekey x) = proj (ekey e) -> ekey x = ekey e) ->
  elt x e.
Proof. unfold before, elt, same. intros R B S Inj. apply orb_false_iff in B as [B1 B2]. apply Nat.ltb_ge in B1.
  destruct (Nat.eqb_spec (slot e) (slot x)) as [E|E]; [|left; lia]. right. split; [now symmetry|]. exists r. rewrite <- E. split; [exact R|].
  rewrite R in B2. cbn [andb] in B2. rewrite <- E, Nat.eqb_refl in S. cbn [andb] in S.
  assert (K : ekey x <> ekey e) by (destruct (bytes_eqb_spec (ekey x) (ekey e)); [discriminate|assumption]).
  destruct (r_disc r) as [proj|] eqn:D; [|exact K].
  rewrite (tcmp_anti (proj (ekey e)) (proj (ekey x))). destruct (tcmp (proj (ekey e)) (proj (ekey x))) eqn:C; try discriminate; [|reflexivity].
  exfalso. apply tcmp_eq in C. apply K. apply (Inj proj eq_refl); [now symmetry|now symmetry]. Qed.

(* `elt` is not transitive on an append-ordered row (there it only says that the keys differ), but an entry that goes before x
   also precedes whatever x precedes *)
Lemma before_elt_trans e x y r : nth_error T (slot e) = Some r -> before e x = true -> elt x y -> elt e y.
Proof. unfold before. intros R B Fx. apply orb_true_iff in B as [B|B].
  - apply Nat.ltb_lt in B. left. destruct Fx as [L|[E _]]; lia.
  - apply andb_true_iff in B as [E B]. apply Nat.eqb_eq in E. rewrite R in B. destruct (r_disc r) as [proj|] eqn:D; [|discriminate].
    destruct (tcmp (proj (ekey e)) (proj (ekey x))) eqn:C; try discriminate.
    destruct Fx as [L|[E' (r' & R' & D')]]; [left; lia|]. right. split; [lia|]. exists r. split; [exact R|]. rewrite D.
    rewrite <- E, R in R'. injection R' as <-. rewrite D in D'. eapply tcmp_trans; eauto. Qed.

Lemma ins_sorted e m r :
  nth_error T (slot e) = Some r -> sorted m -> has m (slot e) (ekey e) = false ->
  (forall x proj, In x m -> r_disc r = DSorted proj -> slot x = slot e -> proj (ekey x) = proj (ekey e) -> ekey x = ekey e) ->
  sorted (ins e m).
Proof. intros R. induction m as [|x m IH]; intros S H Inj; cbn [ins]; [cbn; split; [constructor|exact I]|].
  cbn [sorted] in S. destruct S as [Fx S]. unfold has in H. cbn [existsb] in H. apply orb_false_iff in H as [Hx H].
  destruct (before e x) eqn:B; cbn [sorted].
  - repeat split; auto. constructor; [exact (before_elt _ _ _ R B)|].
    eapply Forall_impl; [|exact Fx]. intros y. exact (before_elt_trans _ _ _ _ R B).
  - split; [|apply IH; auto; intros; eapply Inj; eauto; now right].
    rewrite Forall_forall in *. intros y Hy. apply ins_in in Hy as [<-|Hy]; [|now apply Fx].
    eapply not_before_elt; eauto. intros proj D E P. eapply Inj; eauto. now left. Qed.

Lemma sorted_map f m : (forall x, slot (f x) = slot x /\ ekey (f x) = ekey x) -> sorted m -> sorted (map f m).
Proof. intros Hf. assert (E : forall a b, elt a b -> elt (f a) (f b)).
  { intros a b. unfold elt. destruct (Hf a) as [-> ->], (Hf b) as [-> ->]. auto. }
  induction m as [|x m IH]; [auto|]. cbn [sorted map]. intros [F S]. split; [|auto]. rewrite Forall_map. eapply Forall_impl; [|exact F]. intros; now apply E. Qed.

Lemma same_refl i k v : same i k (i, k, v) = true.
Proof. unfold same. cbn [slot ekey fst snd]. now rewrite Nat.eqb_refl, bytes_eqb_refl. Qed.
Lemma same_true i k x : same i k x = true -> slot x = i /\ ekey x = k.
Proof. unfold same. intros H. apply andb_true_iff in H as [H1 H2]. split; [now apply Nat.eqb_eq|now apply bytes_eqb_true]. Qed.
Lemma replace_keeps i k v x :
  slot (if same i k x then (i, k, v) else x) = slot x /\ ekey (if same i k x then (i, k, v) else x) = ekey x.
Proof. destruct (same i k x) eqn:S; [|auto]. apply same_true in S as [<- <-]. auto. Qed.

Lemma existsb_ins p e m : existsb p (ins e m) = p e || existsb p m.
Proof. induction m as [|x m IH]; cbn [PsetMaps.ins existsb]; [reflexivity|].
  destruct (before e x); cbn [existsb]; [reflexivity|]. rewrite IH. now rewrite !orb_assoc, (orb_comm (p x)). Qed.
Lemma existsb_replace p i k v m : (forall x y, slot y = slot x -> ekey y = ekey x -> p y = p x) -> existsb p (replace i k v m) = existsb p m.
Proof. intros Hp. unfold replace. induction m as [|x m IH]; [reflexivity|]. cbn [map existsb]. rewrite IH. f_equal. apply Hp; apply replace_keeps. Qed.
Lemma has_replace m i k j k' v : has (replace j k' v m) i k = has m i k.
Proof. apply existsb_replace. intros x y E1 E2. unfold same. now rewrite E1, E2. Qed.
Lemma has_slot_replace m i k v j : has_slot (replace i k v m) j = has_slot m j.
Proof. apply (existsb_replace (fun x => Nat.eqb (slot x) j)). now intros x y ->. Qed.

Lemma has_set_same m i k v : has (set_keyed T m i k v) i k = true.
Proof. unfold PsetMaps.set_keyed. destruct (has m i k) eqn:Hh; [now rewrite has_replace|]. unfold has. now rewrite existsb_ins, same_refl. Qed.
Lemma has_set_mono m i k v i' k' : has m i' k' = true -> has (set_keyed T m i k v) i' k' = true.
Proof. intros H. unfold PsetMaps.set_keyed. destruct (has m i k); [now rewrite has_replace|]. unfold has in *. rewrite existsb_ins, H. apply orb_true_r. Qed.
Lemma has_slot_set m i k v j : j <> i -> has_slot (set_keyed T m i k v) j = has_slot m j.
Proof. intros NE. unfold PsetMaps.set_keyed. destruct (has m i k); [apply has_slot_replace|]. unfold has_slot. rewrite existsb_ins. cbn [slot fst snd].
  destruct (Nat.eqb_spec i j); [congruence|reflexivity]. Qed.

Lemma kvalid_inj r a b : row_ok r -> kvalid r a -> kvalid r b -> forall proj, r_disc r = DSorted proj -> proj a = proj b -> a = b.
Proof. intros O Ka Kb proj D P. unfold kvalid in *. destruct (r_kind r); try contradiction; try congruence.
  destruct Ka as [_ Ka], Kb as [_ Kb]. eapply (ro_proj _ O); eauto. Qed.

Lemma set_keyed_keeps (P : entry -> Prop) m i k v : rows_ok -> (forall e, P e -> weak e) ->
  sorted m -> Forall P m -> P (i, k, v) -> sorted (set_keyed T m i k v) /\ Forall P (set_keyed T m i k v).
Proof. intros RO PW S F Pe. unfold PsetMaps.set_keyed. destruct (has m i k) eqn:Hh.
  - unfold replace. split.
    + apply sorted_map; [intros x; apply replace_keeps|exact S].
    + rewrite Forall_map. eapply Forall_impl; [|exact F]. intros x Px. now destruct (same i k x).
  - destruct (PW _ Pe) as (r & R & K & _). cbn [slot ekey fst snd] in R, K. split.
    + eapply ins_sorted; eauto. intros x proj Hx D E Pj. cbn [slot ekey fst snd] in *.
      rewrite Forall_forall in F. destruct (PW _ (F x Hx)) as (rx & Rx & Kx & _). rewrite E, R in Rx. injection Rx as <-.
      eapply kvalid_inj; eauto.
    + rewrite Forall_forall in *. intros y Hy. apply ins_in in Hy as [<-|Hy]; auto. Qed.
(* BTreeMap::insert on a keyed field keeps a map well-formed (the ELIP accessors) *)
Lemma set_keyed_wf m i k v : rows_ok -> wf_entries m -> wf_entry (i, k, v) -> wf_entries (set_keyed T m i k v).
Proof. intros RO [S F] We. apply (set_keyed_keeps wf_entry); auto. now intros e [W _]. Qed.

(* the canonical key data under which a pair addressed to row r with key data kd is stored *)
Definition ckey (r : row) (kd : bytes) : option bytes :=
  match r_kind r, kd with
  | (KOpt | KOptLast), [] => Some []
  | KMap, _ :: _ => r_kcanon r kd
  | _, _ => None end.
Lemma ckey_valid r kd k : row_ok r -> ckey r kd = Some k ->
  kvalid r k /\ (length k <= length kd)%nat /\ (r_addr r = AProp \/ r_addr r = AUnk -> k = kd).
Proof. unfold ckey, kvalid. intros O K. destruct (r_kind r) eqn:KD, kd as [|b kd]; try discriminate K.
  - injection K as <-. repeat split; auto.
  - injection K as <-. repeat split; auto.
  - destruct (ro_k _ O _ _ K) as (Kn & Kc & Kl). repeat split; auto. intros A. destruct (ro_whole _ O A) as [_ W].
    rewrite W in K by discriminate. now injection K. Qed.
Lemma kvalid_ckey r k : kvalid r k -> ckey r k = Some k.
Proof. unfold ckey, kvalid. destruct (r_kind r); [now intros ->|now intros ->| |contradiction]. intros [Kn Kc]. now destruct k. Qed.

Lemma insert_pair_ok key v m m' : insert_pair key v m = POk m' <->
  exists i kd r k c, classify key = POk (i, kd) /\ nth_error T i = Some r /\ ckey r kd = Some k /\ r_vcanon r k v = POk c /\
    (has m i k = true -> r_kind r = KOptLast) /\ m' = set_keyed T m i k c.
Proof. unfold PsetMaps.insert_pair, PsetMaps.set_keyed, ckey. split.
  - destruct (classify key) as [[i kd]|] eqn:C; [|discriminate]. cbn [pbind]. destruct (nth_error T i) as [r|] eqn:R; [|discriminate].
    intros H. exists i, kd, r. destruct (r_kind r), kd as [|b kd]; try discriminate H.
    + destruct (has m i []) eqn:Hh; [discriminate|]. destruct (r_vcanon r [] v) as [c|] eqn:V; [|discriminate]. injection H as <-.
      exists [], c. rewrite Hh. repeat split; auto. discriminate.
    + destruct (r_vcanon r [] v) as [c|] eqn:V; [|discriminate]. injection H as <-. exists [], c. repeat split; auto.
    + destruct (r_kcanon r (b :: kd)) as [k|] eqn:KC; [|discriminate]. exists k.
      destruct (r_vfirst r), (has m i k), (r_vcanon r k v) as [c|] eqn:V; cbn [pbind] in H; try discriminate H;
        injection H as <-; exists c; repeat split; auto; discriminate.
  - intros (i & kd & r & k & c & -> & R & K & V & L & ->). cbn [pbind]. rewrite R.
    destruct (r_kind r), kd as [|b kd]; try discriminate K.
    + injection K as <-. rewrite V. destruct (has m i []); [now discriminate L|reflexivity].
    + injection K as <-. now rewrite V.
    + rewrite K. destruct (has m i k); [now discriminate L|]. rewrite V. now destruct (r_vfirst r). Qed.

Lemma insert_pair_has key v m m' : insert_pair key v m = POk m' -> forall i k, has m i k = true -> has m' i k = true.
Proof. intros H i k Hh. apply insert_pair_ok in H as (i' & kd & r & k' & c & _ & _ & _ & _ & _ & ->). now apply has_set_mono. Qed.

Lemma fitsb_le a b : (length a <= length b)%nat -> fitsb maxvec b = true -> fitsb maxvec a = true.
Proof. unfold fitsb. intros. lia. Qed.
Lemma pset_prefix_fits : fitsb maxvec pset_prefix = true. Proof. unfold fitsb, pset_prefix. cbn [length]. lia. Qed.

(* a key that classifies to (i, kd) still classifies to i once its key data is replaced by a canonical k (not longer than kd) *)
Lemma classify_canon t kd0 i kd r k c :
  classify (t, kd0) = POk (i, kd) -> nth_error T i = Some r -> (length k <= length kd)%nat ->
  (r_addr r = AProp \/ r_addr r = AUnk -> k = kd) ->
  classify (mk_key (i, k, c)) = POk (i, k) /\ (fitsb maxvec kd0 = true -> fitsb maxvec (snd (mk_key (i, k, c))) = true).
Proof. intros C R L W. pose proof C as C0. unfold PsetMaps.classify in C. unfold PsetMaps.mk_key. cbn [slot ekey fst snd]. rewrite R.
  destruct (find_idx (is_plain t) T) as [j|] eqn:F1.
  { injection C as -> ->. pose proof (find_idx_at _ _ _ _ F1 R) as P.
    unfold is_plain in P. destruct (r_addr r) as [t'| | |] eqn:A; try discriminate. apply byte_eqb_true in P. subst t'.
    unfold PsetMaps.classify. rewrite F1. split; [reflexivity|]. cbn [snd]. now apply fitsb_le. }
  destruct (byte_eqb_spec t xfc) as [->|Nfc].
  - destruct (prop_dec maxvec kd0) as [[[pfx s] d]|] eqn:PD; [|discriminate].
    destruct (prop_dec_exact _ _ _ _ _ PD) as [Ekd Fp].
    destruct (if bytes_eqb pfx pset_prefix then find_idx (is_pset s) T else None) as [j|] eqn:F2.
    + injection C as -> ->. destruct (bytes_eqb_spec pfx pset_prefix) as [->|]; [|discriminate].
      pose proof (find_idx_at _ _ _ _ F2 R) as P.
      unfold is_pset in P. destruct (r_addr r) as [|s'| |] eqn:A; try discriminate. apply byte_eqb_true in P. subst s'.
      unfold PsetMaps.classify. rewrite F1. cbn [byte_eqb Byte.eqb]. rewrite (byte_eqb_refl xfc).
      rewrite (prop_dec_enc _ Hmax _ _ _ pset_prefix_fits). rewrite bytes_eqb_refl, F2. split; [reflexivity|].
      cbn [snd]. subst kd0. apply fitsb_le. rewrite !prop_enc_length. now apply Nat.add_le_mono_l, le_n_S.
    + destruct (find_idx is_prop T) as [j|] eqn:F3; [|discriminate]. injection C as -> <-.
      pose proof (find_idx_at _ _ _ _ F3 R) as P.
      unfold is_prop in P. destruct (r_addr r) eqn:A; try discriminate. rewrite (W (or_introl eq_refl)).
      (* the key built for the stored entry is the key that was read *)
      split; [exact C0|auto].
  - destruct (find_idx is_unk T) as [j|] eqn:F3; [|discriminate]. injection C as -> <-.
    pose proof (find_idx_at _ _ _ _ F3 R) as P.
    unfold is_unk in P. destruct (r_addr r) eqn:A; try discriminate. rewrite (W (or_intror eq_refl)). split; [exact C0|auto]. Qed.

Lemma insert_emitted m e : wf_entry e -> sorted (m ++ [e]) -> insert_pair (mk_key e) (evalue e) m = POk (m ++ [e]).
Proof. intros [(r & R & K & C & _) (r' & R' & V)] S. rewrite R in R'. injection R' as <-.
  destruct (ins_last _ _ S) as [I Hh]. apply insert_pair_ok. exists (slot e), (ekey e), r, (ekey e), (evalue e).
  unfold PsetMaps.set_keyed. rewrite Hh, <- I. repeat split; auto using kvalid_ckey; [discriminate|]. now destruct e as [[i k] v]. Qed.

(* what the decoder establishes of a stored value: it is an output of its row's canoniser *)
Definition canonised (e : entry) : Prop := exists r v, nth_error T (slot e) = Some r /\ r_vcanon r (ekey e) v = POk (evalue e).
Definition inv (m : pmap) : Prop := sorted m /\ Forall (fun e => weak e /\ canonised e) m.

Lemma mk_key_irrel i k v v' : mk_key (i, k, v) = mk_key (i, k, v').
Proof. reflexivity. Qed.

Lemma inv_insert key v m m' : rows_ok -> inv m -> fits maxvec (key, v) -> insert_pair key v m = POk m' -> inv m'.
Proof. intros RO [S F] [Fk Fv] H. cbn [fst snd] in Fk, Fv. destruct key as [t kd0].
  apply insert_pair_ok in H as (i & kd & r & k & c & C & R & K & V & _ & ->).
  destruct (ckey_valid r kd k (RO _ _ R) K) as (Kv & Kl & W). destruct (classify_canon _ _ _ _ _ k c C R Kl W) as [C' F'].
  apply (set_keyed_keeps (fun e => weak e /\ canonised e)); auto; [now intros e [We _]|]. split.
  - exists r. cbn [slot ekey evalue fst snd]. split; [exact R|]. split; [exact Kv|]. split; [exact C'|]. split; [exact (F' Fk)|].
    cbn [snd]. eapply fitsb_le; [eapply (ro_vsize _ (RO _ _ R)); eauto|exact Fv].
  - exists r, v. auto. Qed.

Lemma inv_dec_entries : rows_ok -> forall fuel bs m m' rest, inv m -> dec_entries fuel bs m = POk (m', rest) -> inv m'.
Proof. intros RO. induction fuel as [|f IH]; intros bs m m' rest I H; [discriminate|]. cbn [PsetMaps.dec_entries] in H.
  destruct (dec_pair maxvec bs) as [[[[key v]|] r]|] eqn:D; try discriminate.
  - destruct (insert_pair key v m) as [m1|] eqn:P; [|discriminate]. cbn [pbind] in H.
    apply (dec_pair_some _ Hmax) in D as [_ Fi]. eapply IH; [|exact H]. eapply inv_insert; eauto.
  - injection H as <- _. exact I. Qed.

Lemma enc_entries_app a b : enc_entries (a ++ b) = enc_entries a ++ enc_entries b.
Proof. unfold PsetMaps.enc_entries. now rewrite map_app, concat_app. Qed.
Lemma enc_entries_length m : (length m <= length (enc_entries m))%nat.
Proof. induction m as [|e m IH]; [cbn; lia|]. unfold PsetMaps.enc_entries in *. cbn [map concat]. rewrite app_length.
  pose proof (enc_pair_nonempty maxvec Hmax (mk_key e, evalue e)) as H. change (enc_pair maxvec (mk_key e, evalue e)) with (enc_entry e) in H. cbn [length]. lia. Qed.

Lemma dec_entries_emitted : forall es m0 fuel rest,
  (length es < fuel)%nat -> sorted (m0 ++ es) -> Forall wf_entry es ->
  dec_entries fuel (enc_entries es ++ x00 :: rest) m0 = POk (m0 ++ es, rest).
Proof. induction es as [|e es IH]; intros m0 fuel rest L S F.
  - destruct fuel; [cbn in L; lia|]. cbn. now rewrite app_nil_r.
  - destruct fuel as [|f]; [cbn in L; lia|]. apply Forall_cons_iff in F as [We F]. cbn [PsetMaps.dec_entries].
    unfold PsetMaps.enc_entries. cbn [map concat]. fold (enc_entries es). rewrite <- app_assoc. unfold PsetMaps.enc_entry at 1.
    pose proof We as [(r & _ & _ & _ & Fi) _]. rewrite (dec_pair_enc _ Hmax _ _ Fi).
    rewrite (app_assoc m0 [e] es : m0 ++ e :: es = _) in S |- *.
    rewrite (insert_emitted m0 e We (sorted_app _ _ S)). cbn [pbind]. apply IH; auto. cbn [length] in L. lia. Qed.

Variable post : pmap -> option perr.
Notation dec_map := (dec_map maxvec T post).
Notation enc_map := (enc_map maxvec T).
Definition wf_map (m : pmap) : Prop := wf_entries m /\ post m = None.

Theorem dec_map_rt m rest : wf_map m -> dec_map (enc_map m ++ rest) = POk (m, rest).
Proof. intros [[S F] P]. unfold PsetMaps.dec_map, PsetMaps.enc_map. rewrite <- app_assoc. cbn [app].
  rewrite (dec_entries_emitted m [] _ rest); [cbn [pbind fst app]; now rewrite P| |exact S|exact F].
  rewrite app_length. pose proof (enc_entries_length m). lia. Qed.

Lemma dec_map_ok bs m rest : dec_map bs = POk (m, rest) -> dec_entries (S (length bs)) bs [] = POk (m, rest) /\ post m = None.
Proof. unfold PsetMaps.dec_map. destruct (dec_entries (S (length bs)) bs []) as [[m' r']|]; [|discriminate]. cbn [pbind fst].
  destruct (post m') eqn:P; [discriminate|]. intros H. injection H as <- <-. auto. Qed.
Theorem dec_map_inv bs m rest : rows_ok -> dec_map bs = POk (m, rest) -> inv m /\ post m = None.
Proof. intros RO H. apply dec_map_ok in H as [D P]. split; [|exact P]. eapply (inv_dec_entries RO); [|exact D]. split; [exact I|constructor]. Qed.

Section FIX.
Variable G : nat -> Prop.
Lemma inv_wf m : (forall j r', nth_error T j = Some r' -> G j -> v_idem r') ->
  inv m -> Forall (fun e => G (slot e) \/ vfixed e) m -> wf_entries m.
Proof. intros GI [S F] H. split; [exact S|]. rewrite Forall_forall in *. intros e He. destruct (F e He) as [W (r & v & R & V)]. split; [exact W|].
  destruct (H e He) as [Ge|]; [|assumption]. exists r. split; [exact R|]. exact (GI _ _ R Ge _ _ _ V). Qed.
(* decode; encode; decode again gives the same map, and its encoding is a fixpoint *)
Theorem dec_map_fix bs m rest : rows_ok -> (forall j r', nth_error T j = Some r' -> G j -> v_idem r') ->
  dec_map bs = POk (m, rest) -> Forall (fun e => G (slot e) \/ vfixed e) m ->
  wf_map m /\ forall rest', dec_map (enc_map m ++ rest') = POk (m, rest').
Proof. intros RO GI H F. destruct (dec_map_inv _ _ _ RO H) as [I P].
  assert (W : wf_map m) by (split; [now apply inv_wf|exact P]). split; [exact W|]. intros. now apply dec_map_rt. Qed.
End FIX.

Lemma dec_entries_has : forall fuel bs m m' rest, dec_entries fuel bs m = POk (m', rest) -> forall i k, has m i k = true -> has m' i k = true.
Proof. induction fuel as [|f IH]; intros bs m m' rest H i k Hh; [discriminate|]. cbn [PsetMaps.dec_entries] in H.
  destruct (dec_pair maxvec bs) as [[[[key v]|] r]|]; try discriminate.
  - destruct (insert_pair key v m) as [m1|] eqn:P; [|discriminate]. cbn [pbind] in H. eapply IH; [exact H|]. now apply (insert_pair_has _ _ _ _ P).
  - injection H as <- _. exact Hh. Qed.

Fixpoint enc_pairs (ps : list rpair) : bytes := match ps with [] => [] | p :: r => enc_pair maxvec p ++ enc_pairs r end.

Lemma dec_entries_pair fuel key v rest m r : fits maxvec (key, v) -> dec_entries fuel (enc_pair maxvec (key, v) ++ rest) m = POk r ->
  exists m', insert_pair key v m = POk m' /\ dec_entries (pred fuel) rest m' = POk r.
Proof. intros F. destruct fuel as [|f]; [discriminate|]. cbn [PsetMaps.dec_entries pred]. rewrite (dec_pair_enc _ Hmax _ _ F).
  destruct (insert_pair key v m) as [m'|]; [eauto|discriminate]. Qed.
Lemma dec_entries_pairs : forall ps fuel rest m r, Forall (fits maxvec) ps -> dec_entries fuel (enc_pairs ps ++ rest) m = POk r ->
  exists m', (forall i k, has m i k = true -> has m' i k = true) /\ dec_entries (fuel - length ps) rest m' = POk r.
Proof. induction ps as [|[key v] ps IH]; intros fuel rest m r F H; cbn [enc_pairs app length] in *.
  - exists m. now rewrite Nat.sub_0_r.
  - apply Forall_cons_iff in F as [F1 F]. rewrite <- app_assoc in H. apply dec_entries_pair in H as (m1 & I1 & H); [|exact F1].
    destruct (IH _ _ _ _ F H) as (m' & M & D). exists m'. split; [|destruct fuel; exact D].
    intros i k Hh. now apply M, (insert_pair_has _ _ _ _ I1). Qed.

(* duplicate keys: a second pair with a raw key already seen is an error, unless the field is assigned without the is_none() test *)
Theorem dup_rejected_any : forall fuel (a : list rpair) key v1 (b : list rpair) v2 tail m,
  Forall (fits maxvec) a -> fits maxvec (key, v1) -> Forall (fits maxvec) b -> fits maxvec (key, v2) ->
  (forall i kd r, classify key = POk (i, kd) -> nth_error T i = Some r -> r_kind r <> KOptLast) ->
  exists e, dec_entries fuel (enc_pairs a ++ enc_pair maxvec (key, v1) ++ enc_pairs b ++ enc_pair maxvec (key, v2) ++ tail) m = PErr e.
Proof. intros fuel a key v1 b v2 tail m Fa F1 Fb F2 NL. destruct (dec_entries fuel _ m) as [res|e] eqn:D; [exfalso|eauto].
  apply dec_entries_pairs in D as (m1 & _ & D); [|exact Fa]. apply dec_entries_pair in D as (m2 & I1 & D); [|exact F1].
  apply dec_entries_pairs in D as (m3 & Mb & D); [|exact Fb]. apply dec_entries_pair in D as (m4 & I2 & _); [|exact F2].
  apply insert_pair_ok in I1 as (i & kd & r & k & c & C & R & K & _ & _ & ->).
  apply insert_pair_ok in I2 as (i' & kd' & r' & k' & c' & C' & R' & K' & _ & L & _).
  rewrite C in C'. injection C' as <- <-. rewrite R in R'. injection R' as <-. rewrite K in K'. injection K' as <-.
  apply (NL i kd r C R), L, Mb, has_set_same. Qed.

(* BTreeMap::insert then BTreeMap::get on a keyed field (the ELIP-100 / ELIP-102 accessors) *)
Lemma get_set m i k v : get_key (set_keyed T m i k v) i k = Some v.
Proof. unfold get_key, PsetMaps.set_keyed. destruct (has m i k) eqn:Hh.
  - assert (F : find (same i k) (replace i k v m) = Some (i, k, v)); [|now rewrite F].
    unfold has in Hh. induction m as [|x m IH]; [discriminate|]. cbn [existsb] in Hh. cbn [replace map find]. fold (replace i k v m).
    destruct (same i k x) eqn:S.
    + now rewrite same_refl.
    + rewrite S. cbn [orb] in Hh. now apply IH.
  - assert (F : find (same i k) (ins (i, k, v) m) = Some (i, k, v)); [|now rewrite F].
    unfold has in Hh. induction m as [|x m IH]; cbn [PsetMaps.ins find]; [now rewrite same_refl|]. cbn [existsb] in Hh. apply orb_false_iff in Hh as [Sx Hh].
    destruct (before (i, k, v) x); cbn [find]; [now rewrite same_refl|]. rewrite Sx. now apply IH. Qed.
Lemma get_set_other m i k v i' k' : (i', k') <> (i, k) -> get_key (set_keyed T m i k v) i' k' = get_key m i' k'.
Proof. intros NE. unfold get_key, PsetMaps.set_keyed. f_equal.
  assert (Sn : forall x, same i k x = true -> same i' k' x = false).
  { intros x S. apply same_true in S as [<- <-]. unfold same. destruct (Nat.eqb_spec (slot x) i'); [|reflexivity]. destruct (bytes_eqb_spec (ekey x) k'); [|reflexivity]. subst. congruence. }
  pose proof (Sn _ (same_refl i k v)) as Se.
  destruct (has m i k).
  - induction m as [|x m IH]; [reflexivity|]. cbn [replace map find]. fold (replace i k v m). destruct (same i k x) eqn:S.
    + now rewrite Se, (Sn x S).
    + destruct (same i' k' x); [reflexivity|exact IH].
  - induction m as [|x m IH]; cbn [PsetMaps.ins find]; [now rewrite Se|]. destruct (before (i, k, v) x); cbn [find]; [now rewrite Se|]. destruct (same i' k' x); [reflexivity|exact IH]. Qed.
Lemma get_opt_set m i k v j : j <> i -> get_opt (set_keyed T m i k v) j = get_opt m j.
Proof. intros NE. apply (get_set_other m i k v j []). congruence. Qed.
Lemma missing_set m i k v : (forall r, nth_error T i = Some r -> r_mand r = false) -> missing T (set_keyed T m i k v) = missing T m.
Proof. intros NM. unfold missing. induction (seq 0 (length T)) as [|j l IH]; [reflexivity|]. cbn [existsb]. rewrite IH. f_equal.
  destruct (nth_error T j) as [r|] eqn:R; [|reflexivity]. destruct (Nat.eq_dec j i) as [->|NE].
  - now rewrite (NM r R).
  - now rewrite has_slot_set. Qed.

Lemma dec_map_framed (ps : list rpair) rest m r : Forall (fits maxvec) ps -> dec_map (enc_pairs ps ++ x00 :: rest) = POk (m, r) -> r = rest.
Proof. intros F H. apply dec_map_ok in H as [D _]. apply dec_entries_pairs in D as (m' & _ & D); [|exact F].
  destruct (_ - _)%nat; [discriminate|]. cbn in D. now injection D. Qed.
Lemma dec_map_nil : exists e, dec_map [] = PErr e.
Proof. unfold PsetMaps.dec_map. cbn. eauto. Qed.
End ONE.

(* the five-byte magic test of `dec_pset`; the continuation is abstract so that the 5 x 256 cases are analysed on a small term *)
Lemma magic_match {A} (f : bytes -> A) (d : A) bs y :
  match bs with x70 :: x73 :: x65 :: x74 :: xff :: r0 => f r0 | _ => d end = y -> d = y \/ exists r0, bs = magic ++ r0 /\ f r0 = y.
Proof. (* a byte other than the expected one selects `d`: the premise is then the left disjunct as it stands *)
  destruct bs as [|b0 bs]; [auto|]. refine (match b0 with x70 => _ | _ => @or_introl (d = y) _ end).
  destruct bs as [|b1 bs]; [auto|]. refine (match b1 with x73 => _ | _ => @or_introl (d = y) _ end).
  destruct bs as [|b2 bs]; [auto|]. refine (match b2 with x65 => _ | _ => @or_introl (d = y) _ end).
  destruct bs as [|b3 bs]; [auto|]. refine (match b3 with x74 => _ | _ => @or_introl (d = y) _ end).
  destruct bs as [|b4 bs]; [auto|]. refine (match b4 with xff => _ | _ => @or_introl (d = y) _ end).
  right. exists bs. auto. Qed.

Section PSET.
Variable maxvec : N.
Hypothesis Hmax : maxvec + 1 < 2 ^ 64.
Hypothesis Hmin : 4 <= maxvec.
Variables Tg Ti To : table.
Variables postg posti posto : pmap -> option perr.
Variables n_inputs n_outputs : pmap -> N.
Variable cap : N.
Hypothesis ROg : rows_ok Tg. Hypothesis ROi : rows_ok Ti. Hypothesis ROo : rows_ok To.
Variables Gg Gi Go : nat -> Prop.
Hypothesis GIg : forall j r, nth_error Tg j = Some r -> Gg j -> v_idem r.
Hypothesis GIi : forall j r, nth_error Ti j = Some r -> Gi j -> v_idem r.
Hypothesis GIo : forall j r, nth_error To j = Some r -> Go j -> v_idem r.

Notation serialize := (serialize maxvec Tg Ti To).
Notation deserialize := (deserialize maxvec Tg Ti To postg posti posto n_inputs n_outputs cap).
Notation dec_pset := (dec_pset maxvec Tg Ti To postg posti posto n_inputs n_outputs cap).
Notation dec_maps := (dec_maps maxvec).
Notation dec_map := (PsetMaps.dec_map maxvec).

Definition wf_pset (p : pset) : Prop :=
  wf_map maxvec Tg postg (p_global p) /\ Forall (wf_map maxvec Ti posti) (p_inputs p) /\ Forall (wf_map maxvec To posto) (p_outputs p) /\
  n_inputs (p_global p) = N.of_nat (length (p_inputs p)) /\ n_outputs (p_global p) = N.of_nat (length (p_outputs p)) /\
  n_inputs (p_global p) <= cap /\ n_outputs (p_global p) <= cap.

Lemma dec_maps_rt T post ms rest : Forall (wf_map maxvec T post) ms ->
  dec_maps T post (length ms) (concat (map (enc_map maxvec T) ms) ++ rest) = POk (ms, rest).
Proof. induction ms as [|m ms IH]; intros F; [reflexivity|]. apply Forall_cons_iff in F as [Wm F]. cbn [length map concat PsetMaps.dec_maps].
  rewrite <- app_assoc, (dec_map_rt maxvec Hmax Hmin T post m _ Wm). cbn [pbind fst snd]. rewrite (IH F). reflexivity. Qed.

Theorem pset_rt p : wf_pset p -> deserialize (serialize p) = POk p.
Proof. intros (Wg & Wi & Wo & Ni & No & Ci & Co). unfold PsetMaps.deserialize, PsetMaps.dec_pset, PsetMaps.serialize, magic. cbn [app].
  rewrite (dec_map_rt maxvec Hmax Hmin Tg postg _ _ Wg). cbn [pbind fst snd].
  rewrite (proj2 (N.ltb_ge _ _) Ci), Ni, Nat2N.id, (dec_maps_rt Ti posti _ _ Wi). cbn [pbind fst snd].
  rewrite (proj2 (N.ltb_ge _ _) Co), No, Nat2N.id.
  rewrite <- (app_nil_r (concat (map (enc_map maxvec To) (p_outputs p)))), (dec_maps_rt To posto _ _ Wo). cbn [pbind fst snd]. now destruct p. Qed.

Lemma dec_maps_all T post (P : pmap -> Prop) : (forall bs m r, dec_map T post bs = POk (m, r) -> P m) ->
  forall n bs ms rest, dec_maps T post n bs = POk (ms, rest) -> length ms = n /\ Forall P ms.
Proof. intros HP. induction n as [|n IH]; intros bs ms rest H; cbn [PsetMaps.dec_maps] in H.
  - injection H as <- _. split; [reflexivity|constructor].
  - destruct (dec_map T post bs) as [[m r]|] eqn:D; [|discriminate]. cbn [pbind fst snd] in H.
    destruct (dec_maps T post n r) as [[l r']|] eqn:D'; [|discriminate]. cbn [pbind fst snd] in H. injection H as <- _.
    destruct (IH _ _ _ D') as [L F]. split; [cbn; now rewrite L|]. constructor; [eapply HP; eauto|exact F]. Qed.

Lemma dec_maps_length T post n bs ms rest : dec_maps T post n bs = POk (ms, rest) -> length ms = n.
Proof. intros H. now apply (dec_maps_all T post (fun _ => True)) in H. Qed.

Lemma deserialize_inv bs p : deserialize bs = POk p ->
  exists r0 r1 r2, bs = magic ++ r0 /\ dec_map Tg postg r0 = POk (p_global p, r1) /\
    n_inputs (p_global p) <= cap /\ dec_maps Ti posti (N.to_nat (n_inputs (p_global p))) r1 = POk (p_inputs p, r2) /\
    n_outputs (p_global p) <= cap /\ dec_maps To posto (N.to_nat (n_outputs (p_global p))) r2 = POk (p_outputs p, []).
Proof. unfold PsetMaps.deserialize. destruct (dec_pset bs) as [[p' rest]|] eqn:D; [|discriminate]. cbn [pbind fst snd].
  destruct rest; [|discriminate]. intros H. injection H as ->.
  unfold PsetMaps.dec_pset in D. apply magic_match in D as [D|(r0 & -> & D)]; [discriminate|]. exists r0.
  destruct (dec_map Tg postg r0) as [[g r1]|] eqn:Dg; [|discriminate]. cbn [pbind fst snd] in D.
  destruct (N.ltb_spec cap (n_inputs g)) as [|Ci]; [discriminate|].
  destruct (dec_maps Ti posti (N.to_nat (n_inputs g)) r1) as [[ins r2]|] eqn:Di; [|discriminate]. cbn [pbind fst snd] in D.
  destruct (N.ltb_spec cap (n_outputs g)) as [|Co]; [discriminate|].
  destruct (dec_maps To posto (N.to_nat (n_outputs g)) r2) as [[outs r3]|] eqn:Do; [|discriminate]. cbn [pbind fst snd] in D.
  injection D as <- <-. exists r1, r2. cbn [p_global p_inputs p_outputs]. auto 7. Qed.

Definition pmap_ok (T : table) (G : nat -> Prop) (m : pmap) : Prop := Forall (fun e => G (slot e) \/ vfixed T e) m.
Definition pset_fixed (p : pset) : Prop :=
  pmap_ok Tg Gg (p_global p) /\ Forall (pmap_ok Ti Gi) (p_inputs p) /\ Forall (pmap_ok To Go) (p_outputs p).

Lemma dec_maps_wf T post (G : nat -> Prop) n bs ms rest : rows_ok T -> (forall j r, nth_error T j = Some r -> G j -> v_idem r) ->
  dec_maps T post n bs = POk (ms, rest) -> Forall (pmap_ok T G) ms -> Forall (wf_map maxvec T post) ms.
Proof. intros RO GI D F. apply (dec_maps_all T post (fun m => pmap_ok T G m -> wf_map maxvec T post m)) in D as [_ W].
  - rewrite Forall_forall in *. auto.
  - intros bs' m r Dm Fm. now apply (dec_map_fix maxvec Hmax Hmin T post G _ _ _ RO GI Dm). Qed.

Theorem deserialize_wf bs p : deserialize bs = POk p -> pset_fixed p -> wf_pset p.
Proof. intros H (Fg & Fi & Fo). destruct (deserialize_inv _ _ H) as (r0 & r1 & r2 & _ & Dg & Ci & Di & Co & Do).
  pose proof (dec_maps_length _ _ _ _ _ _ Di) as Li. pose proof (dec_maps_length _ _ _ _ _ _ Do) as Lo.
  split; [now apply (dec_map_fix maxvec Hmax Hmin Tg postg Gg _ _ _ ROg GIg Dg)|].
  split; [now apply (dec_maps_wf Ti posti Gi _ _ _ _ ROi GIi Di)|]. split; [now apply (dec_maps_wf To posto Go _ _ _ _ ROo GIo Do)|].
  rewrite Li, Lo, !N2Nat.id. auto. Qed.

Theorem pset_fixpoint bs p : deserialize bs = POk p -> pset_fixed p -> deserialize (serialize p) = POk p.
Proof. intros H F. apply pset_rt. eapply deserialize_wf; eauto. Qed.
Theorem deserialize_counts bs p : deserialize bs = POk p -> sanity_check n_inputs n_outputs p = true.
Proof. intros H. destruct (deserialize_inv _ _ H) as (r0 & r1 & r2 & _ & _ & _ & Di & _ & Do).
  unfold sanity_check. rewrite (dec_maps_length _ _ _ _ _ _ Di), (dec_maps_length _ _ _ _ _ _ Do), !N2Nat.id, !N.eqb_refl. reflexivity. Qed.

(* inconsistent counts: a byte string made of the magic, a global map and k further maps (any pairs at all, only
   well-framed) is accepted only if k is the number of inputs plus the number of outputs the decoder read, i.e. (with
   deserialize_counts) the declared counts; too few maps end in EOF, too many in trailing data *)
Definition enc_rawmap (ps : list rpair) : bytes := enc_pairs maxvec ps ++ [x00].
Lemma enc_rawmap_cons ps rest : enc_rawmap ps ++ rest = enc_pairs maxvec ps ++ x00 :: rest.
Proof. unfold enc_rawmap. now rewrite <- app_assoc. Qed.
Lemma dec_maps_framed T post : forall n (ms : list (list rpair)) l r, Forall (Forall (fits maxvec)) ms ->
  dec_maps T post n (concat (map enc_rawmap ms)) = POk (l, r) ->
  exists a b, ms = a ++ b /\ length a = n /\ r = concat (map enc_rawmap b).
Proof. induction n as [|n IH]; intros ms l r F H; cbn [PsetMaps.dec_maps] in H.
  - injection H as _ <-. now exists [], ms.
  - destruct ms as [|m1 ms].
    + cbn [map concat] in H. destruct (dec_map_nil maxvec T post) as [e E]. rewrite E in H. discriminate.
    + apply Forall_cons_iff in F as [F1 F]. cbn [map concat] in H. rewrite enc_rawmap_cons in H.
      destruct (dec_map T post _) as [[m r1]|] eqn:D; [|discriminate]. cbn [pbind fst snd] in H.
      apply (dec_map_framed maxvec Hmax T post _ _ _ _ F1) in D. subst r1.
      destruct (dec_maps T post n _) as [[l' r']|] eqn:D'; [|discriminate]. cbn [pbind fst snd] in H. injection H as _ <-.
      destruct (IH _ _ _ F D') as (a & b & -> & <- & ->). now exists (m1 :: a), b. Qed.
Theorem framed_count (gps : list rpair) (ms : list (list rpair)) p :
  Forall (fits maxvec) gps -> Forall (Forall (fits maxvec)) ms ->
  deserialize (magic ++ enc_rawmap gps ++ concat (map enc_rawmap ms)) = POk p ->
  N.of_nat (length ms) = n_inputs (p_global p) + n_outputs (p_global p).
Proof. intros Fg Fm H. destruct (deserialize_inv _ _ H) as (r0 & r1 & r2 & E & Dg & _ & Di & _ & Do).
  apply app_inv_head in E. subst r0. rewrite enc_rawmap_cons in Dg. apply (dec_map_framed maxvec Hmax Tg postg _ _ _ _ Fg) in Dg. subst r1.
  destruct (dec_maps_framed _ _ _ _ _ _ Fm Di) as (a & b & -> & La & ->). apply Forall_app in Fm as [_ Fb].
  destruct (dec_maps_framed _ _ _ _ _ _ Fb Do) as (a' & b' & -> & La' & E). rewrite !app_length.
  destruct b' as [|m b']; [cbn [length]; lia|]. cbn [map concat] in E. unfold enc_rawmap at 1 in E. now destruct (enc_pairs maxvec m). Qed.
End PSET.

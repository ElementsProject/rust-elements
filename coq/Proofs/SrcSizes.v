(* The size / weight arithmetic as TRANSLATED from the Rust source on every run (Gen/SrcSizes.v, translator/rust2coq.py) is the
   hand-written model of Model/Sizes.v, function by function.  The C12 theorems (Props/C12.v) are transported along these equalities,
   so they speak about the formulas that are in src/transaction.rs and src/block.rs now. *)
From Coq Require Import List NArith Bool Lia.
From Coq.Strings Require Import Byte.
From EV Require Import Base.Bytes Base.Codec Model.Tx Model.Block Model.Sizes Gen.SrcPreds Gen.SrcSizes Proofs.SrcPreds Proofs.Sizes.
Import ListNotations.
Open Scope N_scope.

Lemma src_scaled_size t k : src_Transaction_scaled_size t k = scaled_size k t.
Proof.
  unfold src_Transaction_scaled_size, scaled_size. cbv zeta. rewrite src_has_witness.
  rewrite (nsum_map_ext _ (fun i => k * input_base i + (if has_witness t then input_wit i else 0)) (tx_in t)).
  rewrite (nsum_map_ext _ (fun o => k * output_base o + (if has_witness t then output_wit o else 0)) (tx_out t)).
  - reflexivity.
  - intros x _. rewrite src_asset_len, src_value_len, src_nonce_len, src_rangeproof_len, src_surjectionproof_len. unfold output_base, output_wit.
    destruct (has_witness t); lia.
  - intros x _. rewrite src_has_issuance. change src_Value_encoded_length with value_len. unfold input_base, input_wit, stack_size, optlen.
    destruct (has_witness t), (has_issuance x); lia.
Qed.
Lemma src_size t : src_Transaction_size t = tx_size t.       Proof. apply src_scaled_size. Qed.
Lemma src_weight t : src_Transaction_weight t = tx_weight t. Proof. apply src_scaled_size. Qed.
Lemma src_vsize t : src_Transaction_vsize t = tx_vsize t.
Proof. unfold src_Transaction_vsize, tx_vsize, div_ceil4. cbv zeta. now rewrite src_weight. Qed.
Lemma src_discount_weight t : src_Transaction_discount_weight t = discount_weight t.
Proof.
  unfold src_Transaction_discount_weight, discount_weight. cbv zeta. rewrite src_scaled_size. fold (tx_weight t).
  apply fold_left_ext. intros w o. unfold src_TxOutWitness_rangeproof_len, src_TxOutWitness_surjectionproof_len, output_wit, optlen.
  rewrite src_value_is_conf, src_nonce_is_conf.
  destruct (value_is_conf (out_value o)), (nonce_is_conf (out_nonce o)); cbv zeta; lia.
Qed.
Lemma src_discount_vsize t : src_Transaction_discount_vsize t = discount_vsize t.
Proof. unfold src_Transaction_discount_vsize, discount_vsize, div_ceil4. now rewrite src_discount_weight. Qed.
Section BLK.
Variables maxvec cap_vecu8 : N.
Lemma src_block_size b : src_Block_size maxvec cap_vecu8 b = block_size maxvec cap_vecu8 b.
Proof. unfold src_Block_size, block_size. cbv zeta. rewrite src_varint_size. f_equal. apply nsum_map_ext. intros x _. apply src_size. Qed.
Lemma src_block_weight b : src_Block_weight maxvec cap_vecu8 b = block_weight maxvec cap_vecu8 b.
Proof. unfold src_Block_weight, block_weight. cbv zeta. rewrite src_varint_size. f_equal. apply nsum_map_ext. intros x _. apply src_weight. Qed.
End BLK.

(* the generated no-panic conditions of the size accessors are true for every transaction and block (the only partial operation they contain
   is the division by the constant 4; discount_weight, whose loop subtracts, is covered by C12_discount: no subtraction goes below zero) *)
Lemma src_scaled_size_safe t k : src_Transaction_scaled_size_safe t k = true.
Proof.
  unfold src_Transaction_scaled_size_safe. cbv zeta. rewrite src_has_witness_safe. cbn [andb].
  apply andb_true_iff. split; apply forallb_forall; intros x _.
  - rewrite src_has_issuance_safe. destruct (src_TxIn_has_issuance x), (src_Transaction_has_witness t); reflexivity.
  - destruct (src_Transaction_has_witness t); reflexivity.
Qed.
Lemma src_size_safe t : src_Transaction_size_safe t = true.       Proof. apply src_scaled_size_safe. Qed.
Lemma src_weight_safe t : src_Transaction_weight_safe t = true.   Proof. apply src_scaled_size_safe. Qed.
Lemma src_vsize_safe t : src_Transaction_vsize_safe t = true.
Proof. unfold src_Transaction_vsize_safe. rewrite src_weight_safe. reflexivity. Qed.
Section BLKSAFE.
Variables maxvec cap_vecu8 : N.
Lemma src_block_size_safe b : src_Block_size_safe maxvec cap_vecu8 b = true.
Proof. unfold src_Block_size_safe. cbv zeta. apply andb_true_iff. split.
  - reflexivity.
  - apply forallb_forall. intros x _. apply src_size_safe. Qed.
Lemma src_block_weight_safe b : src_Block_weight_safe maxvec cap_vecu8 b = true.
Proof. unfold src_Block_weight_safe. cbv zeta. apply andb_true_iff. split.
  - reflexivity.
  - apply forallb_forall. intros x _. apply src_weight_safe. Qed.
End BLKSAFE.

(* Proofs for C08: BIP370 lock time selection, unique-id invariance, from_tx/extract_tx. *)
From Coq Require Import List NArith Bool.
From Coq.Strings Require Import Byte.
From EV Require Import Base.Bytes Base.Codec Gen.Tables Model.PsetMap Model.PsetTx Proofs.PsetMap Proofs.Flags.
Import ListNotations.
Open Scope N_scope.

Definition time_only (i : pmap) : bool := has_time i && negb (has_height i).
Definition height_only (i : pmap) : bool := has_height i && negb (has_time i).
(* closed form of the per-input fold *)
Definition spec_state (l : list pmap) : lt3 * lt3 :=
  (if existsb height_only l then LD else if existsb has_time l then LMin (max_of (map req_time l)) else LU,
   if existsb time_only l then LD else if existsb has_height l then LMin (max_of (map req_height l)) else LU).

Lemma max_of_gen l : forall m, fold_left (fun m o => match o with Some x => N.max m x | None => m end) l m = N.max m (max_of l).
Proof.
  unfold max_of. induction l as [|o l IH]; intros m; cbn [fold_left]; [now rewrite N.max_0_r|].
  rewrite IH, (IH (match o with Some x => N.max 0 x | None => 0 end)). destruct o; now rewrite N.max_0_l, ?N.max_assoc.
Qed.
Lemma max_of_app l x : max_of (l ++ [x]) = match x with Some v => N.max (max_of l) v | None => max_of l end.
Proof. unfold max_of at 1. rewrite fold_left_app. cbn [fold_left]. fold (max_of l). reflexivity. Qed.
Lemma max_of_none l (f : pmap -> option N) (h : pmap -> bool) :
  (forall i, h i = match f i with Some _ => true | None => false end) -> existsb h l = false -> max_of (map f l) = 0.
Proof.
  intros Hh. induction l as [|i l IH]; cbn [existsb map]; [reflexivity|]. intros E. apply orb_false_iff in E as [E1 E2].
  unfold max_of. cbn [fold_left]. rewrite Hh in E1. destruct (f i); [discriminate|]. apply IH, E2.
Qed.
Lemma lt3_max_min x y : lt3_max (LMin x) (LMin y) = LMin (N.max x y).
Proof. cbn [lt3_max]. destruct (N.ltb_spec y x) as [L|L]; [apply N.lt_le_incl in L; now rewrite N.max_l|now rewrite N.max_r]. Qed.

Lemma comp_step (d a : bool) (m v : N) : (a = false -> m = 0) ->
  lt3_max (if d then LD else if a then LMin m else LU) (LMin v) = (if d then LD else LMin (N.max m v)).
Proof. intros H. destruct d, a; cbn [lt3_max]; try reflexivity; [apply lt3_max_min|]. now rewrite (H eq_refl), N.max_0_l. Qed.

Lemma lt_fold_spec l : lt_fold l = spec_state l.
Proof.
  induction l as [|i l IH] using rev_ind; [reflexivity|].
  unfold lt_fold in *. rewrite fold_left_app. cbn [fold_left]. rewrite IH. clear IH.
  unfold spec_state. rewrite !existsb_app, !map_app. cbn [existsb map]. rewrite !orb_false_r, !max_of_app.
  pose proof (max_of_none l req_time has_time (fun _ => eq_refl)) as Z1.
  pose proof (max_of_none l req_height has_height (fun _ => eq_refl)) as Z2.
  unfold lt_step, time_only, height_only, has_time, has_height in *.
  destruct (req_time i) as [t|], (req_height i) as [h|]; cbn [fst snd andb negb]; rewrite ?orb_false_r, ?orb_true_r.
  - rewrite !comp_step by assumption. reflexivity.
  - rewrite comp_step by assumption. reflexivity.
  - rewrite comp_step by assumption. reflexivity.
  - reflexivity.
Qed.

(* the two arm orders this development knows: the one in the tree before the F6 repair (time tested first) and the repaired one *)
Definition arms_time_first : list (lt_pat * lt_pat * lt_act) :=
  [(LP_U, LP_U, LA_Fallback); (LP_Min, LP_Any, LA_Time); (LP_Any, LP_Min, LA_Height); (LP_D, LP_D, LA_Conflict); (LP_U, LP_D, LA_Unreachable); (LP_D, LP_U, LA_Unreachable)].
Definition arms_height_first : list (lt_pat * lt_pat * lt_act) :=
  [(LP_U, LP_U, LA_Fallback); (LP_Any, LP_Min, LA_Height); (LP_Min, LP_Any, LA_Time); (LP_D, LP_D, LA_Conflict); (LP_U, LP_D, LA_Unreachable); (LP_D, LP_U, LA_Unreachable)].
Definition arms_known (arms : list (lt_pat * lt_pat * lt_act)) : Prop := arms = arms_time_first \/ arms = arms_height_first.

Definition both_kinds (i : pmap) : bool := has_time i && has_height i.
Lemma existsb_or {A} (f g h : A -> bool) l : (forall x, f x = g x || h x) -> existsb f l = existsb g l || existsb h l.
Proof. intros E. induction l as [|x l IH]; cbn; [reflexivity|]. rewrite IH, E. destruct (g x), (h x), (existsb g l); reflexivity. Qed.
Lemma constrains_or i : constrains i = has_time i || has_height i.
Proof. unfold constrains, has_time, has_height. destruct (req_time i), (req_height i); reflexivity. Qed.
Lemma existsb_constrains l : existsb constrains l = existsb has_time l || existsb has_height l.
Proof. apply existsb_or, constrains_or. Qed.
Lemma existsb_has_time l : existsb has_time l = existsb time_only l || existsb both_kinds l.
Proof. apply existsb_or. intros i. unfold time_only, both_kinds. destruct (has_time i), (has_height i); reflexivity. Qed.
Lemma existsb_has_height l : existsb has_height l = existsb height_only l || existsb both_kinds l.
Proof. apply existsb_or. intros i. unfold height_only, both_kinds. destruct (has_time i), (has_height i); reflexivity. Qed.
Lemma filter_nil_existsb {A} (f : A -> bool) l : match filter f l with [] => true | _ => false end = negb (existsb f l).
Proof. induction l as [|x l IH]; cbn; [reflexivity|]. destruct (f x); cbn; auto. Qed.
Lemma forallb_height_cs l : forallb has_height (filter constrains l) = negb (existsb time_only l).
Proof.
  induction l as [|x l IH]; cbn; [reflexivity|]. rewrite constrains_or. unfold time_only.
  destruct (has_time x) eqn:T, (has_height x) eqn:H; cbn; rewrite ?H; cbn; auto.
Qed.
Lemma forallb_time_cs l : forallb has_time (filter constrains l) = negb (existsb height_only l).
Proof.
  induction l as [|x l IH]; cbn; [reflexivity|]. rewrite constrains_or. unfold height_only.
  destruct (has_time x) eqn:T, (has_height x) eqn:H; cbn; rewrite ?T; cbn; auto.
Qed.
Lemma max_of_cons o l : max_of (o :: l) = match o with Some x => N.max x (max_of l) | None => max_of l end.
Proof. unfold max_of at 1. cbn [fold_left]. rewrite max_of_gen. destruct o; now rewrite N.max_0_l. Qed.
Lemma max_cs (f : pmap -> option N) l : (forall i, constrains i = false -> f i = None) -> max_of (map f (filter constrains l)) = max_of (map f l).
Proof.
  intros H. induction l as [|x l IH]; [reflexivity|]. cbn [filter map]. destruct (constrains x) eqn:C; cbn [map]; rewrite !max_of_cons, ?IH; [reflexivity|].
  now rewrite (H x C).
Qed.

(* the class on which the current tree departs from BIP370 (F6): time arm first, and every constraining input allows both kinds *)
Definition both_possible (p : pset) : bool :=
  let cs := filter constrains (pinputs p) in
  negb (match cs with [] => true | _ => false end) && forallb has_time cs && forallb has_height cs.
Definition known_F6 (arms : list (lt_pat * lt_pat * lt_act)) (p : pset) : Prop := arms = arms_time_first /\ both_possible p = true.

Lemma bip370_closed p :
  let l := pinputs p in
  bip370 p = if negb (existsb has_time l || existsb has_height l) then Val (fallback_of (pglobal p))
             else if negb (existsb time_only l) then Val (max_of (map req_height l))
             else if negb (existsb height_only l) then Val (max_of (map req_time l))
             else Fail E_LocktimeConflict.
Proof.
  cbn zeta. unfold bip370.
  pose proof (filter_nil_existsb constrains (pinputs p)) as N. rewrite existsb_constrains in N.
  rewrite forallb_height_cs, forallb_time_cs, !max_cs.
  - destruct (filter constrains (pinputs p)); rewrite <- N; reflexivity.
  - intros i C. unfold constrains, req_time in *. destruct (opt_u32 (unk i F_req_time)); [destruct (req_height i); discriminate|reflexivity].
  - intros i C. unfold constrains in *. destruct (req_time i), (req_height i); try discriminate; reflexivity.
Qed.

(* with the two closed forms, both sides are tables over three facts about the inputs: some input allows only a time, some only a
   height, some both *)
Theorem locktime_is_bip370 arms p : arms_known arms -> ~ known_F6 arms p -> locktime_with arms p = bip370 p.
Proof.
  intros K NF. rewrite bip370_closed. unfold locktime_with. rewrite lt_fold_spec. unfold spec_state. cbn [fst snd].
  assert (arms = arms_time_first -> both_possible p = false) as NF' by (intros E; destruct (both_possible p) eqn:B; [exfalso; apply NF; split; auto|reflexivity]).
  unfold both_possible in NF'. rewrite filter_nil_existsb, existsb_constrains, forallb_height_cs, forallb_time_cs in NF'.
  rewrite existsb_has_time, existsb_has_height in *.
  destruct (existsb time_only (pinputs p)), (existsb height_only (pinputs p)), (existsb both_kinds (pinputs p));
    destruct K as [-> | ->]; cbn in *; try reflexivity; now specialize (NF' eq_refl).
Qed.

Theorem locktime_never_panics arms p : arms_known arms -> forall s, locktime_with arms p <> Panic s.
Proof.
  intros K s. unfold locktime_with. rewrite lt_fold_spec. unfold spec_state. cbn [fst snd]. rewrite existsb_has_time, existsb_has_height.
  destruct (existsb time_only (pinputs p)), (existsb height_only (pinputs p)), (existsb both_kinds (pinputs p));
    destruct K as [-> | ->]; cbn; discriminate.
Qed.

(* the fields unique_id() reads *)
Definition uid_global_fields : list field := [F_tx_version; F_fallback; F_input_count; F_output_count].
Definition uid_input_fields (cl : list field) : list field :=
  [F_prev_txid; F_prev_index; F_req_time; F_req_height; F_iss_nonce; F_iss_entropy; F_iss_amount; F_iss_comm; F_iss_keys; F_iss_keys_comm]
  ++ (if mem_field (fld "script_sig") cl then [] else [F_final_script_sig]) ++ (if mem_field (fld "sequence") cl then [] else [F_sequence]).
Definition uid_output_fields : list field := [F_asset_comm; F_asset; F_amount_comm; F_amount; F_ecdh_pubkey; F_script_pubkey].
Definition agree_on (fs : list field) (a b : pmap) : Prop := forall f, In f fs -> unk a f = unk b f.
Definition pset_agree (cl : list field) (p q : pset) : Prop :=
  agree_on uid_global_fields (pglobal p) (pglobal q) /\ Forall2 (agree_on (uid_input_fields cl)) (pinputs p) (pinputs q)
  /\ Forall2 (agree_on uid_output_fields) (poutputs p) (poutputs q).

Definition omap {A B} (f : A -> B) (o : outcome A) : outcome B := obind o (fun a => Val (f a)).

Lemma uid_preimage_unfold arms exempt cl p :
  uid_preimage_with arms exempt cl p =
  obind (sanity_check p) (fun _ => obind (locktime_with arms p) (fun lt =>
  obind (omap (map strip_out_witness) (outs_of (poutputs p))) (fun so =>
  Val (mk_tx (tx_version_of (pglobal p)) lt (map (fun i => strip_in_witness (uid_reset_in cl (txin_of_with exempt i))) (pinputs p)) so)))).
Proof.
  unfold uid_preimage_with, extract_tx_with, omap. destruct (sanity_check p); cbn [obind]; try reflexivity.
  destruct (locktime_with arms p); cbn [obind]; try reflexivity. destruct (outs_of (poutputs p)); cbn [obind]; try reflexivity.
  unfold uid_tx_with, txid_preimage. cbn [tx_version tx_lock_time tx_ins tx_outs]. now rewrite !map_map.
Qed.

(* agreement on a list of fields, as an equation between lists of values: on a concrete list `injection` gives one equation per field *)
Lemma agree_on_map fs a b : agree_on fs a b -> map (unk a) fs = map (unk b) fs.
Proof. apply map_ext_in_iff. Qed.

Lemma agree_on_app_l fs gs a b : agree_on (fs ++ gs) a b -> agree_on fs a b.
Proof. intros H f I. apply H, in_or_app. now left. Qed.

Lemma lt_step_agree cl a b st : agree_on (uid_input_fields cl) a b -> lt_step st a = lt_step st b.
Proof. intros H. apply agree_on_app_l, agree_on_map in H. injection H as _ _ ET EH _. unfold lt_step, req_time, req_height. now rewrite ET, EH. Qed.
Lemma lt_fold_agree cl l l' : Forall2 (agree_on (uid_input_fields cl)) l l' -> lt_fold l = lt_fold l'.
Proof.
  unfold lt_fold. generalize (LU, LU). intros st F. revert st. induction F as [|a b l l' H F IH]; intros st; cbn [fold_left]; [reflexivity|].
  rewrite (lt_step_agree cl a b st H). apply IH.
Qed.
Lemma txin_agree cl exempt a b : agree_on (uid_input_fields cl) a b ->
  strip_in_witness (uid_reset_in cl (txin_of_with exempt a)) = strip_in_witness (uid_reset_in cl (txin_of_with exempt b)).
Proof.
  intros H. unfold uid_input_fields in H.
  (* the ten fields that are always read, then the two that unique_id() may reset *)
  pose proof (agree_on_map _ a b (agree_on_app_l _ _ a b H)) as E.
  injection E as E1 E2 _ _ E5 E6 E7 E8 E9 E10.
  unfold txin_of_with, is_pegin_with, prev_index. rewrite E1, E2, E5, E6, E7, E8, E9, E10.
  (* one evaluation of both wrappers: unfolding them one after the other copies the record once per field each time *)
  lazy [strip_in_witness uid_reset_in ti_has_issuance ti_txid ti_vout ti_pegin ti_script_sig ti_sequence ti_iss_nonce ti_iss_entropy ti_iss_amount ti_iss_keys].
  destruct (mem_field (fld "script_sig") cl), (mem_field (fld "sequence") cl);
    rewrite ?(H F_final_script_sig), ?(H F_sequence) by (apply in_or_app; right; cbn; tauto); reflexivity.
Qed.
Lemma txout_agree a b : agree_on uid_output_fields a b -> omap strip_out_witness (txout_of a) = omap strip_out_witness (txout_of b).
Proof.
  intros H. apply agree_on_map in H. injection H as E1 E2 E3 E4 E5 E6. unfold txout_of. rewrite E1, E2, E3, E4, E5, E6.
  destruct (unk b F_asset_comm), (unk b F_asset), (unk b F_amount_comm), (unk b F_amount); reflexivity.
Qed.
Lemma outs_of_map_cons {B} (f : txout -> B) a l :
  omap (map f) (outs_of (a :: l)) = obind (omap f (txout_of a)) (fun x => obind (omap (map f) (outs_of l)) (fun xs => Val (x :: xs))).
Proof. cbn [outs_of]. unfold omap. destruct (txout_of a); cbn [obind]; try reflexivity. destruct (outs_of l); reflexivity. Qed.
Lemma outs_agree l l' : Forall2 (agree_on uid_output_fields) l l' -> omap (map strip_out_witness) (outs_of l) = omap (map strip_out_witness) (outs_of l').
Proof. intros F. induction F as [|a b l l' H F IH]; [reflexivity|]. now rewrite !outs_of_map_cons, (txout_agree a b H), IH. Qed.

Theorem uid_preimage_depends arms exempt cl p q : pset_agree cl p q -> uid_preimage_with arms exempt cl p = uid_preimage_with arms exempt cl q.
Proof.
  intros [G [I O]]. rewrite !uid_preimage_unfold. apply agree_on_map in G. injection G as GV GF GI GO.
  assert (sanity_check p = sanity_check q) as ->.
  { unfold sanity_check. now rewrite GI, GO, (Forall2_length _ _ _ I), (Forall2_length _ _ _ O). }
  assert (locktime_with arms p = locktime_with arms q) as ->.
  { unfold locktime_with, fallback_of. now rewrite (lt_fold_agree cl _ _ I), GF. }
  rewrite (outs_agree _ _ O). unfold tx_version_of. rewrite GV.
  now rewrite (F2_map _ _ (txin_agree cl exempt) _ _ I).
Qed.

Fixpoint upd_nth (l : list pmap) (i : nat) (g : pmap -> pmap) : list pmap :=
  match l, i with [], _ => [] | x :: r, O => g x :: r | x :: r, S i' => x :: upd_nth r i' g end.
Lemma agree_refl fs a : agree_on fs a a. Proof. intros f _. reflexivity. Qed.
Lemma Forall2_refl_agree fs l : Forall2 (agree_on fs) l l. Proof. exact (Forall2_diag _ (agree_refl fs) l). Qed.
Lemma Forall2_upd fs l i g : (forall x, agree_on fs x (g x)) -> Forall2 (agree_on fs) l (upd_nth l i g).
Proof. intros H. revert i. induction l as [|x l IH]; intros [|i]; cbn; constructor; auto using agree_refl, Forall2_refl_agree. Qed.
Lemma agree_set_unk fs m f v : ~ In f fs -> agree_on fs m (set_unk m f v).
Proof. intros N g I. cbn. destruct (bytes_eqb_spec g f) as [->|]; [contradiction|reflexivity]. Qed.
Lemma agree_set_kyd fs m f l : agree_on fs m (set_kyd m f l). Proof. intros g _. reflexivity. Qed.

Definition wf_txin (i : txin) : Prop :=
  ti_sequence i < 2 ^ 32 /\
  ((ti_vout i < 2 ^ 30 /\ ~ (ti_vout i = 2 ^ 30 - 1 /\ ti_pegin i = true /\ ti_has_issuance i = true)) \/ (ti_vout i = 0xffffffff /\ ti_pegin i = false)) /\
  (ti_pegin i = false -> ti_pegin_witness i = empty_witness) /\
  (ti_has_issuance i = false -> ti_iss_nonce i = zero32 /\ ti_iss_entropy i = zero32 /\       (* a null issuance is all-null (C01) *)
                                ti_amount_rangeproof i = None /\ ti_keys_rangeproof i = None).
(* F8a: a coinbase-style input comes back as a pegin unless is_pegin() exempts the index 0xffffffff *)
Definition known_F8a (exempt : bool) (i : txin) : Prop := exempt = false /\ ti_vout i = 0xffffffff /\ ti_pegin i = false.

Lemma u32_rt n : n < 2 ^ 32 -> u32_of (u32_enc n) = n.
Proof. intros H. unfold u32_of, u32_enc. apply le_val_enc. exact H. Qed.

(* the index from_txin writes is the outpoint index with the two flags folded in (Proofs/Flags.v), and txin_of reads all three back *)
Lemma txin_index_join i : txin_index i = join (ti_vout i) (ti_pegin i) (ti_has_issuance i).
Proof. unfold txin_index, join. destruct (ti_pegin i), (ti_has_issuance i); rewrite ?N.lor_0_r; reflexivity. Qed.
Lemma txin_index_decode exempt i :
  (ti_vout i < 2 ^ 30 /\ ~ (ti_vout i = 2 ^ 30 - 1 /\ ti_pegin i = true /\ ti_has_issuance i = true)) \/
  (ti_vout i = 0xffffffff /\ ti_pegin i = false /\ exempt = true) ->
  let w := txin_index i in
  w < 2 ^ 32 /\ (if w =? 0xffffffff then w else N.land w 0x3fffffff) = ti_vout i /\
  (if exempt && (w =? 0xffffffff) then false else N.testbit w 30) = ti_pegin i.
Proof.
  intros [[V NT]|(V & P & ->)]; cbn zeta.
  - rewrite txin_index_join. destruct (join_read _ _ _ V NT) as (NE & LT & _ & T30 & M). apply N.eqb_neq in NE. unfold ALL1, MASK in *.
    rewrite NE, andb_false_r. auto.
  - unfold txin_index. rewrite V, P. destruct (ti_has_issuance i); vm_compute; auto.
Qed.

(* from_txin followed by txin_of, with every lookup done (each is decided by computation) and no arithmetic yet *)
Lemma txin_of_from exempt i :
  txin_of_with exempt (from_txin i) =
  let idx := u32_of (u32_enc (txin_index i)) in
  let when (b : bool) (v : option bytes) := if b then v else None in
  let hi := ti_has_issuance i in
  {| ti_txid := ti_txid i;
     ti_vout := if idx =? 0xffffffff then idx else N.land idx 0x3fffffff;
     ti_pegin := if exempt && (idx =? 0xffffffff) then false else N.testbit idx 30;
     ti_script_sig := ti_script_sig i;
     ti_sequence := u32_of (u32_enc (ti_sequence i));
     ti_iss_nonce := or_default (when hi (Some (ti_iss_nonce i))) zero32;
     ti_iss_entropy := or_default (when hi (Some (ti_iss_entropy i))) zero32;
     ti_iss_amount := conf_pair (when hi (cv_explicit (ti_iss_amount i))) (when hi (cv_conf (ti_iss_amount i)));
     ti_iss_keys := conf_pair (when hi (cv_explicit (ti_iss_keys i))) (when hi (cv_conf (ti_iss_keys i)));
     ti_amount_rangeproof := when hi (ti_amount_rangeproof i);
     ti_keys_rangeproof := when hi (ti_keys_rangeproof i);
     ti_script_witness := ti_script_witness i;
     ti_pegin_witness := or_default (when (ti_pegin i) (Some (ti_pegin_witness i))) empty_witness |}.
Proof. reflexivity. Qed.

Lemma txin_roundtrip exempt i : wf_txin i -> ~ known_F8a exempt i -> txin_of_with exempt (from_txin i) = i.
Proof.
  intros [WS [WV [WP WI]]] NK.
  destruct (txin_index_decode exempt i) as (LT & DV & DP).
  { destruct WV as [V|[V P]]; [now left|right]. repeat split; auto. destruct exempt; [reflexivity|]. exfalso. apply NK. now repeat split. }
  rewrite txin_of_from. cbn zeta. rewrite (u32_rt _ LT), (u32_rt _ WS), DV, DP. clear - WP WI.
  (* an issuance comes back as written; a null issuance is all-null; the pegin witness is empty unless the input is a pegin *)
  destruct i as [txid vout pegin ssig sq nonce entropy [] [] arp krp sw pw], pegin; cbn -[zero32 empty_witness] in WP, WI |- *;
    try (destruct (WI eq_refl) as (-> & -> & -> & ->)); try rewrite (WP eq_refl); reflexivity.
Qed.

Definition wf_txout (o : txout) : Prop := to_asset o <> CNull /\ to_value o <> CNull.
(* F8b: the nonce of an output that is not partially blinded goes to `blinding_key` and does not come back; an explicit (32-byte) nonce is dropped *)
Definition known_F8b (o : txout) : Prop := (to_is_partially_blinded o = false /\ to_nonce o <> CNull) \/ (exists x, to_nonce o = CExplicit x).

(* what txout_of reads from the map from_txout writes, every lookup done *)
Lemma from_txout_unk o :
  let m := from_txout o in
  unk m F_asset_comm = cv_conf (to_asset o) /\ unk m F_asset = cv_explicit (to_asset o) /\
  unk m F_amount_comm = cv_conf (to_value o) /\ unk m F_amount = cv_explicit (to_value o) /\
  unk m F_ecdh_pubkey = (if to_is_partially_blinded o then nonce_key (to_nonce o) else None) /\
  unk m F_script_pubkey = Some (to_spk o) /\
  unk m F_asset_surjection_proof = to_surjection_proof o /\ unk m F_value_rangeproof = to_rangeproof o.
Proof. repeat split; reflexivity. Qed.

Lemma txout_roundtrip o : wf_txout o -> ~ known_F8b o -> txout_of (from_txout o) = Val o.
Proof.
  intros [WA WV] NK. unfold txout_of. destruct (from_txout_unk o) as (-> & -> & -> & -> & -> & -> & -> & ->).
  (* the nonce comes back: it is null, or it is a commitment on a partially blinded output *)
  assert (match (if to_is_partially_blinded o then nonce_key (to_nonce o) else None) with Some k => CConf k | None => CNull end = to_nonce o) as ->.
  { destruct (to_nonce o) as [|x|k] eqn:E; [now destruct (to_is_partially_blinded o)|exfalso; apply NK; right; eauto|].
    destruct (to_is_partially_blinded o) eqn:PB; [reflexivity|]. exfalso. apply NK. left. split; [assumption|congruence]. }
  destruct o as [[] [] nonce spk sp rp]; cbn in WA, WV; try contradiction; reflexivity.
Qed.

Definition wf_tx (t : tx) : Prop :=
  tx_version t < 2 ^ 32 /\ tx_lock_time t < 2 ^ 32 /\ N.of_nat (length (tx_ins t)) < 2 ^ 64 /\ N.of_nat (length (tx_outs t)) < 2 ^ 64 /\
  Forall wf_txin (tx_ins t) /\ Forall wf_txout (tx_outs t).

Lemma vi_rt n : n < 2 ^ 64 -> count_of (Some (vi_enc n)) = Some n.
Proof.
  intros H. unfold count_of. pose proof (l_complete c_varint_lawful n []) as C. cbn [wf enc dec c_varint] in C.
  rewrite app_nil_r in C. rewrite C; [reflexivity|]. now apply N.ltb_lt.
Qed.

Lemma lt_fold_from_tx l : lt_fold (map from_txin l) = (LU, LU).
Proof. unfold lt_fold. generalize (LU, LU). induction l as [|i l IH]; intros st; [reflexivity|exact (IH st)]. Qed.

Theorem extract_from_tx arms exempt t : arms_known arms -> wf_tx t ->
  Forall (fun i => ~ known_F8a exempt i) (tx_ins t) -> Forall (fun o => ~ known_F8b o) (tx_outs t) ->
  extract_tx_with arms exempt (from_tx t) = Val t.
Proof.
  intros K [WV [WL [WI [WO [FI FO]]]]] NA NB. destruct t as [v lt ins outs]. cbn [tx_version tx_lock_time tx_ins tx_outs] in *.
  set (t := mk_tx v lt ins outs).
  assert (sanity_check (from_tx t) = Val tt) as S.
  { unfold sanity_check.
    rewrite (vi_rt _ WI : count_of (unk (pglobal (from_tx t)) F_input_count) = _), (vi_rt _ WO : count_of (unk (pglobal (from_tx t)) F_output_count) = _).
    cbn [from_tx pinputs poutputs tx_ins tx_outs t]. now rewrite !map_length, !N.eqb_refl. }
  assert (locktime_with arms (from_tx t) = Val lt) as L.
  { unfold locktime_with. change (pinputs (from_tx t)) with (map from_txin ins). rewrite lt_fold_from_tx. cbn [fst snd].
    replace (select_arm arms LU LU) with (Some LA_Fallback) by (destruct K as [-> | ->]; reflexivity).
    f_equal. exact (u32_rt _ WL). }
  assert (outs_of (poutputs (from_tx t)) = Val outs) as O.
  { change (poutputs (from_tx t)) with (map from_txout outs). clear - FO NB.
    induction outs as [|o outs IH]; [reflexivity|]. inversion FO; inversion NB; subst. cbn [map outs_of]. now rewrite txout_roundtrip, IH. }
  assert (map (txin_of_with exempt) (pinputs (from_tx t)) = ins) as I.
  { change (pinputs (from_tx t)) with (map from_txin ins). clear - FI NA.
    induction ins as [|i ins IH]; [reflexivity|]. inversion FI; inversion NA; subst. cbn [map]. now rewrite txin_roundtrip, IH. }
  unfold extract_tx_with. rewrite S, L, O, I. cbn [obind]. now rewrite (u32_rt _ WV : tx_version_of (pglobal (from_tx t)) = v).
Qed.

(* the output commitments are part of the id pre-image (used by C14): the two commitment fields of an output map can be read off the
   extracted output, also after its witness is stripped *)
Definition comms_of (o : txout) : option bytes * option bytes := (cv_conf (to_value o), cv_conf (to_asset o)).
Lemma txout_of_comms x ox : txout_of x = Val ox -> (unk x F_amount_comm, unk x F_asset_comm) = comms_of ox.
Proof.
  unfold txout_of, comms_of. destruct (unk x F_asset_comm), (unk x F_asset), (unk x F_amount_comm), (unk x F_amount); intros [= <-]; reflexivity.
Qed.
Lemma outs_comms : forall l so, omap (map strip_out_witness) (outs_of l) = Val so ->
  map (fun x => (unk x F_amount_comm, unk x F_asset_comm)) l = map comms_of so.
Proof.
  induction l as [|a l IH]; intros so H; [now injection H as <-|]. rewrite outs_of_map_cons in H. unfold omap in *.
  destruct (txout_of a) as [oa| |] eqn:A; try discriminate. cbn [obind] in H.
  destruct (obind (outs_of l) _) as [sl| |] eqn:L; try discriminate. injection H as <-.
  cbn [map]. now rewrite (txout_of_comms _ _ A), (IH _ eq_refl).
Qed.
Lemma uid_preimage_outs arms exempt cl p t : uid_preimage_with arms exempt cl p = Val t ->
  omap (map strip_out_witness) (outs_of (poutputs p)) = Val (tx_outs t).
Proof.
  rewrite uid_preimage_unfold. destruct (sanity_check p); try discriminate. destruct (locktime_with arms p); try discriminate. cbn [obind].
  destruct (omap _ (outs_of (poutputs p))); try discriminate. now intros [= <-].
Qed.
Theorem commitments_fixed_by_uid arms exempt cl p q t :
  uid_preimage_with arms exempt cl p = Val t -> uid_preimage_with arms exempt cl q = Val t ->
  forall i x y, nth_error (poutputs p) i = Some x -> nth_error (poutputs q) i = Some y ->
    unk x F_amount_comm = unk y F_amount_comm /\ unk x F_asset_comm = unk y F_asset_comm.
Proof.
  intros HP HQ i x y X Y. apply uid_preimage_outs, outs_comms in HP, HQ.
  apply (map_nth_error (fun x => (unk x F_amount_comm, unk x F_asset_comm))) in X, Y. rewrite HP in X. rewrite HQ, X in Y.
  now injection Y as -> ->.
Qed.

(* the property's "explicit-value proof fields" clause: a later role adds the explicit amount / asset (and its blind proof, which no
   extraction reads) next to a commitment that is already there; what is extracted — and hence the unique id — stays the commitment *)
Definition reveal_pairs_in : list (field * field) := [(F_iss_amount, F_iss_comm); (F_iss_keys, F_iss_keys_comm)].
Definition reveal_pairs_out : list (field * field) := [(F_amount, F_amount_comm); (F_asset, F_asset_comm)].
Lemma conf_pair_comm e c : conf_pair e (Some c) = CConf c. Proof. now destruct e. Qed.
(* only the pair itself reads the revealed field; every other lookup in the updated map is, by computation, the lookup in m *)
Lemma txin_of_reveal exempt m f fc v c : In (f, fc) reveal_pairs_in -> unk m fc = Some c -> txin_of_with exempt (set_unk m f v) = txin_of_with exempt m.
Proof.
  intros I C. unfold txin_of_with. destruct I as [[= <- <-]|[[= <- <-]|[]]].
  - rewrite (unk_set_other _ _ _ F_iss_comm), C, !conf_pair_comm by (apply bytes_eqb_neq; reflexivity). reflexivity.
  - rewrite (unk_set_other _ _ _ F_iss_keys_comm), C, !conf_pair_comm by (apply bytes_eqb_neq; reflexivity). reflexivity.
Qed.
Lemma txout_of_reveal m f fc v c : In (f, fc) reveal_pairs_out -> unk m fc = Some c -> txout_of (set_unk m f v) = txout_of m.
Proof.
  intros I C. unfold txout_of. destruct I as [[= <- <-]|[[= <- <-]|[]]].
  - rewrite unk_set_same, (unk_set_other _ _ _ F_amount_comm), C by (apply bytes_eqb_neq; reflexivity). now destruct v, (unk m F_amount).
  - rewrite unk_set_same, (unk_set_other _ _ _ F_asset_comm), C by (apply bytes_eqb_neq; reflexivity). now destruct v, (unk m F_asset).
Qed.
Lemma lt_step_reveal st m f fc v : In (f, fc) reveal_pairs_in -> lt_step st (set_unk m f v) = lt_step st m.
Proof. intros [[= <- <-]|[[= <- <-]|[]]]; reflexivity. Qed.

Lemma pmaps_upd_nth_length l i g : length (upd_nth l i g) = length l.
Proof. revert i. induction l as [|x l IH]; intros [|i]; cbn; auto. Qed.
Lemma upd_nth_fold {S} (step : S -> pmap -> S) g : (forall st m, step st (g m) = step st m) ->
  forall l i st, fold_left step (upd_nth l i g) st = fold_left step l st.
Proof. intros H. induction l as [|x l IH]; intros [|i] st; cbn [upd_nth fold_left]; auto. now rewrite H. Qed.
Lemma upd_nth_map {B} (h : pmap -> B) g : forall l i, h (g (nth i l empty_map)) = h (nth i l empty_map) -> map h (upd_nth l i g) = map h l.
Proof. induction l as [|x l IH]; intros [|i] H; cbn [upd_nth map nth] in *; auto; [now rewrite H|now rewrite IH]. Qed.
Lemma upd_nth_outs g : forall l i, txout_of (g (nth i l empty_map)) = txout_of (nth i l empty_map) -> outs_of (upd_nth l i g) = outs_of l.
Proof. induction l as [|x l IH]; intros [|i] H; cbn [upd_nth outs_of nth] in *; auto; [now rewrite H|now rewrite IH]. Qed.

Theorem extract_reveal_input arms exempt p i f fc v c : In (f, fc) reveal_pairs_in -> unk (nth i (pinputs p) empty_map) fc = Some c ->
  extract_tx_with arms exempt (mkpset (pglobal p) (upd_nth (pinputs p) i (fun m => set_unk m f v)) (poutputs p)) = extract_tx_with arms exempt p.
Proof.
  intros I C. unfold extract_tx_with, sanity_check, locktime_with, lt_fold. cbn [pglobal pinputs poutputs].
  rewrite pmaps_upd_nth_length, (upd_nth_fold lt_step _ (fun st m => lt_step_reveal st m f fc v I)).
  now rewrite (upd_nth_map (txin_of_with exempt) _ _ _ (txin_of_reveal exempt _ f fc v c I C)).
Qed.
Theorem extract_reveal_output arms exempt p i f fc v c : In (f, fc) reveal_pairs_out -> unk (nth i (poutputs p) empty_map) fc = Some c ->
  extract_tx_with arms exempt (mkpset (pglobal p) (pinputs p) (upd_nth (poutputs p) i (fun m => set_unk m f v))) = extract_tx_with arms exempt p.
Proof.
  intros I C. unfold extract_tx_with, sanity_check, locktime_with. cbn [pglobal pinputs poutputs].
  now rewrite pmaps_upd_nth_length, (upd_nth_outs _ _ _ (txout_of_reveal _ f fc v c I C)).
Qed.

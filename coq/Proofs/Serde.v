(* Proofs for Model/Serde.v: de_T hr (view hr (ser_T hr x)) = Ok x for both views. *)
From Coq Require Import List NArith ZArith Bool Lia ZifyN ZifyBool ZifyNat.
From Coq.Strings Require Import Byte.
From EV Require Import Base.Bytes Base.Codec Gen.Tables Model.Tx Model.Block Model.Text Model.Serde Proofs.Text.
Import ListNotations.
Ltac Zify.zify_post_hook ::= Z.div_mod_to_equations.
Open Scope N_scope.

(* the two views agree on everything but byte strings and enum variants *)
Lemma view_unit hr : view hr VUnit = VUnit. Proof. now destruct hr. Qed.
Lemma view_none hr : view hr VNone = VUnit. Proof. now destruct hr. Qed.
Lemma view_some hr v : view hr (VSome v) = view hr v. Proof. now destruct hr. Qed.
Lemma view_bool hr b : view hr (VBool b) = VBool b. Proof. now destruct hr. Qed.
Lemma view_u64 hr n : view hr (VU64 n) = VU64 n. Proof. now destruct hr. Qed.
Lemma view_str hr s : view hr (VStr s) = VStr s. Proof. now destruct hr. Qed.
Lemma view_seq hr l : view hr (VSeq l) = VSeq (map (view hr) l). Proof. now destruct hr. Qed.
Lemma view_tuple hr l : view hr (VTuple l) = VSeq (map (view hr) l). Proof. now destruct hr. Qed.
Lemma view_struct hr n fs : view hr (VStruct n fs) = VMap (map (fun kv => (VStr (fst kv), view hr (snd kv))) fs). Proof. now destruct hr. Qed.
Lemma view_map hr l : view hr (VMap l) = VMap (map (fun kv => (view hr (fst kv), view hr (snd kv))) l). Proof. now destruct hr. Qed.
Lemma view_newtype hr n v : view hr (VNewtype n v) = view hr v. Proof. now destruct hr. Qed.
Lemma view_byte_nums hr b : map (view hr) (byte_nums b) = byte_nums b.
Proof. unfold byte_nums. rewrite map_map. apply map_ext. intros x. apply view_u64. Qed.
Ltac views := rewrite ?view_struct, ?view_seq, ?view_tuple, ?view_newtype, ?view_some, ?view_none, ?view_unit, ?view_bool, ?view_u64, ?view_str, ?view_byte_nums.
(* the statements of Props/C20.v spell the two views out *)
Lemma both_views {A} (ser : bool -> A -> sval) (de : bool -> sval -> res A) x : (forall hr, de hr (view hr (ser hr x)) = Ok x) ->
  de true (json_view (ser true x)) = Ok x /\ de false (cbor_view (ser false x)) = Ok x.
Proof. intros H. split; [exact (H true)|exact (H false)]. Qed.

Lemma de_u_ok bound n : n < bound -> de_u bound (VU64 n) = Ok n.
Proof. intros H. cbn. destruct (N.ltb_spec n bound); [reflexivity|lia]. Qed.
Lemma de_u_check bound (ok : N -> bool) e n : n < bound -> ok n = true -> rbind (de_u bound (VU64 n)) (fun m => if ok m then Ok m else Err e) = Ok n.
Proof. intros H W. rewrite de_u_ok by exact H. cbn [rbind]. now rewrite W. Qed.
Lemma de_u_check_inv bound (ok : N -> bool) e v n : rbind (de_u bound v) (fun m => if ok m then Ok m else Err e) = Ok n -> n < bound /\ ok n = true.
Proof. destruct v; try discriminate. cbn. destruct (N.ltb_spec n0 bound); [|discriminate]. cbn [rbind]. destruct (ok n0) eqn:E; [|discriminate].
  intros [= <-]. now split. Qed.
Lemma rt_u hr bound n : n < bound -> de_u bound (view hr (VU64 n)) = Ok n.
Proof. rewrite view_u64. apply de_u_ok. Qed.
Lemma rt_bool hr b : de_bool (view hr (VBool b)) = Ok b.
Proof. now rewrite view_bool. Qed.
Lemma rt_sequence hr n : n < u32_bound -> de_sequence (view hr (ser_sequence n)) = Ok n.
Proof. unfold ser_sequence. rewrite view_newtype. apply rt_u. Qed.
Lemma rt_string {A} hr (print : A -> bytes) (parse : bytes -> res A) a : parse (print a) = Ok a -> de_string parse (view hr (ser_string print a)) = Ok a.
Proof. intros H. unfold ser_string, de_string. now rewrite view_str. Qed.
Lemma de_u8s_ok b : de_list de_u8 (byte_nums b) = Ok b.
Proof. induction b as [|x b IH]; [reflexivity|]. cbn [byte_nums map de_list]. unfold de_u8 at 1. rewrite de_u_ok by apply b2n_lt.
  cbn [rbind]. fold (byte_nums b). rewrite IH. cbn [rbind]. now rewrite n2b_b2n. Qed.
Lemma rt_vecu8 hr b : de_vecu8 (view hr (ser_vecu8 b)) = Ok b.
Proof. unfold ser_vecu8, de_vecu8, de_vec. views. apply de_u8s_ok. Qed.
Lemma de_list_ok {A} (de : sval -> res A) (ser : A -> sval) (f : sval -> sval) (P : A -> bool) :
  (forall x, P x = true -> de (f (ser x)) = Ok x) -> forall l, forallb P l = true -> de_list de (map f (map ser l)) = Ok l.
Proof. intros H. induction l as [|x l IH]; [reflexivity|]. cbn [forallb map de_list]. intros HP. apply andb_prop in HP as [Hx Hl].
  rewrite (H x Hx). cbn [rbind]. rewrite (IH Hl). reflexivity. Qed.
Lemma forallb_true {A} (l : list A) : forallb (fun _ => true) l = true. Proof. induction l; cbn; auto. Qed.
Lemma rt_vec {A} hr (de : sval -> res A) ser (P : A -> bool) :
  (forall x, P x = true -> de (view hr (ser x)) = Ok x) -> forall l, forallb P l = true -> de_vec de (view hr (VSeq (map ser l))) = Ok l.
Proof. intros H l W. rewrite view_seq. now apply (de_list_ok _ _ _ P). Qed.
Lemma rt_stack hr l : de_stack (view hr (ser_stack l)) = Ok l.
Proof. apply (rt_vec hr _ _ (fun _ => true)); [intros; apply rt_vecu8|apply forallb_true]. Qed.
Lemma rt_array hr n b : length b = n -> de_array n (view hr (ser_array b)) = Ok b.
Proof. intros L. unfold ser_array, de_array. views. unfold byte_nums at 1. rewrite map_length, L, Nat.eqb_refl. apply de_u8s_ok. Qed.
Lemma len_is_eq n b : len_is n b = true -> length b = n. Proof. apply Nat.eqb_eq. Qed.
Ltac split_all := repeat match goal with H : (_ && _ = true) |- _ => let H2 := fresh "W" in apply andb_prop in H as [H H2] end;
  repeat match goal with H : len_is _ _ = true |- _ => apply len_is_eq in H end;
  repeat match goal with H : (_ <? _) = true |- _ => apply N.ltb_lt in H end.

Lemma hex_decode_var_ok b : hex_decode_var (hex_of_bytes b) = Ok b. Proof. apply hex_pairs_of_bytes. Qed.
Lemma rt_hash hr len r b : N.of_nat (length b) = len -> de_hash hr len r (view hr (ser_hash hr r b)) = Ok b.
Proof. intros L. destruct hr; cbn.
  - now apply parse_print_hash.
  - destruct (N.eqb_spec (N.of_nat (length b)) len); [reflexivity|contradiction]. Qed.
Lemma rt_hash32 hr r b : length b = 32%nat -> de_hash hr 32 r (view hr (ser_hash hr r b)) = Ok b.
Proof. intros L. apply rt_hash. now rewrite L. Qed.
Lemma rt_midstate hr b : length b = 32%nat -> de_midstate hr (view hr (ser_midstate hr b)) = Ok b.
Proof. apply rt_hash32. Qed.
Lemma rt_script hr b : de_script (view hr (ser_script b)) = Ok b.
Proof. unfold ser_script. views. apply hex_decode_var_ok. Qed.
Lemma rt_btc_script hr b : de_btc_script hr (view hr (ser_btc_script hr b)) = Ok b.
Proof. destruct hr; cbn; [apply hex_decode_var_ok|reflexivity]. Qed.
Lemma rt_hexbytes hr b : de_hexbytes (view hr (ser_hexbytes hr b)) = Ok b.
Proof. destruct hr; cbn; [apply hex_decode_var_ok|reflexivity]. Qed.
Lemma rt_bf hr r b : swf_bf b = true -> de_bf hr r (view hr (ser_bf hr r b)) = Ok b.
Proof. intros W. apply andb_prop in W as [L T]. apply len_is_eq in L. destruct hr; cbn -[tweak_ok].
  - apply parse_print_bf; [now rewrite L|exact T].
  - now rewrite L, T. Qed.
Lemma rt_tweak hr b : length b = 32%nat -> tweak_ok b = true -> de_tweak hr (view hr (ser_tweak hr b)) = Ok b.
Proof. intros L T. destruct hr; cbn -[tweak_ok hex_decode_fixed].
  - rewrite hex_decode_fixed_ok by (now rewrite L). cbn [rbind]. now rewrite T.
  - now rewrite L, T. Qed.

Lemma de_height_ok n : n < C20_LOCK_TIME_THRESHOLD -> de_height (VU64 n) = Ok n.
Proof. intros H. pose proof threshold_le_u32. apply de_u_check; [lia|now apply N.ltb_lt]. Qed.
Lemma de_time_ok n : C20_LOCK_TIME_THRESHOLD <= n -> n < u32_bound -> de_time (VU64 n) = Ok n.
Proof. intros H1 H2. apply de_u_check; [exact H2|now apply N.leb_le]. Qed.
Lemma rt_locktime hr l : locktime_wf l = true -> de_locktime (view hr (ser_locktime l)) = Ok l.
Proof. destruct l as [h|t]; cbn [locktime_wf]; intros W.
  - apply N.ltb_lt in W. destruct hr; cbn -[de_height]; now rewrite de_height_ok.
  - apply andb_prop in W as [W1 W2]. apply N.leb_le in W1. apply N.ltb_lt in W2. destruct hr; cbn -[de_time]; now rewrite de_time_ok. Qed.
Lemma de_locktime_pick_wf k x l :
  (if bytes_eqb k "Blocks"%lb then rbind (de_height x) (fun n => Ok (Blocks n))
   else if bytes_eqb k "Seconds"%lb then rbind (de_time x) (fun n => Ok (Seconds n)) else Err "variant"%lb) = Ok l -> locktime_wf l = true.
Proof. destruct (bytes_eqb k "Blocks"%lb).
  - destruct (de_height x) as [n|] eqn:E; cbn [rbind]; [|discriminate]. intros [= <-]. now apply de_u_check_inv in E.
  - destruct (bytes_eqb k "Seconds"%lb); [|discriminate]. destruct (de_time x) as [n|] eqn:E; cbn [rbind]; [|discriminate]. intros [= <-].
    apply de_u_check_inv in E as [E1 E2]. cbn [locktime_wf]. rewrite E2. now apply N.ltb_lt. Qed.
(* what Deserialize hands out satisfies the type's invariant (F17 repaired) *)
Lemma de_locktime_wf v l : de_locktime v = Ok l -> locktime_wf l = true.
Proof. unfold de_locktime. intros H. destruct v as [| | | | | | |s|s|m| | |]; try discriminate H.
  - destruct s as [|a [|b [|c r]]]; try discriminate H; destruct a; try discriminate H. revert H. apply de_locktime_pick_wf.
  - destruct m as [|[a b] [|c r]]; try discriminate H; destruct a; try discriminate H. revert H. apply de_locktime_pick_wf. Qed.
Lemma locktime_consensus_rt n : locktime_to_consensus (locktime_from_consensus n) = n.
Proof. unfold locktime_from_consensus. now destruct (n <? C20_LOCK_TIME_THRESHOLD). Qed.

(* The visitor of a struct takes the entries one at a time: once its step on the first entry is known, the others are decoded from
   the new state.  So each field is settled in a goal of its own, which holds nothing of the other fields. *)
Lemma de_map_field {S T} hr (step : bytes -> sval -> S -> res S) (finish : S -> res T) k v fs st st' r :
  step k (view hr v) st = Ok st' ->
  de_map st' step finish (VMap (map (fun kv => (VStr (fst kv), view hr (snd kv))) fs)) = r ->
  de_map st step finish (VMap (map (fun kv => (VStr (fst kv), view hr (snd kv))) ((k, v) :: fs))) = r.
Proof. intros H <-. cbn. now rewrite H. Qed.
(* the keys of a struct are regenerated names: struct_go evaluates the comparisons of an entry's key with them, which leaves the
   visitor's branch for that entry *)
Ltac struct_go := lazy beta iota delta [fst snd dup is_fld fld nth assoc bytes_eqb byte_eqb Byte.eqb Byte.to_bits Bool.eqb andb unlit
  serde_fields_OutPoint serde_fields_AssetIssuance serde_fields_TxInWitness serde_fields_TxOutWitness serde_fields_TxIn serde_fields_TxOut
  serde_fields_Transaction serde_fields_BlockHeader serde_fields_Block secrets_fields
  params_ser_compact params_ser_full params_de_keys extdata_ser_proof extdata_ser_dynafed extdata_de_keys].

Section PT.
Variable pt_ok : bytes -> bool.
Lemma conf_wf_len lo hi c : conf_wf pt_ok lo hi c = true -> length c = 33%nat.
Proof. unfold conf_wf. destruct c as [|b x]; [discriminate|]. intros H. apply andb_prop in H as [H _]. apply andb_prop in H as [_ H].
  apply Nat.eqb_eq in H. cbn [length]. now rewrite H. Qed.
Lemma rt_point hr lo hi c : conf_wf pt_ok lo hi c = true -> de_point pt_ok hr lo hi (view hr (ser_point hr c)) = Ok c.
Proof. intros W. pose proof (conf_wf_len _ _ _ W) as L. destruct hr; cbn -[conf_wf hex_decode_fixed].
  - rewrite hex_decode_fixed_ok by (now rewrite L). cbn [rbind]. now rewrite W.
  - now rewrite W. Qed.
Lemma rt_pubkey hr c : conf_wf pt_ok 2 3 c = true -> de_pubkey pt_ok hr (view hr (ser_pubkey hr c)) = Ok c.
Proof. intros W. pose proof (conf_wf_len _ _ _ W) as L. destruct hr; cbn -[conf_wf hex_decode_fixed de_array].
  - rewrite hex_decode_fixed_ok by (now rewrite L). cbn [rbind]. now rewrite W.
  - change (VSeq (map cbor_view (byte_nums c))) with (view false (ser_array c)). rewrite rt_array by exact L. cbn [rbind]. now rewrite W. Qed.
Lemma rt_proof ok hr p : ok p = true -> de_proof ok hr (view hr (ser_proof hr p)) = Ok p.
Proof. intros W. destruct hr; cbn -[hex_decode_var]; [rewrite hex_decode_var_ok; cbn [rbind]|]; now rewrite W. Qed.
Lemma rt_optproof ok hr o : swf_optproof ok o = true -> de_optproof ok hr (view hr (ser_optproof hr o)) = Ok o.
Proof. destruct o as [p|]; cbn [swf_optproof ser_optproof]; intros W; views; [|reflexivity].
  unfold de_optproof, de_option. pose proof (rt_proof ok hr p W) as R. destruct hr; cbn [view ser_proof json_view cbor_view] in *; now rewrite R. Qed.

Lemma bswap64_lt n : bswap64 n < u64_bound.
Proof. unfold bswap64. pose proof (be_val_lt (le_enc 8 n)) as H. rewrite le_enc_length in H. exact H. Qed.
Lemma bswap64_invol n : n < u64_bound -> bswap64 (bswap64 n) = n.
Proof. intros H. unfold bswap64, be_val.
  pose proof (le_enc_val (rev (le_enc 8 n))) as E. rewrite rev_length, le_enc_length in E. rewrite E, rev_involutive.
  apply le_val_enc. exact H. Qed.

Lemma de_tagged_null {A} tbl (null : A) e c t : t < 256 -> variant_of t tbl = "Null"%lb -> de_tagged tbl null e c (VSeq [VU64 t]) = Ok null.
Proof. intros H E. unfold de_tagged. rewrite de_u_ok by exact H. cbn [rbind]. now rewrite E. Qed.
Lemma de_tagged_explicit {A} tbl (null : A) e c t x : t < 256 -> variant_of t tbl = "Explicit"%lb -> de_tagged tbl null e c (VSeq [VU64 t; x]) = e x.
Proof. intros H E. unfold de_tagged. rewrite de_u_ok by exact H. cbn [rbind]. now rewrite E. Qed.
Lemma de_tagged_conf {A} tbl (null : A) e c t x : t < 256 -> variant_of t tbl = "Confidential"%lb -> de_tagged tbl null e c (VSeq [VU64 t; x]) = c x.
Proof. intros H E. unfold de_tagged. rewrite de_u_ok by exact H. cbn [rbind]. now rewrite E. Qed.

Lemma rt_value hr v : swf_value pt_ok v = true -> de_value pt_ok hr (view hr (ser_value hr v)) = Ok v.
Proof. destruct v as [|n|c]; cbn [swf_value ser_value]; intros W; views; cbn [map]; views; unfold de_value.
  - now apply de_tagged_null.
  - rewrite de_tagged_explicit by reflexivity. change value_ser_swaps with true. change value_de_swaps with true. cbn iota.
    rewrite de_u_ok by apply bswap64_lt. cbn [rbind]. now rewrite bswap64_invol by lia.
  - rewrite de_tagged_conf by reflexivity. now rewrite rt_point by exact W. Qed.
Lemma rt_asset hr v : swf_asset pt_ok v = true -> de_asset pt_ok hr (view hr (ser_asset hr v)) = Ok v.
Proof. destruct v as [|id|c]; cbn [swf_asset ser_asset]; intros W; views; cbn [map]; views; unfold de_asset.
  - now apply de_tagged_null.
  - rewrite de_tagged_explicit by reflexivity. now rewrite rt_midstate by (now apply len_is_eq).
  - rewrite de_tagged_conf by reflexivity. now rewrite rt_point by exact W. Qed.
Lemma rt_nonce hr v : swf_nonce pt_ok v = true -> de_nonce pt_ok hr (view hr (ser_nonce hr v)) = Ok v.
Proof. destruct v as [|b|c]; cbn [swf_nonce ser_nonce]; intros W; views; cbn [map]; views; unfold de_nonce.
  - now apply de_tagged_null.
  - rewrite de_tagged_explicit by reflexivity. now rewrite rt_array by (now apply len_is_eq).
  - rewrite de_tagged_conf by reflexivity. now rewrite rt_pubkey by exact W. Qed.

Lemma rt_outpoint hr o : swf_outpoint o = true -> de_outpoint hr (view hr (ser_outpoint hr o)) = Ok o.
Proof. unfold swf_outpoint, u32_ok. intros W. split_all. unfold ser_outpoint, de_outpoint. destruct hr.
  - views. now apply parse_print_outpoint.
  - unfold de_txid, ser_txid. rewrite view_struct.
    repeat (eapply de_map_field; [struct_go; rewrite ?rt_hash32, ?rt_u by assumption; reflexivity|]). now destruct o. Qed.
Lemma rt_issuance hr i : swf_issuance pt_ok i = true -> de_issuance pt_ok hr (view hr (ser_issuance hr i)) = Ok i.
Proof. unfold swf_issuance. intros W. split_all. unfold ser_issuance, de_issuance. rewrite view_struct.
  repeat (eapply de_map_field; [struct_go; rewrite ?rt_tweak, ?rt_array, ?rt_value by assumption; reflexivity|]). now destruct i. Qed.
Lemma rt_inwit hr w : swf_inwit w = true -> de_inwit hr (view hr (ser_inwit hr w)) = Ok w.
Proof. unfold swf_inwit. intros W. split_all. unfold ser_inwit, de_inwit. rewrite view_struct.
  repeat (eapply de_map_field; [struct_go; rewrite ?rt_optproof, ?rt_stack by assumption; reflexivity|]). now destruct w. Qed.
Lemma rt_outwit hr w : swf_outwit w = true -> de_outwit hr (view hr (ser_outwit hr w)) = Ok w.
Proof. unfold swf_outwit. intros W. split_all. unfold ser_outwit, de_outwit. rewrite view_struct.
  repeat (eapply de_map_field; [struct_go; rewrite ?rt_optproof by assumption; reflexivity|]). now destruct w. Qed.
Lemma rt_txin hr i : swf_txin pt_ok i = true -> de_txin pt_ok hr (view hr (ser_txin hr i)) = Ok i.
Proof. unfold swf_txin, u32_ok. intros W. split_all. unfold ser_txin, de_txin. rewrite view_struct.
  repeat (eapply de_map_field; [struct_go; rewrite ?rt_outpoint, ?rt_bool, ?rt_script, ?rt_sequence, ?rt_issuance, ?rt_inwit by assumption; reflexivity|]).
  now destruct i. Qed.
Lemma rt_txout hr o : swf_txout pt_ok o = true -> de_txout pt_ok hr (view hr (ser_txout hr o)) = Ok o.
Proof. unfold swf_txout. intros W. split_all. unfold ser_txout, de_txout. rewrite view_struct.
  repeat (eapply de_map_field; [struct_go; rewrite ?rt_asset, ?rt_value, ?rt_nonce, ?rt_script, ?rt_outwit by assumption; reflexivity|]).
  now destruct o. Qed.

Lemma rt_tx hr t : swf_tx pt_ok t = true -> de_tx pt_ok hr (view hr (ser_tx hr t)) = Ok t.
Proof. unfold swf_tx, u32_ok. intros W. split_all. unfold ser_tx, de_tx. rewrite view_struct.
  repeat (eapply de_map_field; [struct_go;
    rewrite ?rt_u, ?rt_locktime, ?(rt_vec hr _ _ _ (rt_txin hr)), ?(rt_vec hr _ _ _ (rt_txout hr))
      by (assumption || now apply locktime_from_consensus_wf); reflexivity|]).
  rewrite locktime_consensus_rt. now destruct t. Qed.

Lemma rt_params hr p : swf_params p = true -> de_params hr (view hr (ser_params hr p)) = Ok p.
Proof. destruct p as [|sbs l e|f]; cbn [swf_params ser_params]; unfold u32_ok; intros W; unfold de_params; rewrite view_struct.
  - reflexivity.
  - split_all. repeat (eapply de_map_field; [struct_go; rewrite ?rt_script, ?rt_u, ?rt_midstate by assumption; reflexivity|]). reflexivity.
  - split_all. repeat (eapply de_map_field; [struct_go;
      rewrite ?rt_script, ?rt_u, ?rt_btc_script, ?rt_hexbytes, ?(rt_vec hr _ _ (fun _ => true) (fun x _ => rt_hexbytes hr x))
        by (assumption || apply forallb_true); reflexivity|]).
    now destruct f. Qed.
Lemma rt_extdata hr e : swf_extdata e = true -> de_extdata hr (view hr (ser_extdata hr e)) = Ok e.
Proof. destruct e as [c s|c p w]; cbn [swf_extdata ser_extdata]; intros W; unfold de_extdata; rewrite view_struct.
  - repeat (eapply de_map_field; [struct_go; rewrite ?rt_script; reflexivity|]). reflexivity.
  - split_all. repeat (eapply de_map_field; [struct_go; rewrite ?rt_params, ?rt_stack by assumption; reflexivity|]). reflexivity. Qed.
Lemma rt_header hr h : swf_header h = true -> de_header hr (view hr (ser_header hr h)) = Ok h.
Proof. unfold swf_header, u32_ok. intros W. split_all. unfold ser_header, de_header. rewrite view_struct.
  repeat (eapply de_map_field; [struct_go; rewrite ?rt_u, ?rt_hash32, ?rt_extdata by assumption; reflexivity|]). now destruct h. Qed.
Lemma rt_block hr b : swf_block pt_ok b = true -> de_block pt_ok hr (view hr (ser_block hr b)) = Ok b.
Proof. unfold swf_block. intros W. split_all. unfold ser_block, de_block. rewrite view_struct.
  repeat (eapply de_map_field; [struct_go; rewrite ?rt_header, ?(rt_vec hr _ _ _ (rt_tx hr)) by assumption; reflexivity|]).
  now destruct b. Qed.

Lemma rt_secrets hr s : swf_secrets s = true -> de_secrets hr (view hr (ser_secrets hr s)) = Ok s.
Proof. unfold swf_secrets. intros W. split_all. unfold ser_secrets, de_secrets. rewrite view_struct.
  repeat (eapply de_map_field; [struct_go; rewrite ?rt_midstate, ?rt_bf, ?rt_u by assumption; reflexivity|]). now destruct s. Qed.
End PT.

(* Letter case.  The mixed-case rule (C17 HRP clause, C06 case clause): a string with an upper-case and a lower-case letter anywhere — human-readable
   part included — is rejected by check_characters, hence by both segwit decoders, hence never parses as a segwit address.  A string in a
   single case is read as its lower-case form. *)
From Coq Require Import List NArith Bool Lia.
From Coq.Strings Require Import Byte.
From EV Require Import Base.Bytes Model.Bech32 Model.Address Proofs.Address Proofs.AddressRT.
Import ListNotations.
Open Scope N_scope.
Set Default Timeout 30.

Definition mixed_case (s : bytes) : bool := existsb is_upper s && existsb is_lower s.

Lemma check_characters_mixed s : mixed_case s = true -> check_characters s = Err EInvalidChar \/ check_characters s = Err EMixedCase.
Proof. unfold mixed_case, check_characters. intros M. destruct (rsplit x31 s) as [[h d]|].
  - destruct (negb _); [now left|]. rewrite M. now right.
  - destruct (negb _); [now left|]. rewrite M. now right. Qed.

(* every configuration of the segwit decoder (upstream bech32 crate, src/blech32/decode.rs), every string, unbounded *)
Theorem segwit_decode_mixed cfg s : mixed_case s = true ->
  segwit_decode cfg s = Err ETooLong \/ segwit_decode cfg s = Err EInvalidChar \/ segwit_decode cfg s = Err EMixedCase.
Proof. intros M. unfold segwit_decode. destruct (match sw_max_string cfg with Some m => Nat.ltb m (length s) | None => false end); [now left|].
  right. unfold unchecked_new. destruct (check_characters_mixed s M) as [-> | ->]; [now left|now right]. Qed.

Lemma to_lower_idem b : to_lower (to_lower b) = to_lower b.
Proof. unfold to_lower at 1. now rewrite to_lower_not_upper. Qed.
Lemma lower_idem s : lower (lower s) = lower s.
Proof. unfold lower. rewrite map_map. apply map_ext, to_lower_idem. Qed.
Lemma lower_length s : length (lower s) = length s.
Proof. apply map_length. Qed.
Lemma lower_id s : existsb is_upper s = false -> lower s = s.
Proof. induction s as [|b r IH]; [reflexivity|]. cbn [existsb lower map]. intros E. apply orb_false_iff in E as [U E]. unfold to_lower. rewrite U. f_equal. now apply IH. Qed.
Lemma match_prefix_lower x h : match_prefix (lower x) h = match_prefix x h.
Proof. unfold match_prefix. apply eq_true_iff_eq. rewrite !eq_lower_iff, lower_idem. tauto. Qed.
Lemma hrp_expand_lower h : hrp_expand (lower h) = hrp_expand h.
Proof. unfold hrp_expand, lower. rewrite !map_map. f_equal; [|f_equal]; apply map_ext; intros b; now rewrite to_lower_idem. Qed.

Lemma to_lower_sep c : byte_eqb (to_lower c) x31 = byte_eqb c x31.
Proof. destruct c; reflexivity. Qed.
Lemma from_char_lower c : from_char (to_lower c) = from_char c.
Proof. destruct c; reflexivity. Qed.

Lemma rsplit_lower s : rsplit x31 (lower s) = option_map (fun hd => (lower (fst hd), lower (snd hd))) (rsplit x31 s).
Proof. induction s as [|c s IH]; [reflexivity|]. cbn [lower map rsplit]. fold (lower s). rewrite IH, to_lower_sep.
  destruct (rsplit x31 s) as [[p q]|]; [reflexivity|]. now destruct (byte_eqb c x31). Qed.
Lemma find_prefix_lower s : find_prefix (lower s) = lower (find_prefix s).
Proof. unfold find_prefix. rewrite rsplit_lower. now destruct (rsplit x31 s) as [[h d]|]. Qed.

(* Hrp::parse on a string without lower-case letters runs like on its lower-case form with the roles of the two flags exchanged *)
Lemma hrp_chars_lower h : existsb is_lower h = false -> forall hu, hrp_chars (lower h) hu false = hrp_chars h false hu.
Proof. induction h as [|b r IH]; intros NL hu; [reflexivity|]. cbn [existsb] in NL. apply orb_false_iff in NL as [Lb NL].
  cbn [lower map hrp_chars]. fold (lower r). rewrite Lb, to_lower_not_upper. unfold to_lower. destruct (is_upper b) eqn:U; [|now rewrite Lb, IH].
  assert (B : 65 <= b2n b <= 90) by (unfold is_upper in U; lia). rewrite (IH NL true).
  unfold is_lower. rewrite b2n_n2b_small by lia.
  replace (128 <=? b2n b + 32) with false by lia. replace (128 <=? b2n b) with false by lia.
  replace ((33 <=? b2n b + 32) && (b2n b + 32 <=? 126)) with true by lia. replace ((33 <=? b2n b) && (b2n b <=? 126)) with true by lia.
  replace ((97 <=? b2n b + 32) && (b2n b + 32 <=? 122)) with true by lia. reflexivity. Qed.

Lemma segwit_decode_caps cfg s : existsb is_lower s = false -> segwit_decode cfg (lower s) = segwit_decode cfg s.
Proof. intros NL. unfold segwit_decode, unchecked_new, check_characters. rewrite rsplit_lower, lower_no_upper, NL, andb_false_r, !lower_length.
  assert (FA : forall d, forallb (fun c => match from_char c with Some _ => true | None => false end) (lower d) = forallb (fun c => match from_char c with Some _ => true | None => false end) d)
    by (induction d as [|c d IH]; [reflexivity|]; cbn [lower map forallb]; fold (lower d); now rewrite from_char_lower, IH).
  destruct (rsplit x31 s) as [[h d]|] eqn:R; cbn [option_map fst snd]; rewrite FA; [|reflexivity]. destruct (forallb _ d); cbn [negb andb]; [|reflexivity].
  assert (Sd : syms_of (lower d) = syms_of d) by (unfold syms_of, lower; rewrite map_map; f_equal; apply map_ext, from_char_lower).
  assert (Ph : hrp_parse (lower h) = hrp_parse h).
  { apply rsplit_spec in R as [-> _]. rewrite existsb_app in NL. apply orb_false_iff in NL as [NL _].
    unfold hrp_parse. rewrite lower_length. destruct h; [reflexivity|]. now rewrite (hrp_chars_lower _ NL). }
  rewrite Ph. destruct (hrp_parse h); [|reflexivity]. rewrite Sd. destruct (syms_of d) as [[|ver rest]|]; try reflexivity.
  unfold validate_checksum. now rewrite hrp_expand_lower. Qed.

Theorem segwit_decode_lower cfg s : mixed_case s = false -> segwit_decode cfg (lower s) = segwit_decode cfg s.
Proof. unfold mixed_case. intros M. apply andb_false_iff in M as [U|L]; [now rewrite (lower_id s U)|now apply segwit_decode_caps]. Qed.

Section Case.
Variable H : bytes -> bytes. Variable pkv : bytes -> bool.

Lemma from_bech32_lower s bl p : mixed_case s = false -> from_bech32 pkv (lower s) bl p = from_bech32 pkv s bl p.
Proof. intros M. unfold from_bech32. now rewrite !segwit_decode_lower. Qed.

Lemma from_bech32_mixed s bl p : mixed_case s = true -> exists e, from_bech32 pkv s bl p = AErr e.
Proof. intros M. unfold from_bech32. destruct bl.
  - destruct (segwit_decode_mixed cfg_blech s M) as [-> |[-> | ->]]; eauto.
  - destruct (segwit_decode_mixed cfg_bech s M) as [-> |[-> | ->]]; eauto. Qed.

(* a mixed-case string never parses as a segwit address — any parameters, FromStr included; where the prefix matches one of the
   network's HRPs (in any letter case) the parse is an error outright *)
Theorem mixed_case_rejected s p : mixed_case s = true ->
  (forall a, parse_with_params H pkv s p = AOk a -> ~ is_segwit a) /\
  (segwit_path s p = true -> exists e, parse_with_params H pkv s p = AErr e) /\
  (forall a, from_str H pkv s = AOk a -> ~ is_segwit a).
Proof. intros M.
  assert (A : forall q, (forall a, parse_with_params H pkv s q = AOk a -> ~ is_segwit a) /\ (segwit_path s q = true -> exists e, parse_with_params H pkv s q = AErr e)).
  { intros q. rewrite parse_eq. destruct (segwit_path s q).
    - destruct (from_bech32_mixed s (match_prefix (find_prefix s) (p_blech q)) q M) as [e ->]. split; [discriminate|eauto].
    - split; [intros a; apply parse_b58_not_segwit|discriminate]. }
  split; [apply A|split; [apply A|]]. intros a E. destruct (from_str_is_parse H pkv s a E) as (q & _ & E'). exact (proj1 (A q) a E'). Qed.

Lemma mixed_case_app h d : (existsb is_upper h = true /\ existsb is_lower d = true) \/ (existsb is_lower h = true /\ existsb is_upper d = true) ->
  mixed_case (h ++ x31 :: d) = true.
Proof. unfold mixed_case. rewrite !existsb_app. cbn [existsb]. intros [[A B]|[A B]]; rewrite A, B; rewrite ?orb_true_r; reflexivity. Qed.
(* the HRP clause of C17, case part: whatever letters of the human-readable part are replaced by (or written in) the other case, if the
   result has an upper-case letter in the HRP and a lower-case letter in the data part (or the other way round) it does not parse *)
Theorem hrp_case_rejected h d p : (existsb is_upper h = true /\ existsb is_lower d = true) \/ (existsb is_lower h = true /\ existsb is_upper d = true) ->
  (forall a, parse_with_params H pkv (h ++ x31 :: d) p = AOk a -> ~ is_segwit a) /\ (forall a, from_str H pkv (h ++ x31 :: d) = AOk a -> ~ is_segwit a).
Proof. intros C. pose proof (mixed_case_app h d C) as M. split; apply (mixed_case_rejected _ p M). Qed.
End Case.

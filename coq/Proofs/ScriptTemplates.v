(* Byte-form characterisations of the template predicates of Model/Script.v; Address::from_script / script_pubkey. *)
From Coq Require Import List NArith ZArith Bool Lia ZifyN ZifyBool ZifyNat.
From Coq.Strings Require Import Byte.
From EV Require Import Base.Bytes Gen.Tables Model.Script Proofs.Script.
Import ListNotations.
Ltac Zify.zify_post_hook ::= Z.div_mod_to_equations.
Open Scope N_scope.

Lemma skipn_last_one (k : nat) : forall s : bytes, length s = S k -> skipn k s = [nth k s x00].
Proof. induction k as [|k IH]; intros [|a s] L; cbn in L; try discriminate.
  - destruct s; [reflexivity|discriminate].
  - cbn [skipn nth]. apply IH. lia. Qed.
Lemma skipn_last_two (k : nat) : forall s : bytes, length s = S (S k) -> skipn k s = [nth k s x00; nth (S k) s x00].
Proof. induction k as [|k IH]; intros [|a s] L; cbn in L; try discriminate.
  - destruct s as [|b [|c s]]; try discriminate. reflexivity.
  - cbn [skipn nth]. apply IH. lia. Qed.
Lemma tail_split1 (rest : bytes) n : length rest = S n -> rest = firstn n rest ++ [nth n rest x00] /\ length (firstn n rest) = n.
Proof. intros L. split; [|rewrite firstn_length; lia]. rewrite <- (firstn_skipn n rest) at 1. f_equal. now apply skipn_last_one. Qed.
Lemma tail_split2 (rest : bytes) n : length rest = S (S n) ->
  rest = firstn n rest ++ [nth n rest x00; nth (S n) rest x00] /\ length (firstn n rest) = n.
Proof. intros L. split; [|rewrite firstn_length; lia]. rewrite <- (firstn_skipn n rest) at 1. f_equal. now apply skipn_last_two. Qed.
Lemma at_byte s i n : at_ s i = n -> nth i s x00 = n2b n.
Proof. unfold at_. apply n2b_lit. Qed.
Lemma nth_lit_app (h l : bytes) (n k : nat) : length h = n -> nth (n + k) (h ++ l) x00 = nth k l x00.
Proof. intros <-. apply app_nth2_plus. Qed.
Ltac nth_app h l n k L := let N := fresh in pose proof (nth_lit_app h l n k L) as N; cbn [Nat.add] in N; rewrite N; clear N.


Theorem is_p2sh_iff s : is_p2sh s = true <-> exists h, length h = 20%nat /\ s = xa9 :: x14 :: h ++ [x87].
Proof. split.
  - unfold is_p2sh. intros [[[L%Nat.eqb_eq A0%N.eqb_eq]%andb_true_iff A1%N.eqb_eq]%andb_true_iff A22%N.eqb_eq]%andb_true_iff.
    destruct s as [|b0 [|b1 rest]]; try discriminate. cbn [length] in L.
    apply at_byte in A0, A1, A22. cbn [nth] in A0, A1, A22. subst b0 b1.
    destruct (tail_split1 rest 20) as [E Lh]; [lia|]. exists (firstn 20 rest). split; [exact Lh|]. rewrite A22 in E. rewrite E at 1. reflexivity.
  - intros (h & L & ->). unfold is_p2sh, len_is, at_. cbn [length nth]. rewrite app_length, L.
    nth_app h [x87] 20%nat 0%nat L. reflexivity. Qed.

Theorem is_p2pkh_iff s : is_p2pkh s = true <-> exists h, length h = 20%nat /\ s = x76 :: xa9 :: x14 :: h ++ [x88; xac].
Proof. split.
  - unfold is_p2pkh. intros [[[[[L%Nat.eqb_eq A0%N.eqb_eq]%andb_true_iff A1%N.eqb_eq]%andb_true_iff A2%N.eqb_eq]%andb_true_iff A23%N.eqb_eq]%andb_true_iff A24%N.eqb_eq]%andb_true_iff.
    destruct s as [|b0 [|b1 [|b2 rest]]]; try discriminate. cbn [length] in L.
    apply at_byte in A0, A1, A2, A23, A24. cbn [nth] in A0, A1, A2, A23, A24. subst b0 b1 b2.
    destruct (tail_split2 rest 20) as [E Lh]; [lia|]. exists (firstn 20 rest). split; [exact Lh|]. rewrite A23, A24 in E. rewrite E at 1. reflexivity.
  - intros (h & L & ->). unfold is_p2pkh, len_is, at_. cbn [length nth]. rewrite app_length, L.
    nth_app h [x88; xac] 20%nat 0%nat L. nth_app h [x88; xac] 20%nat 1%nat L. reflexivity. Qed.

Lemma first_last_iff (s : bytes) (a z : N) (n : nat) : a < 256 -> z < 256 ->
  (len_is s (S (S n)) && (at_ s 0 =? a) && (at_ s (S n) =? z) = true <-> exists k, length k = n /\ s = n2b a :: k ++ [n2b z]).
Proof. intros Ha Hz. split.
  - intros [[L%Nat.eqb_eq A0%N.eqb_eq]%andb_true_iff Al%N.eqb_eq]%andb_true_iff.
    destruct s as [|b0 rest]; try discriminate. cbn [length] in L. apply at_byte in A0, Al. cbn [nth] in A0, Al. subst b0.
    destruct (tail_split1 rest n) as [E Lk]; [lia|]. exists (firstn n rest). split; [exact Lk|]. rewrite Al in E. rewrite E at 1. reflexivity.
  - intros (k & L & ->). unfold len_is, at_. cbn [length nth]. rewrite app_length, L, app_nth2, L, Nat.sub_diag by lia. cbn [length nth].
    replace (n + 1)%nat with (S n) by lia. rewrite !b2n_n2b_small, Nat.eqb_refl, !N.eqb_refl by assumption. reflexivity. Qed.

Theorem is_p2pk_iff s : is_p2pk s = true <->
  (exists k, length k = 65%nat /\ s = x41 :: k ++ [xac]) \/ (exists k, length k = 33%nat /\ s = x21 :: k ++ [xac]).
Proof. unfold is_p2pk.
  rewrite orb_true_iff, (first_last_iff s OP_PUSHBYTES_65 OP_CHECKSIG 65 eq_refl eq_refl), (first_last_iff s OP_PUSHBYTES_33 OP_CHECKSIG 33 eq_refl eq_refl).
  reflexivity. Qed.

Lemma two_bytes_iff (s : bytes) (a b : N) (n : nat) : a < 256 -> b < 256 ->
  (len_is s (S (S n)) && (at_ s 0 =? a) && (at_ s 1 =? b) = true <-> exists h, length h = n /\ s = n2b a :: n2b b :: h).
Proof. intros Ha Hb. split.
  - intros [[L%Nat.eqb_eq A0%N.eqb_eq]%andb_true_iff A1%N.eqb_eq]%andb_true_iff.
    destruct s as [|b0 [|b1 rest]]; try discriminate. apply at_byte in A0, A1. cbn [nth] in A0, A1. subst b0 b1.
    exists rest. split; [cbn [length] in L; lia|reflexivity].
  - intros (h & L & ->). unfold len_is, at_. cbn [length nth]. rewrite L, !b2n_n2b_small, Nat.eqb_refl, !N.eqb_refl by assumption. reflexivity. Qed.

Theorem is_v0_p2wpkh_iff s : is_v0_p2wpkh s = true <-> exists h, length h = 20%nat /\ s = x00 :: x14 :: h.
Proof. exact (two_bytes_iff s OP_PUSHBYTES_0 OP_PUSHBYTES_20 20 eq_refl eq_refl). Qed.
Theorem is_v0_p2wsh_iff s : is_v0_p2wsh s = true <-> exists h, length h = 32%nat /\ s = x00 :: x20 :: h.
Proof. exact (two_bytes_iff s OP_PUSHBYTES_0 OP_PUSHBYTES_32 32 eq_refl eq_refl). Qed.
Theorem is_v1_p2tr_iff s : is_v1_p2tr s = true <-> exists h, length h = 32%nat /\ s = x51 :: x20 :: h.
Proof. exact (two_bytes_iff s OP_PUSHNUM_1 OP_PUSHBYTES_32 32 eq_refl eq_refl). Qed.

(* a version opcode satisfying P followed by one direct push of 2..40 bytes that ends the script *)
Lemma version_push_iff (P : byte -> Prop) s :
  2 <= lenN s /\ P (nth 0 s x00) /\ 2 <= at_ s 1 <= 40 /\ lenN s = at_ s 1 + 2
  <-> exists v prog, P v /\ 2 <= lenN prog <= 40 /\ s = v :: n2b (lenN prog) :: prog.
Proof. unfold at_. split.
  - intros (L & V & R & E). destruct s as [|v [|l prog]]; [cbn in L; lia..|]. cbn [nth] in *. rewrite !lenN_cons in E.
    assert (El : lenN prog = b2n l) by lia. exists v, prog. rewrite El, n2b_b2n. split; [exact V|split; [lia|reflexivity]].
  - intros (v & prog & V & L & ->). cbn [nth]. rewrite !lenN_cons, b2n_n2b_small by lia. split; [lia|split; [exact V|lia]]. Qed.

Definition is_version_opcode (v : byte) : Prop := v = x00 \/ 0x51 <= b2n v <= 0x60.
Theorem is_witness_program_iff s : is_witness_program s = true <->
  exists v prog, is_version_opcode v /\ 2 <= lenN prog <= 40 /\ s = v :: n2b (lenN prog) :: prog.
Proof. rewrite <- version_push_iff. unfold is_witness_program, is_version_opcode, OP_PUSHNUM_1, OP_PUSHNUM_16, OP_PUSHBYTES_2, OP_PUSHBYTES_40. cbv zeta.
  assert (Z : at_ s 0 = 0 <-> nth 0 s x00 = x00) by (split; [apply (b2n_inj _ x00)|intros E; unfold at_; now rewrite E]).
  rewrite <- Z. fold (at_ s 0). lia. Qed.

Theorem is_v1plus_p2witprog_iff s : is_v1plus_p2witprog s = true <->
  exists v prog, 0x51 <= b2n v <= 0x60 /\ 2 <= lenN prog <= 40 /\ s = v :: n2b (lenN prog) :: prog.
Proof. rewrite <- (version_push_iff (fun v => 0x51 <= b2n v <= 0x60)).
  unfold is_v1plus_p2witprog, OP_PUSHNUM_1, OP_PUSHNUM_16, OP_PUSHBYTES_2, OP_PUSHBYTES_40. fold (at_ s 0). lia. Qed.

Theorem is_op_return_iff s : is_op_return s = true <-> exists r, s = x6a :: r.
Proof. unfold is_op_return, at_. split.
  - destruct s as [|b r]; [discriminate|]. cbn [is_empty negb andb nth]. intros H. apply N.eqb_eq in H. exists r. f_equal. apply b2n_inj. exact H.
  - intros (r & ->). reflexivity. Qed.
Theorem is_provably_unspendable_iff s : is_provably_unspendable s = true <-> s = [] \/ (exists r, s = x6a :: r) \/ 10000 < lenN s.
Proof. unfold is_provably_unspendable. fold (is_op_return s). unfold MAX_SCRIPT_SIZE. rewrite !orb_true_iff, is_op_return_iff. split.
  - intros [[H|H]|H]; [auto|right; right; lia|left; destruct s; [reflexivity|discriminate]].
  - intros [->|[H|H]]; [right; reflexivity|auto|left; right; lia]. Qed.

Lemma slice_mid (pre h post : bytes) (a b : nat) : length pre = a -> (b - a)%nat = length h -> slice (pre ++ h ++ post) a b = h.
Proof. intros <- E. unfold slice. rewrite skipn_app_len, E. apply firstn_app_len. Qed.

(* from_script tests the five address templates in turn; what it returns determines the form of the script *)
Theorem from_script_spec s : exists r, from_script s = Val r /\
  match r with
  | Some (PubkeyHash h) => length h = 20%nat /\ s = x76 :: xa9 :: x14 :: h ++ [x88; xac]
  | Some (ScriptHash h) => length h = 20%nat /\ s = xa9 :: x14 :: h ++ [x87]
  | Some (WitnessProgram v prog) =>
      (v = 0 /\ (length prog = 20%nat \/ length prog = 32%nat) \/ 1 <= v <= 16 /\ 2 <= lenN prog <= 40)
      /\ s = (if v =? 0 then x00 else n2b (0x50 + v)) :: n2b (lenN prog) :: prog
  | None => is_p2pkh s = false /\ is_p2sh s = false /\ is_v0_p2wpkh s = false /\ is_v0_p2wsh s = false /\ is_v1plus_p2witprog s = false
  end.
Proof. unfold from_script.
  destruct (is_p2pkh s) eqn:E1.
  { apply is_p2pkh_iff in E1 as (h & L & ->). exists (Some (PubkeyHash h)). split; [|auto].
    replace (slice (x76 :: xa9 :: x14 :: h ++ [x88; xac]) 3 23) with h by (symmetry; apply (slice_mid [x76; xa9; x14] h [x88; xac]); cbn; lia).
    unfold arr20, len_is. now rewrite L. }
  destruct (is_p2sh s) eqn:E2.
  { apply is_p2sh_iff in E2 as (h & L & ->). exists (Some (ScriptHash h)). split; [|auto].
    replace (slice (xa9 :: x14 :: h ++ [x87]) 2 22) with h by (symmetry; apply (slice_mid [xa9; x14] h [x87]); cbn; lia). unfold arr20, len_is. now rewrite L. }
  destruct (is_v0_p2wpkh s) eqn:E3.
  { apply is_v0_p2wpkh_iff in E3 as (h & L & ->). exists (Some (WitnessProgram 0 h)). unfold lenN. rewrite L. split; [|auto].
    replace (slice (x00 :: x14 :: h) 2 22) with h; [reflexivity|]. symmetry. rewrite <- (app_nil_r h) at 1. apply (slice_mid [x00; x14] h []); cbn; lia. }
  destruct (is_v0_p2wsh s) eqn:E4.
  { apply is_v0_p2wsh_iff in E4 as (h & L & ->). exists (Some (WitnessProgram 0 h)). unfold lenN. rewrite L. split; [|auto].
    replace (slice (x00 :: x20 :: h) 2 34) with h; [reflexivity|]. symmetry. rewrite <- (app_nil_r h) at 1. apply (slice_mid [x00; x20] h []); cbn; lia. }
  destruct (is_v1plus_p2witprog s) eqn:E5; [|exists None; auto 10].
  apply is_v1plus_p2witprog_iff in E5 as (v & prog & V & L & ->). exists (Some (WitnessProgram (b2n v - 80) prog)).
  unfold at_. cbn [nth skipn]. destruct (N.ltb_spec (b2n v) 80); [lia|]. destruct (N.leb_spec 32 (b2n v - 80)); [lia|]. split; [reflexivity|].
  destruct (N.eqb_spec (b2n v - 80) 0); [lia|]. replace (80 + (b2n v - 80)) with (b2n v) by lia. rewrite n2b_b2n. split; [right; lia|reflexivity]. Qed.

Lemma from_script_total s : exists r, from_script s = Val r.
Proof. destruct (from_script_spec s) as (r & E & _). eauto. Qed.

Lemma push_slice_direct b d : lenN d <= 75 -> push_slice b d = Val (mkB (rev_append d (n2b (lenN d) :: rbytes b)) None).
Proof. intros L. unfold push_slice, push_header, OP_PUSHDATA1. destruct (N.ltb_spec (lenN d) 76); [|lia]. reflexivity. Qed.
Lemma rev'_spec (l : bytes) : rev' l = rev l.
Proof. unfold rev'. symmetry. apply rev_alt. Qed.

Lemma spk_p2pkh p h : length h = 20%nat -> script_pubkey p (PubkeyHash h) = Val (x76 :: xa9 :: x14 :: h ++ [x88; xac]).
Proof. intros L. assert (LN : lenN h = 20) by (unfold lenN; rewrite L; reflexivity).
  unfold script_pubkey, build. cbn [run step obind push_opcode]. rewrite push_slice_direct by (rewrite LN; lia). cbn [obind rbytes last_op push_opcode].
  unfold into_script, push_opcode, b_new. cbn [rbytes]. rewrite rev'_spec, LN. cbn [rev]. rewrite rev_append_rev, rev_app_distr, rev_involutive.
  cbn [rev app]. rewrite <- ?app_assoc. reflexivity. Qed.
Lemma spk_p2sh p h : length h = 20%nat -> script_pubkey p (ScriptHash h) = Val (xa9 :: x14 :: h ++ [x87]).
Proof. intros L. assert (LN : lenN h = 20) by (unfold lenN; rewrite L; reflexivity).
  unfold script_pubkey, build. cbn [run step obind push_opcode]. rewrite push_slice_direct by (rewrite LN; lia). cbn [obind rbytes last_op push_opcode].
  unfold into_script, push_opcode, b_new. cbn [rbytes]. rewrite rev'_spec, LN. cbn [rev]. rewrite rev_append_rev, rev_app_distr, rev_involutive.
  cbn [rev app]. rewrite <- ?app_assoc. reflexivity. Qed.
Lemma spk_witness p v prog : v <= 16 -> lenN prog <= 75 ->
  script_pubkey p (WitnessProgram v prog) = Val ((if v =? 0 then x00 else n2b (0x50 + v)) :: n2b (lenN prog) :: prog).
Proof. intros V L. unfold script_pubkey, build. cbn [run step obind].
  assert (PI : push_int p b_new (Z.of_N v) = Val (push_opcode b_new (if v =? 0 then x00 else n2b (0x50 + v)))).
  { unfold push_int. destruct (N.eqb_spec v 0) as [->|NZ]; [reflexivity|].
    assert (((Z.of_N v =? -1) || (1 <=? Z.of_N v) && (Z.of_N v <=? 16))%Z = true) as -> by lia.
    do 3 f_equal. unfold OP_TRUE. rewrite Z.mod_small by lia. lia. }
  rewrite PI. cbn [obind]. rewrite push_slice_direct by exact L. cbn [obind rbytes push_opcode b_new].
  unfold into_script, push_opcode, b_new. cbn [rbytes]. rewrite rev'_spec, rev_append_rev, rev_app_distr, rev_involutive. reflexivity. Qed.

(* whenever from_script yields an address, its script_pubkey is the original script — including the F14 class *)
Theorem from_script_spk p s a : from_script s = Val (Some a) -> script_pubkey p a = Val s.
Proof. intros F. destruct (from_script_spec s) as (r & E & C). rewrite E in F. inversion F; subst r. destruct a as [h|h|v prog].
  - destruct C as [L ->]. now apply spk_p2pkh.
  - destruct C as [L ->]. now apply spk_p2sh.
  - destruct C as [R ->]. apply spk_witness; unfold lenN in *; lia. Qed.

Lemma template_predicate s : address_template s ->
  is_p2pkh s = true \/ is_p2sh s = true \/ is_v0_p2wpkh s = true \/ is_v0_p2wsh s = true \/ is_v1plus_p2witprog s = true.
Proof. intros [H|[H|[H|[H|H]]]].
  - left. now apply is_p2pkh_iff.
  - right; left. now apply is_p2sh_iff.
  - right; right; left. now apply is_v0_p2wpkh_iff.
  - right; right; right; left. now apply is_v0_p2wsh_iff.
  - right; right; right; right. now apply is_v1plus_p2witprog_iff. Qed.

Theorem from_script_some_iff s : (exists a, from_script s = Val (Some a)) <-> address_template s.
Proof. destruct (from_script_spec s) as (r & E & C). rewrite E. split.
  - intros [a F]. inversion F; subst r. destruct a as [h|h|v prog]; [left; eauto|right; left; eauto|]. destruct C as [[[-> [L|L]]|[V L]] ->].
    + right; right; left. exists prog. unfold lenN. rewrite L. auto.
    + right; right; right; left. exists prog. unfold lenN. rewrite L. auto.
    + right; right; right; right. destruct (N.eqb_spec v 0); [lia|]. exists (n2b (80 + v)), prog. rewrite b2n_n2b_small by lia. split; [lia|auto].
  - intros T. destruct r as [a|]; [eauto|]. exfalso. apply template_predicate in T. intuition congruence. Qed.

(* the payload of a derived address is one whose text form round-trips (C06's well-formedness, payload part) *)
Theorem from_script_wf s a : from_script s = Val (Some a) -> payload_wf a = true.
Proof. intros F. destruct (from_script_spec s) as (r & E & C). rewrite E in F. inversion F; subst r.
  destruct a as [h|h|v prog]; cbn [payload_wf]; unfold len_is, lenN in *; [apply Nat.eqb_eq, C..|]. destruct C as [R _].
  destruct (Nat.eqb_spec (length prog) 20), (Nat.eqb_spec (length prog) 32); lia. Qed.

(* Proofs for Model/FastMerkle.v: level-by-level definition = RFC 6962-style split tree = binary counter algorithm. *)
From Coq Require Import List Arith ZArith Lia PeanoNat ZifyNat.
From EV Require Import Model.FastMerkle.
Ltac Zify.zify_post_hook ::= Z.div_mod_to_equations.
Import ListNotations.
Section FMR.
Variable H : Type. Variable zero : H. Variable cmp : H -> H -> H.
Notation pairup := (pairup cmp). Notation levels := (levels zero cmp). Notation fmr_spec := (fmr_spec zero cmp).
Notation incr := (incr cmp). Notation fin := (fin cmp). Notation fmr_ctr := (fmr_ctr zero cmp).
Notation ctr := (ctr H).
(* split at the largest power of two strictly below the length (RFC 6962 shape) *)
Fixpoint lp2_aux (fuel k n : nat) : nat := match fuel with O => k | S f => if 2 * k <? n then lp2_aux f (2 * k) n else k end.
Definition lp2 (n : nat) : nat := lp2_aux n 1 n.
Fixpoint mth (fuel : nat) (l : list H) : H :=
  match l with [] => zero | [x] => x | _ =>
    match fuel with O => zero | S f => let k := lp2 (length l) in cmp (mth f (firstn k l)) (mth f (skipn k l)) end end.

Definition pow2 (k : nat) := exists e, k = 2 ^ e.
Lemma pow2_pos k : pow2 k -> 0 < k. Proof. intros [e ->]. apply Nat.neq_0_lt_0, Nat.pow_nonzero. lia. Qed.
Lemma pow2_double k : pow2 k -> pow2 (2 * k). Proof. intros [e ->]. exists (S e). cbn. lia. Qed.
Lemma pow2_gap a b : pow2 a -> pow2 b -> a < b -> 2 * a <= b.
Proof. intros [ea ->] [eb ->] L. apply Nat.pow_lt_mono_r_iff in L; [|lia]. replace (2 * 2 ^ ea) with (2 ^ S ea) by (cbn; lia). apply Nat.pow_le_mono_r; lia. Qed.
Lemma pow2_unique_between a b n : pow2 a -> pow2 b -> a < n <= 2 * a -> b < n <= 2 * b -> a = b.
Proof. intros Pa Pb Ha Hb. destruct (Nat.lt_trichotomy a b) as [L|[E|L]]; [|assumption|].
  - pose proof (pow2_gap _ _ Pa Pb L). lia.
  - pose proof (pow2_gap _ _ Pb Pa L). lia. Qed.
Lemma lp2_aux_spec fuel : forall k n, pow2 k -> k < n -> n <= k * 2 ^ fuel -> pow2 (lp2_aux fuel k n) /\ lp2_aux fuel k n < n /\ n <= 2 * lp2_aux fuel k n.
Proof. induction fuel as [|f IH]; intros k n Pk Hk Hn; cbn [lp2_aux].
  - cbn in Hn. lia.
  - destruct (Nat.ltb_spec (2 * k) n) as [L|L].
    + apply IH; [now apply pow2_double|assumption|]. cbn [Nat.pow] in Hn. nia.
    + repeat split; try assumption. Qed.
Lemma lp2_spec n : 2 <= n -> pow2 (lp2 n) /\ lp2 n < n /\ n <= 2 * lp2 n.
Proof. intros Hn. unfold lp2. apply lp2_aux_spec; [exists 0; reflexivity|lia|].
  assert (n < 2 ^ n) by (apply Nat.pow_gt_lin_r; lia). lia. Qed.
Lemma lp2_char n k : 2 <= n -> pow2 k -> k < n <= 2 * k -> lp2 n = k.
Proof. intros Hn Pk Hk. destruct (lp2_spec n Hn) as (P & L & U). eapply pow2_unique_between; eauto. Qed.

Lemma list_ind2 (P : list H -> Prop) : P [] -> (forall x, P [x]) -> (forall x y r, P r -> P (x :: y :: r)) -> forall l, P l.
Proof. intros P0 P1 P2. fix IH 1. intros [|x [|y r]]; [exact P0|apply P1|apply P2, IH]. Qed.
Lemma pairup_length l : length (pairup l) = (length l + 1) / 2.
Proof. induction l as [|x|x y r IH] using list_ind2; [reflexivity|reflexivity|].
  cbn [pairup length]. rewrite IH. replace (S (S (length r)) + 1) with (length r + 1 + 1 * 2) by lia. rewrite Nat.div_add by lia. lia. Qed.
Lemma pairup_app_even a : forall b, Nat.even (length a) = true -> pairup (a ++ b) = pairup a ++ pairup b.
Proof. induction a as [|x|x y r IH] using list_ind2; intros b E; [reflexivity|discriminate|].
  cbn [app pairup]. f_equal. apply IH. cbn [length] in E. now rewrite Nat.even_succ_succ in E. Qed.
Lemma pow2_even k : pow2 k -> 2 <= k -> Nat.even k = true /\ pow2 (k / 2).
Proof. intros [e ->] L. destruct e as [|e]; [cbn in L; lia|]. cbn [Nat.pow]. split.
  - rewrite Nat.even_mul. reflexivity.
  - exists e. rewrite Nat.mul_comm, Nat.div_mul; lia. Qed.

Lemma mth_unfold f l : 2 <= length l -> mth (S f) l = cmp (mth f (firstn (lp2 (length l)) l)) (mth f (skipn (lp2 (length l)) l)).
Proof. destruct l as [|x [|y r]]; cbn [length]; try lia. reflexivity. Qed.
Lemma mth_fuel_irrel : forall f1 f2 l, length l <= f1 -> length l <= f2 -> mth f1 l = mth f2 l.
Proof. induction f1 as [|f1 IH]; intros f2 l L1 L2.
  - destruct l as [|x [|y r]]; cbn in *; try lia; destruct f2; reflexivity.
  - destruct l as [|x [|y r]]; [destruct f2; reflexivity|destruct f2; reflexivity|].
    destruct f2 as [|f2]; [cbn in L2; lia|]. cbn [mth].
    set (l := x :: y :: r) in *. assert (Hl : 2 <= length l) by (cbn; lia).
    destruct (lp2_spec _ Hl) as (P & Lt & U). pose proof (pow2_pos _ P).
    f_equal; apply IH; rewrite ?firstn_length, ?skipn_length; lia. Qed.
Definition M (l : list H) : H := mth (length l) l.
Lemma M_single x : M [x] = x. Proof. reflexivity. Qed.
Lemma M_join a b : pow2 (length a) -> 0 < length b <= length a -> M (a ++ b) = cmp (M a) (M b).
Proof. intros Pa Hb. unfold M. pose proof (pow2_pos _ Pa) as Ha.
  assert (L2 : 2 <= length (a ++ b)) by (rewrite app_length; lia).
  destruct (length (a ++ b)) as [|f] eqn:E; [lia|]. rewrite mth_unfold by lia. rewrite E.
  assert (K : lp2 (S f) = length a). { apply lp2_char; [lia|assumption|]. rewrite <- E, app_length. lia. }
  rewrite K, firstn_app, Nat.sub_diag, firstn_O, app_nil_r, firstn_all, skipn_app, Nat.sub_diag, skipn_all. cbn [skipn app].
  rewrite app_length in E. f_equal; apply mth_fuel_irrel; lia. Qed.
(* the key claim: pairing up neighbours does not change the split tree.  The split point k is an even power of two, so the
   pairs do not straddle it, and the halves of the paired list are the paired halves, split at k/2 *)
Lemma M_pairup : forall n l, length l = n -> M (pairup l) = M l.
Proof. induction n as [n IH] using lt_wf_ind. intros l Hn.
  destruct l as [|x [|y [|z r]]]; try reflexivity.
  set (l := x :: y :: z :: r) in *. assert (N3 : 3 <= n) by (subst n; cbn; lia).
  destruct (lp2_spec n ltac:(lia)) as (P & Lt & U). set (k := lp2 n) in *.
  destruct (pow2_even k P ltac:(lia)) as (Ek & Ph). pose proof Ek as Ek'. apply Nat.even_spec in Ek' as [c Hc].
  rewrite <- (firstn_skipn k l). set (a := firstn k l). set (b := skipn k l).
  assert (La : length a = k) by (unfold a; rewrite firstn_length; lia).
  assert (Lb : length b = n - k) by (unfold b; rewrite skipn_length; lia).
  assert (Lpa : length (pairup a) = k / 2) by (rewrite pairup_length, La; lia).
  rewrite pairup_app_even by now rewrite La.
  rewrite (M_join a b), (M_join (pairup a) (pairup b)).
  - f_equal; [apply (IH k)|apply (IH (n - k))]; lia.
  - now rewrite Lpa.
  - rewrite Lpa, pairup_length, Lb. lia.
  - now rewrite La.
  - lia. Qed.
Lemma levels_M : forall f l, length l <= f -> levels f l = M l.
Proof. induction f as [|f IH]; intros l L.
  - destruct l; [reflexivity|cbn in L; lia].
  - destruct l as [|x [|y r]]; [reflexivity|reflexivity|].
    change (levels f (pairup (x :: y :: r)) = M (x :: y :: r)). rewrite IH, (M_pairup _ _ eq_refl); [reflexivity|].
    rewrite pairup_length. cbn [length] in *. lia. Qed.
Theorem spec_is_mth : forall f l, length l <= f -> levels f l = mth f l.
Proof. intros f l L. rewrite levels_M by exact L. apply mth_fuel_irrel; lia. Qed.

(* Rep j c p : counter c, whose head is level j, represents the processed prefix p *)
Inductive Rep : nat -> ctr -> list H -> Prop :=
| Rep_nil j : Rep j [] []
| Rep_none j r p : Rep (S j) r p -> Rep j (None :: r) p
| Rep_some j r p b : Rep (S j) r p -> length b = 2 ^ j -> Rep j (Some (M b) :: r) (p ++ b).

Lemma incr_rep : forall c j p b, Rep j c p -> length b = 2 ^ j -> Rep j (incr (M b) c) (p ++ b).
Proof. induction c as [|[x|] r IH]; intros j p b R Lb;
  inversion R as [ j0 | j0 r0 p0 R' | j0 r0 p0 b0 R' Lb0 ]; subst; cbn [incr].
  - apply (Rep_some j [] [] b); [constructor|assumption].
  - rewrite <- app_assoc. apply Rep_none.
    rewrite <- M_join; [|rewrite Lb0; exists j; reflexivity|lia].
    apply IH; [assumption|]. rewrite app_length. cbn [Nat.pow]. lia.
  - apply Rep_some; assumption. Qed.

Lemma fin_rep : forall c j p q acc, Rep j c p ->
  ((acc = None /\ q = []) \/ (acc = Some (M q) /\ 0 < length q < 2 ^ j)) ->
  p ++ q <> [] -> fin c acc = Some (M (p ++ q)).
Proof. induction c as [|[x|] r IH]; intros j p q acc R Hacc NE;
  inversion R as [ j0 | j0 r0 p0 R' | j0 r0 p0 b0 R' Lb0 ]; subst; cbn [fin].
  - destruct Hacc as [[-> ->]|[-> _]]; [contradiction NE; reflexivity|reflexivity].
  - (* the block b0 of this level joins what was accumulated below it *)
    pose proof (Nat.pow_nonzero 2 j ltac:(lia)) as NZ.
    assert (E : match acc with None => M b0 | Some a => cmp (M b0) a end = M (b0 ++ q) /\ length q < 2 ^ j).
    { destruct Hacc as [[-> ->]|[-> Hq]]; [rewrite app_nil_r; cbn [length]; split; [reflexivity|lia]|].
      rewrite M_join; [split; [reflexivity|lia]|rewrite Lb0; now exists j|lia]. }
    destruct E as [-> Lq]. rewrite <- app_assoc. apply (IH (S j)); [assumption|right; split; [reflexivity|]|].
    + rewrite app_length. cbn [Nat.pow]. lia.
    + intro E. apply (f_equal (@length H)) in E. rewrite !app_length in E. cbn [length] in E. lia.
  - apply (IH (S j) p q acc); [assumption| |assumption].
    destruct Hacc as [?|[-> Hq]]; [now left|right]. split; [reflexivity|]. cbn [Nat.pow]. lia. Qed.

Lemma fold_rep : forall l c p, Rep 0 c p -> Rep 0 (fold_left (fun c h => incr h c) l c) (p ++ l).
Proof. induction l as [|h l IH]; intros c p R; cbn [fold_left].
  - now rewrite app_nil_r.
  - replace (p ++ h :: l) with ((p ++ [h]) ++ l) by (rewrite <- app_assoc; reflexivity).
    apply IH. change h with (M [h]). apply incr_rep; [assumption|reflexivity]. Qed.

Theorem ctr_is_mth l : fmr_ctr l = match l with [] => zero | _ => M l end.
Proof. unfold fmr_ctr. pose proof (fold_rep l [] [] (Rep_nil 0)) as R. cbn [app] in R.
  destruct l as [|x l']; [reflexivity|].
  rewrite (fin_rep _ 0 (x :: l') [] None R); [now rewrite app_nil_r|left; split; reflexivity|rewrite app_nil_r; discriminate]. Qed.

Theorem ctr_is_spec l : fmr_ctr l = fmr_spec l.
Proof. rewrite ctr_is_mth. unfold fmr_spec. rewrite levels_M by lia. now destruct l. Qed.
Variable H_eq_dec : forall a b : H, {a = b} + {a <> b}.
Definition Collision : Prop := exists a b c d, (a, b) <> (c, d) /\ cmp a b = cmp c d.
Lemma cmp_inj_or x y x' y' : cmp x y = cmp x' y' -> (x = x' /\ y = y') \/ Collision.
Proof. intros E. destruct (H_eq_dec x x') as [->|N]; [destruct (H_eq_dec y y') as [->|N]|].
  - now left.
  - right. exists x', y, x', y'. split; [intro P; inversion P; contradiction|assumption].
  - right. exists x, y, x', y'. split; [intro P; inversion P; contradiction|assumption]. Qed.
Lemma pairup_inj : forall l l', length l = length l' -> pairup l = pairup l' -> l = l' \/ Collision.
Proof. induction l as [|x|x y r IH] using list_ind2; intros l' L E.
  - destruct l'; [now left|discriminate].
  - destruct l' as [|x' [|y' r']]; try discriminate. cbn in E. now left.
  - destruct l' as [|x' [|y' r']]; try discriminate. cbn [pairup] in E. injection E as E1 E2.
    cbn [length] in L. destruct (IH r' ltac:(lia) E2) as [->|C]; [|now right].
    destruct (cmp_inj_or _ _ _ _ E1) as [[-> ->]|C]; [now left|now right]. Qed.
Lemma levels_inj : forall f l l', length l = length l' -> length l <= f -> levels f l = levels f l' -> l = l' \/ Collision.
Proof. induction f as [|f IH]; intros l l' L Lf E.
  - destruct l as [|x [|y r]]; cbn in Lf; try lia. destruct l'; [now left|discriminate].
  - destruct l as [|x [|y r]]; destruct l' as [|x' [|y' r']]; try discriminate; [now left|cbn in E; subst; now left|].
    change (levels f (pairup (x :: y :: r)) = levels f (pairup (x' :: y' :: r'))) in E.
    assert (Lp : length (pairup (x :: y :: r)) = length (pairup (x' :: y' :: r'))) by (rewrite !pairup_length, L; reflexivity).
    assert (Lpf : length (pairup (x :: y :: r)) <= f) by (rewrite pairup_length; cbn [length] in *; lia).
    destruct (IH _ _ Lp Lpf E) as [E'|C]; [|now right]. now apply pairup_inj. Qed.
Theorem spec_depends l l' : length l = length l' -> fmr_spec l = fmr_spec l' -> l = l' \/ Collision.
Proof. intros L E. unfold fmr_spec in E. rewrite <- L in E. now apply (levels_inj (length l)). Qed.
End FMR.


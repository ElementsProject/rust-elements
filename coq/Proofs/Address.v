(* Model/Address.v over the segwit decoder of Model/Bech32.v: what an accepted string looks like, which branch of the parser reads a
   string, what a parsed address looks like (C06), and that a string with one or two corrupted data symbols is rejected (C17). *)
From Coq Require Import List NArith ZArith Bool Lia ZifyN ZifyBool ZifyNat.
From Coq.Strings Require Import Byte.
From EV Require Import Base.Bytes Gen.Tables Model.Bech32 Model.Base58 Model.Address Proofs.Bech32 Proofs.Bech32Codes.
Ltac Zify.zify_post_hook ::= Z.div_mod_to_equations.
Import ListNotations.
Open Scope N_scope.

Lemma rsplit_none sep s : rsplit sep s = None -> ~ In sep s.
Proof. induction s as [|c r IH]; intros E; [intros []|]. cbn [rsplit] in E. destruct (rsplit sep r) as [[p q]|]; [discriminate|].
  destruct (byte_eqb_spec c sep) as [->|NE]; [discriminate|]. intros [->|I]; [congruence|]. now apply IH. Qed.
Lemma rsplit_notin sep s : ~ In sep s -> rsplit sep s = None.
Proof. induction s as [|c r IH]; intros NI; [reflexivity|]. cbn [rsplit]. rewrite IH by (intro; apply NI; now right).
  destruct (byte_eqb_spec c sep) as [->|NE]; [exfalso; apply NI; now left|reflexivity]. Qed.
Lemma rsplit_spec sep s : forall h d, rsplit sep s = Some (h, d) -> s = h ++ sep :: d /\ ~ In sep d.
Proof. induction s as [|c r IH]; intros h d E; [discriminate|]. cbn [rsplit] in E. destruct (rsplit sep r) as [[p q]|] eqn:R.
  - inversion E; subst. destruct (IH _ _ eq_refl) as [-> NI]. now split.
  - destruct (byte_eqb_spec c sep) as [->|NE]; [|discriminate]. inversion E; subst. split; [reflexivity|now apply rsplit_none]. Qed.
Lemma rsplit_app sep h d : ~ In sep d -> rsplit sep (h ++ sep :: d) = Some (h, d).
Proof. intros NI. induction h as [|c h IH]; cbn [app rsplit].
  - rewrite (rsplit_notin _ _ NI). now rewrite byte_eqb_refl.
  - now rewrite IH. Qed.
Lemma find_prefix_rsplit s h d : rsplit x31 s = Some (h, d) -> find_prefix s = h.
Proof. unfold find_prefix. now intros ->. Qed.

Lemma eq_lower_iff a : forall b, eq_lower a b = true <-> lower a = lower b.
Proof. induction a as [|x a IH]; intros [|y b]; cbn [eq_lower lower map]; try (split; discriminate); [tauto|].
  rewrite andb_true_iff, IH. destruct (byte_eqb_spec (to_lower x) (to_lower y)) as [->|NE].
  - split; [intros [_ E]; unfold lower in E; now rewrite E|intros E; injection E as E; auto].
  - split; [intros [X _]; discriminate X|intros E; injection E as E _; contradiction]. Qed.

Lemma index_of_lt c l : forall i v, index_of c l i = Some v -> v < i + N.of_nat (length l).
Proof. induction l as [|x l IH]; intros i v E; [discriminate|]. cbn [index_of length] in *. destruct (byte_eqb x c).
  - inversion E; subst. lia. - apply IH in E. lia. Qed.
Lemma from_char_lt c v : from_char c = Some v -> v < 32.
Proof. unfold from_char. destruct (b2n c <? 128); [|discriminate]. intros E. apply index_of_lt in E. exact E. Qed.
Lemma syms_of_spec d : forall w, syms_of d = Some w -> sym_word w /\ length w = length d /\ ~ In x31 d /\
  forallb (fun c => match from_char c with Some _ => true | None => false end) d = true.
Proof. unfold syms_of. induction d as [|c d IH]; intros w E; cbn [map all_some] in E.
  - inversion E; subst. repeat split; [constructor|intros []].
  - destruct (from_char c) as [v|] eqn:F; [|discriminate]. destruct (all_some (map from_char d)) as [t|] eqn:A; [|discriminate].
    inversion E; subst. destruct (IH _ eq_refl) as (S & L & NI & FA). cbn [forallb]. rewrite F, FA. repeat split.
    + constructor; [now apply from_char_lt in F|assumption].
    + cbn. now rewrite L.
    + intros [->|I]; [discriminate F|contradiction]. Qed.
Lemma syms_of_no_sep d w : syms_of d = Some w -> ~ In x31 d.
Proof. intros S. apply (syms_of_spec d w S). Qed.
Lemma hrp_expand_sym h : sym_word (hrp_expand h).
Proof. unfold hrp_expand, sym_word. rewrite !Forall_app. repeat split.
  - apply Forall_forall. intros v I. apply in_map_iff in I as (b & <- & _). pose proof (b2n_lt (to_lower b)). lia.
  - constructor; [lia|constructor].
  - apply Forall_forall. intros v I. apply in_map_iff in I as (b & <- & _). pose proof (b2n_lt (to_lower b)). lia. Qed.
Lemma hrp_expand_length h : length (hrp_expand h) = (2 * length h + 1)%nat.
Proof. unfold hrp_expand. rewrite !app_length, !map_length. cbn. lia. Qed.

Lemma bits_of_length k v : length (bits_of k v) = k.
Proof. unfold bits_of. now rewrite map_length, rev_length, seq_length. Qed.
Lemma bits_of_syms_length vs : length (bits_of_syms vs) = (5 * length vs)%nat.
Proof. induction vs as [|v vs IH]; [reflexivity|]. unfold bits_of_syms in *. cbn [flat_map length]. rewrite app_length, bits_of_length, IH. lia. Qed.
Lemma chunk8_length m : forall bs, (length bs <= 8 * m + 7)%nat -> length (chunk8 bs) = (length bs / 8)%nat.
Proof. induction m as [|m IH]; intros bs L; do 8 (destruct bs as [|? bs]; [reflexivity|]).
  - cbn [length] in L. lia.
  - cbn [chunk8 length]. rewrite IH by (cbn [length] in L; lia). lia. Qed.
Lemma fes_to_bytes_length vs : length (fes_to_bytes vs) = (length vs * 5 / 8)%nat.
Proof. unfold fes_to_bytes. rewrite (chunk8_length (length (bits_of_syms vs))) by lia. rewrite bits_of_syms_length. f_equal. lia. Qed.

Lemma hrp_parse_len h : hrp_parse h = Ok tt -> (length h <= 83)%nat.
Proof. unfold hrp_parse. destruct h as [|b r]; [discriminate|]. destruct (Nat.ltb_spec 83 (length (b :: r))); [discriminate|]. lia. Qed.
Lemma unchecked_new_ok s h d : unchecked_new s = Ok (h, d) <->
  rsplit x31 s = Some (h, d) /\ forallb (fun c => match from_char c with Some _ => true | None => false end) d = true /\
  existsb is_upper s && existsb is_lower s = false /\ hrp_parse h = Ok tt.
Proof. unfold unchecked_new, check_characters. split.
  - intros E. destruct (rsplit x31 s) as [[h' d']|]; destruct (forallb _ _) eqn:F; cbn [negb] in E; try discriminate E;
      destruct (_ && _); try discriminate E. destruct (hrp_parse h') as [[]|] eqn:P; [|discriminate E]. injection E as <- <-. auto.
  - intros (R & F & M & P). rewrite R, F, M. cbn [negb]. rewrite P. reflexivity. Qed.

Definition code_for (cfg : segwit_cfg) (ver : N) : code := if N.eqb ver 0 then sw_code_v0 cfg else sw_code_v1 cfg.

Lemma validate_checksum_ok cfg c n h w : c_len c <> 0%nat -> validate_checksum cfg c n h w = Ok tt <->
  match sw_code_length cfg with Some m => (n <= m)%nat | None => True end /\ (c_len c <= length w)%nat /\ valid_codeword c (hrp_expand h ++ w) = true.
Proof. intros NZ. unfold validate_checksum. destruct (Nat.eqb_spec (c_len c) 0); [contradiction|].
  destruct (Nat.ltb_spec (length w) (c_len c)), (valid_codeword c (hrp_expand h ++ w)), (sw_code_length cfg) as [m|]; cbn [negb];
    try destruct (Nat.ltb_spec m n); split; try discriminate; try (intros (? & ? & ?)); try discriminate; try lia; auto. Qed.
Lemma validate_wpl_ok cfg v body : let len := (length body * 5 / 8)%nat in validate_wpl cfg v body = Ok tt <->
  (sw_len_min cfg <= len <= sw_len_max cfg)%nat /\ (v = 0 -> len = sw_len_v0_a cfg \/ len = sw_len_v0_b cfg).
Proof. unfold validate_wpl. set (len := (length body * 5 / 8)%nat). cbv zeta.
  destruct (Nat.ltb_spec len (sw_len_min cfg)); [split; [discriminate|lia]|]. destruct (Nat.ltb_spec (sw_len_max cfg) len); [split; [discriminate|lia]|].
  destruct (N.eqb_spec v 0) as [->|NE]; cbn [andb]; [|split; [intros _; split; [lia|contradiction]|reflexivity]].
  destruct (Nat.eqb_spec len (sw_len_v0_a cfg)), (Nat.eqb_spec len (sw_len_v0_b cfg)); cbn [negb andb];
    split; try discriminate; try reflexivity; try (intros _; split; [lia|tauto]). intros [_ X]. destruct (X eq_refl); contradiction. Qed.
Lemma validate_padding_len body : validate_padding body = Ok tt -> ((length body * 5) mod 8 <= 4)%nat.
Proof. unfold validate_padding. destruct body as [|x xs]; [cbn; lia|]. destruct (Nat.ltb_spec 4 ((length (x :: xs) * 5) mod 8)); [discriminate|]. intros _. lia. Qed.

(* s = h ++ "1" ++ d in a single letter case, d spells the version, the regrouped program and the checksum symbols *)
Lemma segwit_decode_ok cfg s v data : c_len (code_for cfg v) <> 0%nat ->
  segwit_decode cfg s = Ok (v, data) <->
  exists h d body ck,
    rsplit x31 s = Some (h, d) /\ existsb is_upper s && existsb is_lower s = false /\ hrp_parse h = Ok tt /\
    syms_of d = Some (v :: body ++ ck) /\ length ck = c_len (code_for cfg v) /\ v <= sw_max_version cfg /\
    match sw_max_string cfg with Some m => (length s <= m)%nat | None => True end /\
    match sw_code_length cfg with Some m => (length s <= m)%nat | None => True end /\
    valid_codeword (code_for cfg v) (hrp_expand h ++ v :: body ++ ck) = true /\
    validate_padding body = Ok tt /\ validate_wpl cfg v body = Ok tt /\ data = fes_to_bytes body.
Proof. intros NZ. unfold segwit_decode. split.
  - intros E. destruct (match sw_max_string cfg with Some m => Nat.ltb m (length s) | None => false end) eqn:M; [discriminate|].
    destruct (unchecked_new s) as [[h d]|] eqn:U; [|discriminate]. apply unchecked_new_ok in U as (R & _ & MC & P).
    destruct (syms_of d) as [[|ver rest]|] eqn:S; try discriminate. destruct (N.ltb_spec (sw_max_version cfg) ver) as [|LV]; [discriminate|].
    fold (code_for cfg ver) in E. set (c := code_for cfg ver) in *.
    destruct (validate_checksum cfg c (length s) h (ver :: rest)) as [[]|] eqn:VC; [|discriminate].
    (* the checksum symbols are the last c_len c ones *)
    remember (length (ver :: rest) - c_len c)%nat as k eqn:K. pose proof (firstn_skipn k (ver :: rest)) as W.
    destruct (firstn k (ver :: rest)) as [|ver' body]; [discriminate|].
    destruct (validate_padding body) as [[]|] eqn:VP; [|discriminate]. destruct (validate_wpl cfg ver' body) as [[]|] eqn:VW; [|discriminate].
    injection E as -> <-. injection W as -> W. apply validate_checksum_ok in VC as (CL & LC & V); [|exact NZ].
    exists h, d, body, (skipn k (ver :: rest)). rewrite W. repeat split; try assumption.
    + rewrite skipn_length, K. fold c. lia.
    + destruct (sw_max_string cfg); [apply Nat.ltb_ge in M|]; auto.
  - intros (h & d & body & ck & R & MC & P & S & LK & LV & M & CL & V & VP & VW & ->).
    replace (match sw_max_string cfg with Some m => Nat.ltb m (length s) | None => false end) with false
      by (destruct (sw_max_string cfg); [symmetry; now apply Nat.ltb_ge|reflexivity]).
    rewrite (proj2 (unchecked_new_ok s h d)) by (repeat split; try assumption; apply (syms_of_spec _ _ S)). rewrite S.
    replace (sw_max_version cfg <? v) with false by (symmetry; now apply N.ltb_ge). fold (code_for cfg v).
    rewrite (proj2 (validate_checksum_ok cfg _ _ h _ NZ)) by (repeat split; try assumption; cbn [length]; rewrite app_length; lia).
    replace (length (v :: body ++ ck) - c_len (code_for cfg v))%nat with (length (v :: body)) by (cbn [length]; rewrite app_length; lia).
    change (v :: body ++ ck) with ((v :: body) ++ ck). rewrite firstn_app, Nat.sub_diag, firstn_all, app_nil_r. cbn [firstn]. rewrite VP, VW. reflexivity. Qed.

Definition sw_cfg (blinded : bool) : segwit_cfg := if blinded then cfg_blech else cfg_bech.
Definition required_code (blinded : bool) (v : N) : code :=
  if blinded then (if v =? 0 then blech32 else blech32m) else (if v =? 0 then bech32 else bech32m).
Lemma code_for_sw bl v : code_for (sw_cfg bl) v = required_code bl v.
Proof. destruct bl; reflexivity. Qed.
Lemma required_code_in bl v : In (required_code bl v) the_codes.
Proof. unfold required_code. destruct bl, (v =? 0); cbn; tauto. Qed.
Lemma sw_code_len bl v : c_len (code_for (sw_cfg bl) v) <> 0%nat.
Proof. rewrite code_for_sw. apply the_codes_len, required_code_in. Qed.
(* versions <= 16; the decoded payload — blinding key, where there is one, and program — has 2..k+40 bytes, k+20 or k+32 for version 0
   (the lower bound does not count the key: from_bech32 tests the program length itself, prog_len_ok) *)
Lemma sw_cfg_limits (bl : bool) : let k := (if bl then 33 else 0)%nat in
  sw_max_version (sw_cfg bl) = 16 /\ sw_len_min (sw_cfg bl) = 2%nat /\ sw_len_max (sw_cfg bl) = (k + 40)%nat /\
  sw_len_v0_a (sw_cfg bl) = (k + 20)%nat /\ sw_len_v0_b (sw_cfg bl) = (k + 32)%nat.
Proof. destruct bl; repeat split. Qed.

Lemma required_code_len (bl : bool) v : c_len (required_code bl v) = (if bl then 12 else 6)%nat.
Proof. destruct bl; unfold required_code; destruct (v =? 0); reflexivity. Qed.

(* within distance 2 of a codeword of the code of one version there is no codeword of the code of any version *)
Lemma codes_apart (bl : bool) x y w w' : sym_word w -> sym_word w' -> length w = length w' ->
  (length w <= if bl then L_switch_blech else L_switch_bech)%nat -> (1 <= hamming w w' <= 2)%nat ->
  valid_codeword (required_code bl x) w = true -> valid_codeword (required_code bl y) w' = false.
Proof. intros Sw Sw' LL LB HD.
  assert (SW : (required_code bl 0, required_code bl 1, if bl then L_switch_blech else L_switch_bech) = (bech32, bech32m, L_switch_bech) \/
               (required_code bl 0, required_code bl 1, if bl then L_switch_blech else L_switch_bech) = (blech32, blech32m, L_switch_blech))
    by (destruct bl; [right|left]; reflexivity).
  destruct (switch_codes _ _ _ SW w w' Sw Sw' LL LB) as [A B]; [lia|].
  assert (SAME : valid_codeword (required_code bl x) w = true -> valid_codeword (required_code bl x) w' = false).
  { apply two_errors_codes; try assumption; [apply required_code_in|]. destruct bl; unfold L_switch_bech, L_switch_blech, L_code in *; lia. }
  unfold required_code in *. destruct bl, (x =? 0), (y =? 0); assumption. Qed.

Lemma bound_bech s r h d : segwit_decode cfg_bech s = Ok r -> rsplit x31 s = Some (h, d) -> (2 * length h + 1 + length d <= L_switch_bech)%nat.
Proof. destruct r as [v data]. intros E R. apply (segwit_decode_ok _ _ _ _ (sw_code_len false _)) in E as (h' & d' & _ & _ & R' & _ & P & _ & _ & _ & M & _).
  rewrite R in R'. injection R' as <- <-. cbn in M. apply hrp_parse_len in P. apply rsplit_spec in R as [-> _].
  rewrite app_length in M. cbn [length] in M. unfold L_switch_bech. lia. Qed.
Lemma bound_blech s r h d : segwit_decode cfg_blech s = Ok r -> rsplit x31 s = Some (h, d) -> (2 * length h + 1 + length d <= L_switch_blech)%nat.
Proof. destruct r as [v data]. intros E R.
  apply (segwit_decode_ok _ _ _ _ (sw_code_len true _)) in E as (h' & d' & body & ck & R' & _ & P & S & LK & _ & _ & _ & _ & _ & VW & _).
  rewrite R in R'. injection R' as <- <-. apply hrp_parse_len in P. destruct (syms_of_spec _ _ S) as (_ & LW & _).
  apply validate_wpl_ok in VW as [[_ UB] _]. destruct (sw_cfg_limits true) as (_ & _ & Fmax & _). rewrite Fmax in UB.
  rewrite (code_for_sw true), required_code_len in LK. cbn [length] in LW. rewrite app_length in LW. unfold L_switch_blech. lia. Qed.

(* s' is s with the data part (everything after the last '1') replaced by an equally long string of bech32 characters whose
   symbols differ from those of s in one or two positions (the witness-version character is the first data symbol).
   Replacing a letter by its other-case form does not change the symbol and is therefore not a corruption in this sense;
   such strings are rejected by the mixed-case rule (exercised by the harness). *)
Definition data_edit (s s' : bytes) : Prop :=
  exists hrp d d' w w', rsplit x31 s = Some (hrp, d) /\ s' = hrp ++ x31 :: d' /\ syms_of d = Some w /\ syms_of d' = Some w' /\
    length w = length w' /\ (1 <= hamming w w' <= 2)%nat.

Lemma data_edit_prefix s s' : data_edit s s' -> find_prefix s' = find_prefix s.
Proof. intros (hrp & d & d' & w & w' & R & -> & _ & S' & _). rewrite (find_prefix_rsplit _ _ _ R). apply (find_prefix_rsplit _ _ d'), rsplit_app, (syms_of_no_sep _ _ S'). Qed.

Lemma decoded_codeword bl s v data h d : segwit_decode (sw_cfg bl) s = Ok (v, data) -> rsplit x31 s = Some (h, d) ->
  exists w, syms_of d = Some (v :: w) /\ valid_codeword (required_code bl v) (hrp_expand h ++ v :: w) = true.
Proof. intros E R. apply (segwit_decode_ok _ _ _ _ (sw_code_len bl _)) in E as (h0 & d0 & body & ck & R0 & _ & _ & S & _ & _ & _ & _ & V & _).
  rewrite R in R0. injection R0 as <- <-. rewrite code_for_sw in V. now exists (body ++ ck). Qed.

(* both strings carry a codeword behind the same HRP, the two words are 1 or 2 symbols apart *)
Lemma corrupt_rejected bl s s' r : segwit_decode (sw_cfg bl) s = Ok r -> data_edit s s' -> exists e, segwit_decode (sw_cfg bl) s' = Err e.
Proof. destruct r as [v data]. intros E (hrp & d & d' & w & w' & R & -> & S & S' & LEN & HD).
  destruct (segwit_decode (sw_cfg bl) (hrp ++ x31 :: d')) as [[v' data']|e] eqn:E'; [exfalso|eauto].
  assert (B : (2 * length hrp + 1 + length d <= if bl then L_switch_blech else L_switch_bech)%nat)
    by (destruct bl; [exact (bound_blech _ _ _ _ E R)|exact (bound_bech _ _ _ _ E R)]).
  destruct (syms_of_spec _ _ S) as (Sw & LW & _). destruct (syms_of_spec _ _ S') as (Sw' & _ & NI' & _).
  destruct (decoded_codeword _ _ _ _ _ _ E R) as (t & S0 & V). rewrite S in S0. injection S0 as ->.
  destruct (decoded_codeword _ _ _ _ _ _ E' (rsplit_app _ _ _ NI')) as (t' & S1 & V'). rewrite S' in S1. injection S1 as ->.
  rewrite (codes_apart bl v v' (hrp_expand hrp ++ v :: t)) in V'; [discriminate V'| | | | | |exact V].
  - apply Forall_app. split; [apply hrp_expand_sym|exact Sw].
  - apply Forall_app. split; [apply hrp_expand_sym|exact Sw'].
  - rewrite !app_length. lia.
  - rewrite app_length, hrp_expand_length. lia.
  - now rewrite hamming_app. Qed.
Lemma corrupt_rejected_blech s s' r : segwit_decode cfg_blech s = Ok r -> data_edit s s' -> exists e, segwit_decode cfg_blech s' = Err e.
Proof. exact (corrupt_rejected true s s' r). Qed.

Definition is_segwit (a : address) : Prop := exists v prog, a_payload a = WitnessProgram v prog.
Definition hrp_of (p : params) (bl : bool) : bytes := if bl then p_blech p else p_bech p.
Definition segwit_path (s : bytes) (p : params) : bool := match_prefix (find_prefix s) (p_bech p) || match_prefix (find_prefix s) (p_blech p).
Definition has_prefix (p : params) (x : N) : Prop := x = p_p2pkh p \/ x = p_p2sh p \/ x = p_blinded p.

Lemma builtin_hrps_distinct p p' bl bl' : In p builtin -> In p' builtin -> eq_lower (hrp_of p bl) (hrp_of p' bl') = true -> p = p' /\ bl = bl'.
Proof. intros I I' E. cbn in I, I'. destruct I as [<-|[<-|[<-|[]]]], I' as [<-|[<-|[<-|[]]]], bl, bl'; vm_compute in E; try discriminate; split; reflexivity. Qed.
Lemma hrp_match_unique h p p' bl bl' : In p builtin -> In p' builtin ->
  match_prefix h (hrp_of p bl) = true -> match_prefix h (hrp_of p' bl') = true -> p = p' /\ bl = bl'.
Proof. unfold match_prefix. rewrite !eq_lower_iff. intros I I' E E'. apply (builtin_hrps_distinct p p' bl bl' I I'), eq_lower_iff. congruence. Qed.
(* the nine version bytes: blinded prefixes pairwise distinct, {p2pkh, p2sh} sets pairwise disjoint (recomputed from Gen/Tables.v) *)
Lemma builtin_prefixes_distinct p p' : In p builtin -> In p' builtin ->
  (p_blinded p = p_blinded p' -> p = p') /\
  ((p_p2pkh p = p_p2pkh p' \/ p_p2pkh p = p_p2sh p' \/ p_p2sh p = p_p2pkh p' \/ p_p2sh p = p_p2sh p') -> p = p').
Proof. intros I I'. cbn in I, I'. destruct I as [<-|[<-|[<-|[]]]], I' as [<-|[<-|[<-|[]]]]; split; intros X; try reflexivity; vm_compute in X;
  repeat match goal with X : _ \/ _ |- _ => destruct X as [X|X] end; discriminate. Qed.
Lemma builtin_prefixes_distinct9 p p' x : In p builtin -> In p' builtin -> has_prefix p x -> has_prefix p' x -> p = p'.
Proof. intros I I' X X'. cbn in I, I'. unfold has_prefix in *.
  destruct I as [<-|[<-|[<-|[]]]], I' as [<-|[<-|[<-|[]]]]; try reflexivity; exfalso;
    destruct X as [-> | [-> | ->]], X' as [X'|[X'|X']]; vm_compute in X'; discriminate X'. Qed.
Lemma builtin_prefix_facts p : In p builtin ->
  p_p2pkh p < 256 /\ p_p2sh p < 256 /\ p_blinded p < 256 /\ p_p2pkh p <> p_blinded p /\ p_p2sh p <> p_blinded p /\ p_p2sh p <> p_p2pkh p.
Proof. intros I. cbn in I. destruct I as [<-|[<-|[<-|[]]]]; vm_compute; repeat split; discriminate. Qed.

(* the witness-program length test of Address::from_bech32 (repair of finding F5): exactly 2..40 bytes pass.  The bounds are regenerated
   from src/address.rs; this lemma is where a changed bound breaks the proofs. *)
Lemma prog_len_ok prog : prog_len_bad prog = false <-> (2 <= length prog <= 40)%nat.
Proof. unfold prog_len_bad. change ADDR_PROG_LEN_MIN with 2. change ADDR_PROG_LEN_MAX with 40. rewrite orb_false_iff, !N.ltb_ge. lia. Qed.

(* what every parsed address satisfies, and every address that satisfies it is parsed back from its text: a 33-byte blinding key that
   secp256k1 accepts (if any), a 20-byte hash or a witness version <= 16 with a program of 2..40 bytes (20 or 32 for version 0) *)
Definition key_ok (pkv : bytes -> bool) (a : address) : Prop :=
  match a_blinder a with Some b => length b = 33%nat /\ pkv b = true | None => True end.
Definition payload_ok (a : address) : Prop :=
  match a_payload a with
  | PubkeyHash h | ScriptHash h => length h = 20%nat
  | WitnessProgram v prog => v <= 16 /\ (2 <= length prog <= 40)%nat /\ (v = 0 -> length prog = 20%nat \/ length prog = 32%nat) end.
Definition is_blinded (a : address) : bool := match a_blinder a with Some _ => true | None => false end.
(* the bytes Display regroups for a segwit address *)
Definition wit_data (a : address) (prog : bytes) : bytes := match a_blinder a with Some b => b ++ prog | None => prog end.
(* the bytes Display feeds to base58check for a p2pkh / p2sh address *)
Definition b58_payload (a : address) : option bytes :=
  let p := a_params a in
  match a_payload a, a_blinder a with
  | PubkeyHash h, Some bl => Some (n2b (p_blinded p) :: n2b (p_p2pkh p) :: bl ++ h)
  | PubkeyHash h, None => Some (n2b (p_p2pkh p) :: h)
  | ScriptHash h, Some bl => Some (n2b (p_blinded p) :: n2b (p_p2sh p) :: bl ++ h)
  | ScriptHash h, None => Some (n2b (p_p2sh p) :: h)
  | WitnessProgram _ _, _ => None end.

(* what the property promises about every successfully parsed address *)
Definition shape_ok (s : bytes) (a : address) : Prop :=
  match a_payload a with
  | PubkeyHash h | ScriptHash h => length h = 20%nat
  | WitnessProgram v prog =>
      v <= 16 /\ (2 <= length prog <= 40)%nat /\ (v = 0 -> length prog = 20%nat \/ length prog = 32%nat) /\
      (* the checksum variant required for its version *)
      exists h d w, rsplit x31 s = Some (h, d) /\ syms_of d = Some w /\
                    valid_codeword (required_code (match a_blinder a with Some _ => true | None => false end) v) (hrp_expand h ++ w) = true
  end.

Lemma wit_data_length pkv a prog : key_ok pkv a -> length (wit_data a prog) = ((if is_blinded a then 33 else 0) + length prog)%nat.
Proof. unfold key_ok, wit_data, is_blinded. destruct (a_blinder a); [intros [L _]; rewrite app_length; lia|reflexivity]. Qed.

Section Payload.
Variable pkv : bytes -> bool.

Lemma from_bech32_ok s bl p a : from_bech32 pkv s bl p = AOk a <->
  exists v prog, a_params a = p /\ a_payload a = WitnessProgram v prog /\ is_blinded a = bl /\ key_ok pkv a /\ (2 <= length prog <= 40)%nat /\
    segwit_decode (sw_cfg bl) s = Ok (v, wit_data a prog).
Proof. unfold from_bech32, key_ok, wit_data, is_blinded. split.
  - intros E. destruct bl; cbn [sw_cfg].
    + destruct (segwit_decode cfg_blech s) as [[v data]|]; [|discriminate]. destruct (Nat.ltb_spec (length data) 33); [discriminate|].
      rewrite <- (firstn_skipn 33 data). assert (LK : length (firstn 33 data) = 33%nat) by (rewrite firstn_length; lia).
      set (pk := firstn 33 data) in E, LK |- *. set (prog := skipn 33 data) in E |- *. clearbody pk prog.
      destruct (pkv pk) eqn:PK; [|discriminate]. destruct (prog_len_bad prog) eqn:PL; [discriminate|]. injection E as <-.
      exists v, prog. cbn. repeat split; [exact LK|exact PK|apply prog_len_ok, PL..].
    + destruct (segwit_decode cfg_bech s) as [[v data]|]; [|discriminate]. destruct (prog_len_bad data) eqn:PL; [discriminate|]. injection E as <-.
      exists v, data. cbn. repeat split; apply prog_len_ok, PL.
  - intros (v & prog & <- & EP & <- & KO & LP & D). apply prog_len_ok in LP. destruct a as [p pay [b|]]; cbn [a_params a_payload a_blinder sw_cfg] in EP, KO, D |- *; subst pay; rewrite D; [|now rewrite LP].
    destruct KO as [<- PK]. rewrite firstn_app_len, skipn_app_len. rewrite app_length, PK, LP. destruct (Nat.ltb_spec (length b + length prog) (length b)); [lia|reflexivity]. Qed.
Lemma from_bech32_segwit s bl p a : from_bech32 pkv s bl p = AOk a -> is_segwit a.
Proof. intros E. apply from_bech32_ok in E as (v & prog & _ & EP & _). now exists v, prog. Qed.
Lemma from_bech32_corrupt s s' bl p a : from_bech32 pkv s bl p = AOk a -> data_edit s s' -> exists e, from_bech32 pkv s' bl p = AErr e.
Proof. unfold from_bech32. intros E ED. destruct bl.
  - destruct (segwit_decode cfg_blech s) as [r|] eqn:D; [|discriminate]. destruct (corrupt_rejected_blech _ _ _ D ED) as [e ->]. eauto.
  - destruct (segwit_decode cfg_bech s) as [r|] eqn:D; [|discriminate]. destruct (corrupt_rejected false _ _ _ D ED) as [e E']. cbn [sw_cfg] in E'. rewrite E'. eauto. Qed.

Lemma b58_payload_not_segwit a d : b58_payload a = Some d -> ~ is_segwit a.
Proof. unfold b58_payload. intros E (v & prog & EP). rewrite EP in E. discriminate E. Qed.
Lemma b58_payload_some a : ~ is_segwit a -> exists d, b58_payload a = Some d.
Proof. unfold b58_payload. intros NS. destruct (a_payload a) as [h|h|v prog] eqn:EP; [destruct (a_blinder a); eauto..|]. destruct NS. now exists v, prog. Qed.

(* the last step of from_base58, common to the blinded and the unblinded layout *)
Definition b58_finish (p : params) (x : byte) (bo : option bytes) (h : bytes) : ares address :=
  if b2n x =? p_p2pkh p then AOk (mkAddr p (PubkeyHash h) bo) else if b2n x =? p_p2sh p then AOk (mkAddr p (ScriptHash h) bo) else AErr AInvalidAddressVersion.
Lemma b58_finish_ok p x bo h a : b58_finish p x bo h = AOk a ->
  a_params a = p /\ a_blinder a = bo /\ (b2n x = p_p2pkh p \/ b2n x = p_p2sh p) /\
  (a_payload a = PubkeyHash h /\ x = n2b (p_p2pkh p) \/ a_payload a = ScriptHash h /\ x = n2b (p_p2sh p)).
Proof. unfold b58_finish. destruct (N.eqb_spec (b2n x) (p_p2pkh p)) as [E1|_]; [|destruct (N.eqb_spec (b2n x) (p_p2sh p)) as [E2|_]; [|discriminate]];
  intros E; injection E as <-; cbn; repeat split; auto using n2b_lit. Qed.

Lemma from_base58_unblinded p x h : b2n x <> p_blinded p -> length h = 20%nat -> from_base58 pkv (x :: h) p = b58_finish p x None h.
Proof. intros NB L. unfold from_base58. destruct (N.eqb_spec (b2n x) (p_blinded p)); [contradiction|]. now rewrite L. Qed.
Lemma from_base58_blinded p b x pk h : b2n b = p_blinded p -> length pk = 33%nat -> length h = 20%nat -> pkv pk = true ->
  from_base58 pkv (b :: x :: pk ++ h) p = b58_finish p x (Some pk) h.
Proof. intros EB LK LH PK. unfold from_base58. rewrite EB, N.eqb_refl, app_length, LK, LH. cbn [Nat.add Nat.eqb negb]. rewrite <- LK.
  rewrite firstn_app_len, skipn_app_len. now rewrite PK. Qed.
Lemma b58_finish_builtin p bo h : In p builtin ->
  b58_finish p (n2b (p_p2pkh p)) bo h = AOk (mkAddr p (PubkeyHash h) bo) /\ b58_finish p (n2b (p_p2sh p)) bo h = AOk (mkAddr p (ScriptHash h) bo).
Proof. intros Ip. destruct (builtin_prefix_facts p Ip) as (F1 & F2 & _ & _ & _ & F6). unfold b58_finish. rewrite !b2n_n2b_small, !N.eqb_refl by assumption.
  now destruct (N.eqb_spec (p_p2sh p) (p_p2pkh p)). Qed.

(* an accepted payload is what Display encodes; its first byte is one of the network's three version bytes *)
Lemma from_base58_ok data p a : from_base58 pkv data p = AOk a ->
  a_params a = p /\ b58_payload a = Some data /\ key_ok pkv a /\ payload_ok a /\
  exists x bs, data = x :: bs /\ has_prefix p (b2n x) /\ (length bs = 20 \/ length bs = 54)%nat.
Proof. unfold from_base58, b58_payload, key_ok, payload_ok, has_prefix. intros E. destruct data as [|bp bd]; [discriminate|]. cbv zeta in E.
  destruct (N.eqb_spec (b2n bp) (p_blinded p)) as [EB|_].
  - destruct bd as [|x pkh]; [discriminate|]. destruct (Nat.eqb_spec (length pkh) 53) as [L|]; [|discriminate]. cbn [negb] in E.
    rewrite <- (firstn_skipn 33 pkh). assert (LK : length (firstn 33 pkh) = 33%nat) by (rewrite firstn_length; lia).
    assert (LH : length (skipn 33 pkh) = 20%nat) by (rewrite skipn_length; lia).
    set (pk := firstn 33 pkh) in E, LK |- *. set (h := skipn 33 pkh) in E, LH |- *. clearbody pk h. destruct (pkv pk) eqn:PK; [|discriminate].
    apply (b58_finish_ok p x (Some pk) h) in E as (-> & -> & _ & [[-> ->]|[-> ->]]); repeat split; auto; try (now rewrite <- (n2b_lit _ _ EB));
      eexists _, _; (split; [reflexivity|split; [tauto|cbn [length]; rewrite app_length; lia]]).
  - destruct (Nat.eqb_spec (length bd) 20) as [L|]; [|discriminate]. cbn [negb] in E.
    apply (b58_finish_ok p bp None bd) in E as (-> & -> & HP & [[-> ->]|[-> ->]]); repeat split; auto; eexists _, _; (split; [reflexivity|split; [tauto|lia]]). Qed.

Lemma from_str_bech_some s prefix nets r : from_str_bech pkv s prefix nets = Some r ->
  exists p bl, In p nets /\ match_prefix prefix (hrp_of p bl) = true /\ r = from_bech32 pkv s bl p.
Proof. induction nets as [|net nets IH]; intros F; [discriminate|]. cbn [from_str_bech] in F.
  destruct (match_prefix prefix (p_bech net)) eqn:MB; [injection F as <-; exists net, false; cbn; auto|].
  destruct (match_prefix prefix (p_blech net)) eqn:ML; [injection F as <-; exists net, true; cbn; auto|].
  destruct (IH F) as (p & bl & I & X). exists p, bl. cbn. auto. Qed.
Lemma from_str_bech_none s prefix nets : from_str_bech pkv s prefix nets = None <-> forall p bl, In p nets -> match_prefix prefix (hrp_of p bl) = false.
Proof. induction nets as [|net nets IH]; cbn [from_str_bech]; [split; [intros _ p bl []|reflexivity]|].
  destruct (match_prefix prefix (p_bech net)) eqn:MB; [split; [discriminate|intros A; pose proof (A net false (or_introl eq_refl)) as X; cbn [hrp_of] in X; congruence]|].
  destruct (match_prefix prefix (p_blech net)) eqn:ML; [split; [discriminate|intros A; pose proof (A net true (or_introl eq_refl)) as X; cbn [hrp_of] in X; congruence]|].
  rewrite IH. split; [intros A p bl [<-|I]; [destruct bl; assumption|now apply A]|intros A p bl I; apply A; now right]. Qed.
Lemma from_str_b58_inv data x nets a : from_str_b58 pkv data x nets = AOk a -> exists p, In p nets /\ from_base58 pkv data p = AOk a.
Proof. induction nets as [|net r IH]; intros E; [discriminate|]. cbn [from_str_b58] in E. destruct (_ || _).
  - exists net. split; [now left|exact E]. - destruct (IH E) as (p & I & F). exists p. split; [now right|exact F]. Qed.

End Payload.

Section Parse.
Variable H : bytes -> bytes. Variable pkv : bytes -> bool.

Lemma display_segwit a v prog : a_payload a = WitnessProgram v prog ->
  display H a = encode_segwit (required_code (is_blinded a) v) (hrp_of (a_params a) (is_blinded a)) v (wit_data a prog).
Proof. unfold display, is_blinded, wit_data. intros ->. now destruct (a_blinder a). Qed.
Lemma display_b58 a d : b58_payload a = Some d -> display H a = b58_encode_check H d.
Proof. unfold b58_payload, display. destruct (a_payload a), (a_blinder a); intros E; try discriminate E; injection E as <-; reflexivity. Qed.

Definition parse_b58 (s : bytes) (p : params) : ares address :=
  if too_long_for_base58 s then AErr AInvalidLength
  else match b58_decode_check H s with Err58 e => AErr (ABase58 e) | Ok58 data => from_base58 pkv data p end.
Lemma parse_eq s p : parse_with_params H pkv s p =
  if segwit_path s p then from_bech32 pkv s (match_prefix (find_prefix s) (p_blech p)) p else parse_b58 s p.
Proof. reflexivity. Qed.
Lemma parse_b58_ok s p a : parse_b58 s p = AOk a <->
  too_long_for_base58 s = false /\ exists data, b58_decode_check H s = Ok58 data /\ from_base58 pkv data p = AOk a.
Proof. unfold parse_b58. destruct (too_long_for_base58 s); [split; [discriminate|intros [X _]; discriminate X]|].
  destruct (b58_decode_check H s) as [data|e]; split; try discriminate; [eauto|intros (_ & d & X & F); now injection X as <-|intros (_ & d & X & _); discriminate X]. Qed.

Lemma parse_ok s p a : parse_with_params H pkv s p = AOk a ->
  (exists bl, match_prefix (find_prefix s) (hrp_of p bl) = true /\ from_bech32 pkv s bl p = AOk a) \/ (segwit_path s p = false /\ parse_b58 s p = AOk a).
Proof. rewrite parse_eq. unfold segwit_path. destruct (match_prefix (find_prefix s) (p_blech p)) eqn:ML.
  - rewrite orb_true_r. left. exists true. auto.
  - rewrite orb_false_r. destruct (match_prefix (find_prefix s) (p_bech p)) eqn:MB; [left; exists false|right]; auto. Qed.
Lemma parse_b58_not_segwit s p a : parse_b58 s p = AOk a -> ~ is_segwit a.
Proof. intros B. apply parse_b58_ok in B as (_ & d & _ & F). apply (b58_payload_not_segwit a d), (from_base58_ok _ _ _ _ F). Qed.
Lemma parse_segwit s p a : parse_with_params H pkv s p = AOk a -> is_segwit a ->
  exists bl, match_prefix (find_prefix s) (hrp_of p bl) = true /\ from_bech32 pkv s bl p = AOk a.
Proof. intros E SW. destruct (parse_ok _ _ _ E) as [X|[_ B]]; [exact X|]. now destruct (parse_b58_not_segwit _ _ _ B). Qed.
Lemma parse_no_hrp s p : (forall bl, match_prefix (find_prefix s) (hrp_of p bl) = false) -> parse_with_params H pkv s p = parse_b58 s p.
Proof. intros N. rewrite parse_eq. unfold segwit_path. pose proof (N false) as A. pose proof (N true) as B. cbn [hrp_of] in A, B. now rewrite A, B. Qed.

Lemma segwit_dispatch s p bl : In p builtin -> match_prefix (find_prefix s) (hrp_of p bl) = true ->
  parse_with_params H pkv s p = from_bech32 pkv s bl p /\ from_str H pkv s = from_bech32 pkv s bl p.
Proof. intros Ip M.
  assert (U : forall p' bl', In p' builtin -> match_prefix (find_prefix s) (hrp_of p' bl') = true -> p' = p /\ bl' = bl)
    by (intros p' bl' I' M'; exact (hrp_match_unique _ _ _ _ _ I' Ip M' M)).
  split.
  - rewrite parse_eq. unfold segwit_path. destruct bl; cbn [hrp_of] in M; rewrite M; [now rewrite orb_true_r|]. cbn [orb].
    destruct (match_prefix (find_prefix s) (p_blech p)) eqn:ML; [|reflexivity]. now destruct (U p true Ip ML).
  - unfold from_str. destruct (from_str_bech pkv s (find_prefix s) builtin) as [r|] eqn:F.
    + apply from_str_bech_some in F as (p' & bl' & I' & M' & ->). now destruct (U p' bl' I' M') as [-> ->].
    + now rewrite (proj1 (from_str_bech_none _ _ _ _) F p bl Ip) in M. Qed.

Theorem from_str_is_parse s a : from_str H pkv s = AOk a -> exists p, In p builtin /\ parse_with_params H pkv s p = AOk a.
Proof. intros E. pose proof E as E0. unfold from_str in E. destruct (from_str_bech pkv s (find_prefix s) builtin) as [r|] eqn:F.
  - apply from_str_bech_some in F as (p & bl & Ip & M & ->). exists p. split; [exact Ip|]. now rewrite (proj1 (segwit_dispatch s p bl Ip M)).
  - destruct (too_long_for_base58 s) eqn:TL; [discriminate|]. destruct (b58_decode_check H s) as [[|p0 data]|] eqn:DC; try discriminate.
    apply from_str_b58_inv in E as (p & Ip & FB). exists p. split; [exact Ip|].
    rewrite parse_no_hrp by (intros bl; exact (proj1 (from_str_bech_none _ _ _ _) F p bl Ip)). apply parse_b58_ok. eauto. Qed.

Theorem address_corrupt p s a s' : In p builtin -> parse_with_params H pkv s p = AOk a -> is_segwit a -> data_edit s s' ->
  exists e, from_str H pkv s' = AErr e /\ parse_with_params H pkv s' p = AErr e.
Proof. intros Ip E SW ED. destruct (parse_segwit _ _ _ E SW) as (bl & M & FB). rewrite <- (data_edit_prefix _ _ ED) in M.
  destruct (from_bech32_corrupt _ _ _ _ _ _ FB ED) as [e Ee]. exists e. destruct (segwit_dispatch s' p bl Ip M) as [-> ->]. now split. Qed.

Theorem parsed_ok s p a : parse_with_params H pkv s p = AOk a -> a_params a = p /\ key_ok pkv a /\ payload_ok a /\ shape_ok s a.
Proof. intros E. destruct (parse_ok _ _ _ E) as [(bl & _ & FB)|[_ B]].
  - apply from_bech32_ok in FB as (v & prog & EP & EA & EB & KO & LP & D). unfold payload_ok, shape_ok. rewrite EA. fold (is_blinded a). rewrite EB.
    apply (segwit_decode_ok _ _ _ _ (sw_code_len bl _)) in D as (h & d & body & ck & R & _ & _ & S & _ & LV & _ & _ & V & _ & VW & ED).
    destruct (sw_cfg_limits bl) as (F1 & _ & _ & F4 & F5). rewrite F1 in LV. apply validate_wpl_ok in VW as [_ V0]. rewrite F4, F5, <- fes_to_bytes_length, <- ED in V0.
    pose proof (wit_data_length pkv a prog KO) as LD. rewrite EB in LD.
    rewrite code_for_sw in V. repeat split; try assumption; try lia; [intros Z; specialize (V0 Z); lia..|]. exists h, d, (v :: body ++ ck). auto.
  - apply parse_b58_ok in B as (_ & d & _ & F). destruct (from_base58_ok _ _ _ _ F) as (EP & PD & KO & PO & _). repeat split; try assumption.
    unfold shape_ok, payload_ok, b58_payload in *. now destruct (a_payload a). Qed.
End Parse.

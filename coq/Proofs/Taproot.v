From Coq Require Import List Arith NArith ZArith Bool Lia ZifyN ZifyBool ZifyNat Permutation.
From Coq.Strings Require Import Byte.
From EV Require Import Base.Bytes Base.Codec Gen.Tables Model.Taproot.
Import ListNotations.
Ltac Zify.zify_post_hook ::= Z.div_mod_to_equations.

Lemma lex_eq (c1 c2 : comparison) : match c1 with Eq => c2 | Lt => Lt | Gt => Gt end = Eq <-> c1 = Eq /\ c2 = Eq.
Proof. destruct c1; intuition discriminate. Qed.

Section CMP.
Context {A : Type} (c : A -> A -> comparison).
Hypothesis c_eq : forall x y, c x y = Eq <-> x = y.
Hypothesis c_anti : forall x y, c y x = CompOpp (c x y).
Lemma list_cmp_eq : forall a b, list_cmp c a b = Eq <-> a = b.
Proof. induction a as [|x a IH]; intros [|y b]; cbn [list_cmp]; try (split; discriminate); [tauto|].
  rewrite lex_eq, c_eq, IH. split; [intros [-> ->]; reflexivity|intros [= -> ->]; auto]. Qed.
Lemma list_cmp_anti : forall a b, list_cmp c b a = CompOpp (list_cmp c a b).
Proof. induction a as [|x a IH]; intros [|y b]; cbn [list_cmp]; try reflexivity.
  rewrite (c_anti x y). destruct (c x y); cbn [CompOpp]; auto. Qed.
End CMP.

Lemma byte_cmp_eq x y : byte_cmp x y = Eq <-> x = y.
Proof. unfold byte_cmp. rewrite N.compare_eq_iff. split; [apply b2n_inj|intros ->; reflexivity]. Qed.
Lemma bytes_cmp_eq a b : bytes_cmp a b = Eq <-> a = b.
Proof. apply list_cmp_eq, byte_cmp_eq. Qed.
Lemma bytes_cmp_anti a b : bytes_cmp b a = CompOpp (bytes_cmp a b).
Proof. apply list_cmp_anti. intros x y. apply N.compare_antisym. Qed.
Lemma branch_cmp_eq a b : branch_cmp a b = Eq <-> a = b.
Proof. apply list_cmp_eq, bytes_cmp_eq. Qed.
Lemma key_cmp_eq a b : key_cmp a b = Eq <-> a = b.
Proof. unfold key_cmp. rewrite lex_eq, bytes_cmp_eq, byte_cmp_eq. destruct a, b; cbn [fst snd].
  split; [intros [-> ->]; reflexivity|intros [= -> ->]; auto]. Qed.

Lemma sortpair_comm a b : sortpair a b = sortpair b a.
Proof. unfold sortpair, bytes_ltb. rewrite (bytes_cmp_anti a b). destruct (bytes_cmp a b) eqn:E; cbn [CompOpp]; try reflexivity.
  apply bytes_cmp_eq in E. now subst. Qed.
Lemma sortpair_inj a b c d : length a = length b -> length b = length c -> length c = length d ->
  sortpair a b = sortpair c d -> (a = c /\ b = d) \/ (a = d /\ b = c).
Proof. intros L1 L2 L3. unfold sortpair. destruct (bytes_ltb a b), (bytes_ltb c d); intros E; apply app_eq_len in E; try congruence; tauto. Qed.

Lemma fold_snoc {X Y} (f : X -> Y -> X) l y x : fold_left f (l ++ [y]) x = f (fold_left f l x) y.
Proof. rewrite fold_left_app. reflexivity. Qed.
Lemma pad_length {A} (x : A) k b : (length b <= k)%nat -> length (repeat x (k - length b) ++ b) = k.
Proof. intros L. rewrite app_length, repeat_length. lia. Qed.

Section BUILD.
Variables Hleaf Hbranch : bytes -> bytes.
Notation combine := (combine Hbranch).
Notation combine_tot := (combine_tot Hbranch).
Notation node_of := (node_of Hleaf Hbranch).
Notation insert := (insert Hbranch).
Notation ins := (ins Hbranch).
Notation run := (run Hleaf Hbranch).
Notation root := (root Hleaf Hbranch).
Notation leaf_paths := (leaf_paths Hleaf Hbranch).

(* what the finished node holds: the sorted-pair merkle root, and the leaves with their sibling paths in depth-first (insertion)
   order — NodeInfo::combine(child, node) since fix aee9a45 (before it the order was reversed, finding F9) *)
Lemma node_of_hash t : n_hash (node_of t) = root t.
Proof. induction t as [s v|h|a IHa b IHb]; cbn [Taproot.node_of Taproot.root Taproot.combine_tot new_leaf new_hidden n_hash]; try reflexivity.
  rewrite IHa, IHb. reflexivity. Qed.
Lemma node_of_leaves t : n_leaves (node_of t) = leaf_paths t.
Proof. induction t as [s v|h|a IHa b IHb]; cbn [Taproot.node_of Taproot.leaf_paths Taproot.combine_tot new_leaf new_hidden n_leaves]; try reflexivity.
  rewrite <- IHa, <- IHb, !node_of_hash. reflexivity. Qed.

Lemma leaf_paths_ind (P : tree -> leafinfo -> Prop) :
  (forall s v, P (Leaf s v) {| l_script := s; l_ver := v; l_branch := [] |}) ->
  (forall a b l, In l (leaf_paths a) -> P a l -> P (Node a b) (snoc (root b) l)) ->
  (forall a b l, In l (leaf_paths b) -> P b l -> P (Node a b) (snoc (root a) l)) ->
  forall t l, In l (leaf_paths t) -> P t l.
Proof. intros PL Pa Pb. induction t as [s v|h|a IHa b IHb]; cbn [Taproot.leaf_paths]; intros l Hl.
  - destruct Hl as [<-|[]]. apply PL.
  - destruct Hl.
  - apply in_app_or in Hl as [Hl|Hl]; apply in_map_iff in Hl as (l' & <- & Hl'); auto. Qed.
Lemma leaf_path_root : forall t l, In l (leaf_paths t) ->
  fold_left (merkle_step Hbranch) (l_branch l) (leaf_hash Hleaf (l_ver l) (l_script l)) = root t.
Proof. apply leaf_paths_ind; [reflexivity|..]; intros a b l _ IH; cbn [snoc l_branch l_ver l_script Taproot.root];
    rewrite fold_snoc, IH; unfold merkle_step.
  - reflexivity.
  - apply f_equal, sortpair_comm. Qed.
Lemma leaf_path_depth : forall t l, In l (leaf_paths t) -> (length (l_branch l) <= height t)%nat.
Proof. apply leaf_paths_ind; cbn [height snoc l_branch]; intros; rewrite ?app_length; cbn [length]; lia. Qed.

(* TaprootMerkleBranch::push refuses exactly the branches that are MAXD long already; NodeInfo::combine passes the refusal on *)
Lemma push_all_cases h ls :
  (Forall (fun l => (length (l_branch l) < MAXD)%nat) ls /\ push_all h ls = Ok (map (snoc h) ls)) \/
  (exists l, In l ls /\ (MAXD <= length (l_branch l))%nat /\
             push_all h ls = Err (InvalidMerkleTreeDepth (N.of_nat (length (l_branch l))))).
Proof. induction ls as [|l r IH]; cbn [push_all map]; [left; split; [constructor|reflexivity]|].
  unfold push. destruct (Nat.leb_spec MAXD (length (l_branch l))) as [D|D]; [right; exists l; cbn; auto|].
  destruct IH as [[F ->]|(l' & I & D' & ->)]; [left; split; [constructor; assumption|reflexivity]|right; exists l'; cbn; auto]. Qed.
Lemma combine_cases a b :
  (Forall (fun l => (length (l_branch l) < MAXD)%nat) (n_leaves a ++ n_leaves b) /\ combine a b = Ok (combine_tot a b)) \/
  (exists l, In l (n_leaves a ++ n_leaves b) /\ (MAXD <= length (l_branch l))%nat /\
             combine a b = Err (InvalidMerkleTreeDepth (N.of_nat (length (l_branch l))))).
Proof. unfold Taproot.combine, Taproot.combine_tot.
  destruct (push_all_cases (n_hash b) (n_leaves a)) as [[Fa ->]|(l & I & D & ->)]; [|right; exists l; rewrite in_app_iff; auto].
  destruct (push_all_cases (n_hash a) (n_leaves b)) as [[Fb ->]|(l & I & D & ->)]; [|right; exists l; rewrite in_app_iff; auto].
  left. split; [apply Forall_app; auto|reflexivity]. Qed.
Lemma combine_ok a b c : combine a b = Ok c ->
  c = combine_tot a b /\ Forall (fun l => (length (l_branch l) < MAXD)%nat) (n_leaves a ++ n_leaves b).
Proof. destruct (combine_cases a b) as [[F ->]|(l & _ & _ & ->)]; [intros [= <-]; auto|discriminate]. Qed.
Lemma node_of_depth a b l : In l (n_leaves (node_of a) ++ n_leaves (node_of b)) -> (length (l_branch l) < height (Node a b))%nat.
Proof. rewrite !node_of_leaves. cbn [height]. intros I. apply in_app_or in I as [I|I]; apply leaf_path_depth in I; lia. Qed.
Lemma combine_node_of a b : (height (Node a b) <= MAXD)%nat -> combine (node_of a) (node_of b) = Ok (node_of (Node a b)).
Proof. intros Hh. destruct (combine_cases (node_of a) (node_of b)) as [[_ E]|(l & I & D & _)]; [exact E|].
  apply node_of_depth in I. lia. Qed.
(* two trees of height <= MAXD that do not combine have a leaf exactly MAXD deep *)
Lemma combine_node_of_err a b e : (height a <= MAXD)%nat -> (height b <= MAXD)%nat ->
  combine (node_of a) (node_of b) = Err e -> e = InvalidMerkleTreeDepth (N.of_nat MAXD).
Proof. intros Ha Hb. destruct (combine_cases (node_of a) (node_of b)) as [[_ ->]|(l & I & D & ->)]; [discriminate|]. intros [= <-].
  apply node_of_depth in I. cbn [height] in I. do 2 f_equal. lia. Qed.

Lemma ins_short n d b : (length b <= d)%nat -> ins n d b = Ok (place n d b).
Proof. intros L. destruct b as [|[c|] rest]; cbn [Taproot.ins length] in *; [reflexivity|..].
  all: destruct (Nat.eqb_spec (S (length rest)) (d + 1)); [lia|reflexivity]. Qed.
Lemma place_length n d b : (length b <= d)%nat -> length (place n d b) = S d.
Proof. intros L. unfold place. cbn [length]. now rewrite pad_length. Qed.
Lemma ins_restart a bnode d b : (length b <= S d)%nat ->
  ins bnode (S d) (place a (S d) b) = match combine a bnode with Ok m => ins m d b | Err e => Err e end.
Proof. intros L. unfold place. cbn [Taproot.ins length]. rewrite pad_length, Nat.add_1_r, Nat.eqb_refl by assumption.
  destruct (combine a bnode) as [m|e]; [|reflexivity].
  destruct (Nat.eq_dec (length b) (S d)) as [Eq|Ne]; [rewrite Eq, Nat.sub_diag; reflexivity|].
  rewrite (ins_short m d b) by lia. replace (S d - length b)%nat with (S (d - length b)) by lia.
  cbn [repeat app Taproot.ins length]. rewrite pad_length, Nat.add_1_r, Nat.eqb_refl by lia. reflexivity. Qed.
Lemma run_app xs : forall ys b, run (xs ++ ys) b = match run xs b with Ok b' => run ys b' | Err e => Err e end.
Proof. induction xs as [|it xs IH]; intros ys b; cbn [Taproot.run app]; [reflexivity|].
  destruct (insert _ _ b); [apply IH|reflexivity]. Qed.
Lemma insert_nat n d b : (d <= MAXD)%nat -> (length b <= S d)%nat -> insert n (N.of_nat d) b = ins n d b.
Proof. intros D L. unfold Taproot.insert. unfold MAXD in D.
  destruct (N.ltb_spec TAPROOT_CONTROL_MAX_NODE_COUNT (N.of_nat d)) as [B|_]; [lia|].
  rewrite Nnat.Nat2N.id. destruct (Nat.ltb_spec (d + 1) (length b)) as [B|_]; [lia|reflexivity]. Qed.

Theorem run_subtree : forall t d b, (length b <= S d)%nat -> (d + height t <= MAXD)%nat ->
  run (dfs t d) b = insert (node_of t) (N.of_nat d) b.
Proof. induction t as [s v|h|a IHa c IHc]; intros d b L Hh; cbn [dfs].
  1,2: cbn [Taproot.run item_node item_depth Taproot.node_of]; destruct (insert _ _ b); reflexivity.
  assert (Hn : (height (Node a c) <= MAXD)%nat) by lia. cbn [height] in Hh.
  rewrite run_app, IHa, (insert_nat _ (S d)), ins_short by lia.
  rewrite IHc, insert_nat, ins_restart, (combine_node_of a c Hn), insert_nat by (rewrite ?place_length; lia). reflexivity. Qed.

Corollary builder_sound t : (height t <= MAXD)%nat -> run (dfs t 0) [] = Ok [Some (node_of t)].
Proof. intros Hh. rewrite run_subtree by (cbn [length Nat.add]; lia). rewrite insert_nat by (cbn [length]; lia). reflexivity. Qed.
End BUILD.

Definition tmap := list ((bytes * byte) * list (list bytes)).
Definition map_has (m : tmap) (k : bytes * byte) (v : list bytes) : Prop := exists s, In (k, s) m /\ In v s.
(* no key is bound to the empty set: what the `expect` of TaprootSpendInfo::control_block relies on *)
Definition sets_nonempty (m : tmap) : Prop := Forall (fun ks => snd ks <> []) m.
Lemma map_has_cons k0 s0 m k v : map_has ((k0, s0) :: m) k v <-> (k = k0 /\ In v s0) \/ map_has m k v.
Proof. unfold map_has. cbn [In]. split.
  - intros (s & [[= -> ->]|H] & Hv); eauto.
  - intros [[-> Hv]|(s & H & Hv)]; eauto. Qed.
Lemma set_insert_in x s y : In y (set_insert x s) <-> y = x \/ In y s.
Proof. induction s as [|z s IH]; cbn [set_insert In]; [intuition|].
  destruct (branch_cmp x z) eqn:E; cbn [In].
  - apply branch_cmp_eq in E. subst. intuition.
  - intuition.
  - rewrite IH. intuition. Qed.
Lemma set_insert_nonempty x s : set_insert x s <> [].
Proof. destruct s as [|z s]; cbn [set_insert]; [discriminate|]. destruct (branch_cmp x z); discriminate. Qed.
Lemma map_insert_has k v m k' v' : map_has (map_insert k v m) k' v' <-> (k' = k /\ v' = v) \/ map_has m k' v'.
Proof. assert (New : forall m', map_has ((k, [v]) :: m') k' v' <-> (k' = k /\ v' = v) \/ map_has m' k' v').
  { intros m'. rewrite map_has_cons. cbn [In]. intuition congruence. }
  induction m as [|[k0 s0] r IH]; cbn [map_insert]; [apply New|destruct (key_cmp k k0) eqn:E; [|apply New|]]; rewrite !map_has_cons.
  - apply key_cmp_eq in E as <-. rewrite set_insert_in. split; [intros [[K [V|V]]|H]|intros [[K V]|[[K V]|H]]]; auto.
  - rewrite IH. split; intros [H|[H|H]]; auto. Qed.
Lemma map_insert_nonempty k v m : sets_nonempty m -> sets_nonempty (map_insert k v m).
Proof. unfold sets_nonempty. induction m as [|[k0 s0] r IH]; cbn [map_insert]; intros H.
  - repeat constructor. discriminate.
  - inversion H; subst. destruct (key_cmp k k0).
    + constructor; [apply set_insert_nonempty|assumption].
    + constructor; [discriminate|assumption].
    + constructor; [assumption|auto]. Qed.
Lemma build_map_snoc ls l : build_map (ls ++ [l]) = map_insert (l_script l, l_ver l) (l_branch l) (build_map ls).
Proof. exact (fold_snoc _ ls l []). Qed.
Lemma build_map_has ls k v : map_has (build_map ls) k v <-> exists l, In l ls /\ k = (l_script l, l_ver l) /\ v = l_branch l.
Proof. induction ls as [|l ls IH] using rev_ind; [split; [intros (s & [] & _)|intros (l & [] & _)]|].
  rewrite build_map_snoc, map_insert_has, IH. split.
  - intros [[-> ->]|(l' & H & E)]; [exists l|exists l']; rewrite in_app_iff; cbn; auto.
  - intros (l' & H & -> & ->). apply in_app_iff in H as [H|[<-|[]]]; eauto. Qed.
Lemma build_map_nonempty ls : sets_nonempty (build_map ls).
Proof. induction ls as [|l ls IH] using rev_ind; [constructor|]. rewrite build_map_snoc. now apply map_insert_nonempty. Qed.
Lemma map_get_some k m v : map_has m k v -> exists s, map_get k m = Some s /\ In (k, s) m.
Proof. induction m as [|[k0 s0] r IH]; [intros (s & [] & _)|]. rewrite map_has_cons. cbn [map_get In].
  pose proof (key_cmp_eq k k0) as E. destruct (key_cmp k k0).
  1: rewrite <- (proj1 E eq_refl); eauto.
  all: intros [[K _]|H]; [apply E in K; discriminate|]; destruct (IH H) as (s & -> & I); eauto. Qed.
Lemma shortest_in : forall s best, In (shortest best s) (best :: s).
Proof. induction s as [|x r IH]; intros best; cbn [shortest]; [now left|].
  destruct (length x <? length best)%nat; [destruct (IH x) as [H|H]|destruct (IH best) as [H|H]]; cbn [In] in *; auto. Qed.
Lemma shortest_le : forall s best y, In y (best :: s) -> (length (shortest best s) <= length y)%nat.
Proof. induction s as [|x r IH]; intros best y Hy; cbn [shortest].
  - destruct Hy as [<-|[]]. lia.
  - destruct (Nat.ltb_spec (length x) (length best)).
    + destruct Hy as [<-|[<-|Hy]]; [|apply IH; now left|apply IH; now right]. specialize (IH x x (or_introl eq_refl)). lia.
    + destruct Hy as [<-|[<-|Hy]]; [apply IH; now left| |apply IH; now right]. specialize (IH best best (or_introl eq_refl)). lia. Qed.

Lemma control_block_some i k v : sets_nonempty (si_map i) -> map_has (si_map i) k v ->
  exists p, control_block i k = Some {| cb_ver := snd k; cb_parity := si_parity i; cb_key := si_internal i; cb_branch := p |} /\
            map_has (si_map i) k p.
Proof. intros NE H. destruct (map_get_some _ _ _ H) as (s & G & Gin). unfold control_block. rewrite G.
  destruct s as [|x r]; [now destruct (proj1 (Forall_forall _ _) NE _ Gin)|].
  exists (shortest x r). split; [reflexivity|]. exists (x :: r). split; [assumption|apply shortest_in]. Qed.

Lemma K_base : TAPROOT_CONTROL_BASE_SIZE = 33%N. Proof. reflexivity. Qed.
Lemma K_node : TAPROOT_CONTROL_NODE_SIZE = 32%N. Proof. reflexivity. Qed.
Lemma K_count : TAPROOT_CONTROL_MAX_NODE_COUNT = 128%N. Proof. reflexivity. Qed.
Lemma K_base_nat : BASE_SIZE = 33%nat. Proof. reflexivity. Qed.
Lemma K_node_nat : NODE_SIZE = 32%nat. Proof. reflexivity. Qed.
Lemma K_maxd : MAXD = 128%nat. Proof. reflexivity. Qed.

Definition wf_ver (v : byte) : Prop := leafver_from_u8 (b2n v) = Ok v.
(* a leaf version survives the mask 254, so its bit 0 is clear and the parity can share its byte: masking the `or` with 1 and
   with 254 separates the two again (reading a byte back is masking with 255) *)
Lemma first_byte_ok (v : byte) (p : bool) : wf_ver v ->
  (N.land (b2n (n2b (N.lor (if p then 1 else 0) (b2n v)))) 1 =? 1)%N = p /\
  leafver_from_u8 (N.land (b2n (n2b (N.lor (if p then 1 else 0) (b2n v)))) TAPROOT_LEAF_MASK) = Ok v.
Proof. intros W.
  assert (Ev : N.land (b2n v) 254 = b2n v).
  { unfold wf_ver, leafver_from_u8 in W. destruct (N.eqb_spec (N.land (b2n v) TAPROOT_LEAF_MASK) (b2n v)); [assumption|discriminate]. }
  assert (E1 : N.land (b2n v) 1 = 0%N) by (rewrite <- Ev, <- N.land_assoc; apply N.land_0_r).
  rewrite b2n_n2b. change 256%N with (2 ^ 8)%N. rewrite <- N.land_ones, <- !N.land_assoc, !N.land_lor_distr_l.
  change (N.land (N.ones 8) 1) with 1%N. change (N.land (N.ones 8) TAPROOT_LEAF_MASK) with 254%N. rewrite Ev, E1.
  destruct p; split; try reflexivity; exact W. Qed.

Lemma concat_len k (l : list bytes) : Forall (fun x => length x = k) l -> length (concat l) = (k * length l)%nat.
Proof. induction 1 as [|x l Hx _ IH]; cbn [concat length]; [lia|]. rewrite app_length, IH, Hx. lia. Qed.
Lemma chunks_concat k (l : list bytes) : (0 < k)%nat -> Forall (fun x => length x = k) l ->
  forall fuel, (length l <= fuel)%nat -> chunks fuel k (concat l) = l.
Proof. intros K. induction 1 as [|x l Hx Hl IH]; intros fuel F.
  - destruct fuel; reflexivity.
  - destruct fuel as [|f]; [cbn in F; lia|]. cbn [concat chunks].
    destruct (x ++ concat l) eqn:E; [destruct x; [cbn in Hx; lia|discriminate]|]. rewrite <- E, <- Hx.
    rewrite firstn_app_len, skipn_app_len, Hx, IH by (cbn in F; lia). reflexivity. Qed.

Lemma cb_serialize_length c : length (cb_key c) = 32%nat -> Forall (fun x => length x = 32%nat) (cb_branch c) ->
  length (cb_serialize c) = (33 + 32 * length (cb_branch c))%nat.
Proof. intros K B. unfold cb_serialize. cbn [length]. rewrite app_length, (concat_len 32) by assumption. lia. Qed.
Lemma cb_size_ok c : length (cb_key c) = 32%nat -> Forall (fun x => length x = 32%nat) (cb_branch c) ->
  cb_size c = N.of_nat (length (cb_serialize c)).
Proof. intros K B. rewrite cb_serialize_length by assumption. unfold cb_size. rewrite K_base, K_node. lia. Qed.

Lemma branch_roundtrip (l : list bytes) : Forall (fun x => length x = 32%nat) l -> (length l <= MAXD)%nat -> branch_from_slice (concat l) = Ok l.
Proof. intros B D. rewrite K_maxd in D. unfold branch_from_slice. rewrite (concat_len 32), K_node, K_count, K_node_nat by assumption.
  destruct (N.eqb_spec (N.of_nat (32 * length l) mod 32) 0) as [_|Bad]; [|lia].
  destruct (N.ltb_spec (32 * 128) (N.of_nat (32 * length l))) as [Bad|_]; [lia|].
  cbn [negb]. now rewrite chunks_concat by (try assumption; lia). Qed.
Definition wf_cb (xonly_valid : bytes -> bool) (c : cblock) : Prop :=
  wf_ver (cb_ver c) /\ length (cb_key c) = 32%nat /\ xonly_valid (cb_key c) = true /\
  Forall (fun x => length x = 32%nat) (cb_branch c) /\ (length (cb_branch c) <= MAXD)%nat.
Lemma cb_roundtrip xonly_valid c : wf_cb xonly_valid c -> cb_from_slice xonly_valid (cb_serialize c) = Ok c.
Proof. intros (V & K & X & B & D). unfold cb_from_slice. rewrite (cb_serialize_length c K B), K_base, K_node.
  destruct (N.ltb_spec (N.of_nat (33 + 32 * length (cb_branch c))) 33) as [Bad|_]; [lia|].
  destruct (N.eqb_spec ((N.of_nat (33 + 32 * length (cb_branch c)) - 33) mod 32) 0) as [_|Bad]; [|lia]. cbn [orb negb].
  unfold cb_serialize. destruct (first_byte_ok (cb_ver c) (cb_parity c) V) as [-> ->].
  rewrite K_base_nat. change (33 - 1)%nat with 32%nat. rewrite <- K.
  rewrite firstn_app_len, skipn_app_len, X, branch_roundtrip by assumption. destruct c; reflexivity. Qed.

Lemma leaf_msg_inj v s v' s' : (N.of_nat (length s) < 2 ^ 64)%N -> (N.of_nat (length s') < 2 ^ 64)%N ->
  v :: vi_enc (N.of_nat (length s)) ++ s = v' :: vi_enc (N.of_nat (length s')) ++ s' -> v = v' /\ s = s'.
Proof. intros L L' E. inversion E as [[Ev Er]]. split; [reflexivity|].
  apply (enc_inj (c_varbytes (2 ^ 64)) (c_varbytes_lawful _) s s'); cbn [c_varbytes wf enc]; [| |exact Er];
    apply andb_true_iff; split; try apply N.leb_le; try apply N.ltb_lt; lia. Qed.
Lemma last_case {A} (l : list A) : l = [] \/ exists l' x, l = l' ++ [x].
Proof. destruct l as [|a l]; [now left|]. right. destruct (exists_last (l := a :: l)) as [l' [x E]]; [discriminate|eauto]. Qed.

(* the control block a spender presents for leaf l: its version and sibling path, the internal key, the output key's parity *)
Definition leaf_cb (P : bytes) (par : bool) (l : leafinfo) : cblock :=
  {| cb_ver := l_ver l; cb_parity := par; cb_key := P; cb_branch := l_branch l |}.

Section VERIFY.
Variables Hleaf Hbranch Htweak : bytes -> bytes.
Variable xonly_valid : bytes -> bool.
Variable scalar_ok : bytes -> bool.
Variable tweak : bytes -> bytes -> option (bytes * bool).
Variable tweak_check : bytes -> bytes -> bool -> bytes -> bool.
Notation node_of := (node_of Hleaf Hbranch).
Notation root := (root Hleaf Hbranch).
Notation leaf_paths := (leaf_paths Hleaf Hbranch).
Notation hidden_paths := (hidden_paths Hleaf Hbranch).
Notation build := (build Hleaf Hbranch Htweak scalar_ok tweak).
Notation verify := (verify Hleaf Hbranch Htweak scalar_ok tweak_check).
Notation tth := (tap_tweak_hash Htweak).
Notation step := (merkle_step Hbranch).
Notation lh := (leaf_hash Hleaf).

(* the walk of a tree of height <= 128 is only ever stopped by secp256k1 refusing the tweak (probability ~2^-128) *)
Theorem build_accepts t P : (height t <= MAXD)%nat -> build (dfs t 0) P = from_node_info Htweak scalar_ok tweak P (node_of t).
Proof. intros Hh. unfold Taproot.build. rewrite builder_sound by assumption. reflexivity. Qed.
Lemma from_node_info_inv n P i : from_node_info Htweak scalar_ok tweak P n = Val i ->
  si_internal i = P /\ si_root i = Some (n_hash n) /\ scalar_ok (tth P (Some (n_hash n))) = true /\
  tweak P (tth P (Some (n_hash n))) = Some (si_outkey i, si_parity i) /\ si_map i = build_map (n_leaves n).
Proof. unfold from_node_info, new_key_spend, tap_tweak. destruct (scalar_ok _) eqn:S; [|discriminate].
  destruct (tweak P _) as [[Q par]|] eqn:T; [|discriminate]. intros [= <-]. cbn. auto. Qed.

(* the builder, fed the depth-first walk of t, ends in exactly t's root, output key and leaves *)
Lemma build_inv t P i : (height t <= MAXD)%nat -> build (dfs t 0) P = Val i ->
  si_internal i = P /\ si_root i = Some (root t) /\ scalar_ok (tth P (Some (root t))) = true /\
  tweak P (tth P (Some (root t))) = Some (si_outkey i, si_parity i) /\
  (forall k v, map_has (si_map i) k v <-> exists l, In l (leaf_paths t) /\ k = (l_script l, l_ver l) /\ v = l_branch l).
Proof. intros Hh. rewrite build_accepts by assumption. intros F.
  apply from_node_info_inv in F as (I1 & I2 & I3 & I4 & I5). rewrite node_of_hash in *.
  repeat (split; [assumption|]). rewrite I5. intros k0 v0. rewrite build_map_has, node_of_leaves. reflexivity. Qed.

Definition Collision : Prop :=
  (exists a b, a <> b /\ Hleaf a = Hleaf b) \/ (exists a b, a <> b /\ Hbranch a = Hbranch b) \/
  (exists a b, Hleaf a = Hbranch b) \/ (exists a b, a <> b /\ Htweak a = Htweak b).
Lemma same_hash (H : bytes -> bytes) a b : H a = H b -> a = b \/ exists a b, a <> b /\ H a = H b.
Proof. intros E. destruct (bytes_eqb_spec a b); eauto. Qed.
(* (script, ver, path) is a leaf of t, or the path enters a hidden node of t *)
Definition in_tree (t : tree) (script : bytes) (ver : byte) (path : list bytes) : Prop :=
  In {| l_script := script; l_ver := ver; l_branch := path |} (leaf_paths t) \/
  exists h pre post, path = pre ++ post /\ In (h, post) (hidden_paths t) /\ fold_left step pre (lh ver script) = h.
Lemma in_tree_left a b s v p : in_tree a s v p -> in_tree (Node a b) s v (p ++ [root b]).
Proof. intros [H|(h & pre & post & -> & Hin & F)]; [left|right].
  - apply in_or_app. left. exact (in_map (snoc (root b)) _ _ H).
  - exists h, pre, (post ++ [root b]). rewrite app_assoc. repeat split; [|assumption].
    apply in_or_app. left. exact (in_map (fun x => (fst x, snd x ++ [root b])) _ _ Hin). Qed.
Lemma in_tree_right a b s v p : in_tree b s v p -> in_tree (Node a b) s v (p ++ [root a]).
Proof. intros [H|(h & pre & post & -> & Hin & F)]; [left|right].
  - apply in_or_app. right. exact (in_map (snoc (root a)) _ _ H).
  - exists h, pre, (post ++ [root a]). rewrite app_assoc. repeat split; [|assumption].
    apply in_or_app. right. exact (in_map (fun x => (fst x, snd x ++ [root a])) _ _ Hin). Qed.

Fixpoint wf_tree (t : tree) : Prop :=
  match t with
  | Leaf s v => wf_ver v /\ (N.of_nat (length s) < 2 ^ 64)%N
  | Hidden h => length h = 32%nat
  | Node a b => wf_tree a /\ wf_tree b
  end.
Section LEN.
Hypothesis Hleaf_len : forall m, length (Hleaf m) = 32%nat.
Hypothesis Hbranch_len : forall m, length (Hbranch m) = 32%nat.
Lemma root_len t : wf_tree t -> length (root t) = 32%nat.
Proof. destruct t; cbn [Taproot.root wf_tree]; intros W; [apply Hleaf_len|assumption|apply Hbranch_len]. Qed.
Lemma leaf_paths_wf : forall t l, In l (leaf_paths t) -> wf_tree t ->
  wf_ver (l_ver l) /\ (N.of_nat (length (l_script l)) < 2 ^ 64)%N /\ Forall (fun x => length x = 32%nat) (l_branch l).
Proof. refine (leaf_paths_ind Hleaf Hbranch _ _ _ _); cbn [wf_tree snoc l_ver l_script l_branch]; [intros s v [V S]; auto|..].
  all: intros a b l _ IH [Wa Wb]; destruct IH as (V & S & F); [assumption|]; split; [assumption|split; [assumption|]].
  all: apply Forall_app; split; [assumption|]; constructor; auto using root_len. Qed.

(* the control block of every leaf is well formed, has length 33 + 32*depth and survives serialization *)
Theorem cb_serialization t P par l : wf_tree t -> (height t <= MAXD)%nat -> length P = 32%nat -> xonly_valid P = true -> In l (leaf_paths t) ->
  let c := leaf_cb P par l in
  length (cb_serialize c) = (33 + 32 * length (l_branch l))%nat /\ cb_size c = N.of_nat (length (cb_serialize c)) /\
  cb_from_slice xonly_valid (cb_serialize c) = Ok c.
Proof. intros W Hh LP XP Hl c. subst c. destruct (leaf_paths_wf t l Hl W) as (V & _ & F).
  split; [apply cb_serialize_length; assumption|]. split; [apply cb_size_ok; assumption|].
  apply cb_roundtrip. repeat split; try assumption. exact (Nat.le_trans _ _ _ (leaf_path_depth Hleaf Hbranch t l Hl) Hh). Qed.
Lemma chain_len path : forall h, length h = 32%nat -> length (fold_left step path h) = 32%nat.
Proof. induction path as [|e r IH]; intros h L; cbn [fold_left]; [assumption|]. apply IH. apply Hbranch_len. Qed.
Lemma chain_in_tree : forall t s v path, wf_tree t -> (N.of_nat (length s) < 2 ^ 64)%N -> Forall (fun x => length x = 32%nat) path ->
  fold_left step path (lh v s) = root t -> in_tree t s v path \/ Collision.
Proof. induction t as [s' v'|h|a IHa b IHb]; intros s v path W Ls Fp E.
  - destruct W as [_ Ls']. destruct (last_case path) as [->|(p' & e & ->)].
    + cbn [fold_left Taproot.root] in E. apply (same_hash Hleaf) in E as [Em|C]; [|right; left; exact C].
      apply leaf_msg_inj in Em as [-> ->]; [|assumption|assumption]. left. left. cbn. now left.
    + rewrite fold_snoc in E. cbn [Taproot.root] in E. unfold merkle_step at 1, Taproot.leaf_hash in E. right. right. right. left. eauto.
  - left. right. exists h, path, []. rewrite app_nil_r. cbn. auto.
  - destruct W as [Wa Wb]. destruct (last_case path) as [->|(p' & e & ->)].
    + cbn [fold_left Taproot.root] in E. unfold Taproot.leaf_hash in E. right. right. right. left. eauto.
    + rewrite fold_snoc in E. cbn [Taproot.root] in E. unfold merkle_step at 1 in E.
      apply Forall_app in Fp as [Fp' Fe]. inversion Fe as [|? ? Le _]; subst.
      set (c := fold_left step p' (lh v s)) in *.
      assert (Lc : length c = 32%nat) by (apply chain_len, Hleaf_len).
      apply (same_hash Hbranch) in E as [Es|C]; [|right; right; left; exact C].
      apply sortpair_inj in Es; [|rewrite ?root_len by assumption; congruence..].
      destruct Es as [[Ec Ee]|[Ec Ee]]; subst e.
      * destruct (IHa s v p' Wa Ls Fp' Ec) as [H|H]; [left; now apply in_tree_left|now right].
      * destruct (IHb s v p' Wb Ls Fp' Ec) as [H|H]; [left; now apply in_tree_right|now right]. Qed.
End LEN.

Section TWEAK.
Hypothesis tweak_spec : forall P Q par t, tweak_check P Q par t = true <-> tweak P t = Some (Q, par).

Lemma verify_genuine t P i l : (height t <= MAXD)%nat -> build (dfs t 0) P = Val i -> In l (leaf_paths t) ->
  forall par Q, verify (leaf_cb P par l) Q (l_script l) =
                Val (tweak_check P Q par (tth P (Some (root t)))).
Proof. intros Hh B Hl par Q. apply build_inv in B as (_ & _ & S & _ & _); [|assumption].
  unfold Taproot.verify, cb_root, leaf_cb. cbn [cb_key cb_branch cb_ver cb_parity]. rewrite (leaf_path_root Hleaf Hbranch t l Hl), S. reflexivity. Qed.

Theorem cb_verifies t P i l : (height t <= MAXD)%nat -> build (dfs t 0) P = Val i -> In l (leaf_paths t) ->
  verify (leaf_cb P (si_parity i) l) (si_outkey i) (l_script l) = Val true.
Proof. intros Hh B Hl. rewrite (verify_genuine t P i l Hh B Hl). f_equal. apply tweak_spec. now apply build_inv in B. Qed.
Lemma verify_other t P i l par Q : (height t <= MAXD)%nat -> build (dfs t 0) P = Val i -> In l (leaf_paths t) ->
  (Q, par) <> (si_outkey i, si_parity i) ->
  verify (leaf_cb P par l) Q (l_script l) = Val false.
Proof. intros Hh B Hl N. rewrite (verify_genuine t P i l Hh B Hl). f_equal. apply build_inv in B as (_ & _ & _ & T & _); [|assumption].
  apply not_true_is_false. rewrite tweak_spec, T. congruence. Qed.

(* TaprootSpendInfo::control_block returns, for every leaf, the control block of a leaf with that script and version, and
   it verifies (that it is a shortest one is checked on the implementation by the harness, not proved here) *)
Theorem control_block_verifies t P i l : (height t <= MAXD)%nat -> build (dfs t 0) P = Val i -> In l (leaf_paths t) ->
  exists c l', control_block i (l_script l, l_ver l) = Some c /\ In l' (leaf_paths t) /\ l_script l' = l_script l /\ l_ver l' = l_ver l /\
               c = {| cb_ver := l_ver l; cb_parity := si_parity i; cb_key := P; cb_branch := l_branch l' |} /\
               verify c (si_outkey i) (l_script l) = Val true.
Proof. intros Hh B Hl. pose proof (build_inv t P i Hh B) as (I1 & _ & _ & _ & M).
  assert (NE : sets_nonempty (si_map i)).
  { rewrite build_accepts in B by assumption. apply from_node_info_inv in B as (_ & _ & _ & _ & ->). apply build_map_nonempty. }
  destruct (control_block_some i (l_script l, l_ver l) (l_branch l) NE) as (p & -> & Hs); [apply M; eauto|].
  apply M in Hs as (l' & Hl' & [= Es Ever] & ->). rewrite I1. cbn [snd].
  eexists _, l'. repeat split; auto. rewrite Es, Ever. apply (cb_verifies t P i l' Hh B Hl'). Qed.

(* a control block (with the tree's internal key) that verifies against the tree's output key names a leaf of the tree with the
   tree's parity — or exhibits a hash collision, or exhibits a second way of writing the output key, with the OTHER parity, as
   internal key + H_tweak(...)G (a preimage-type event for H_tweak that no collision argument can exclude).  The third premise
   is the group fact that P + tG = P + t'G with the same parity forces t = t' *)
Theorem cb_binding t P i c s :
  (forall m, length (Hleaf m) = 32%nat) -> (forall m, length (Hbranch m) = 32%nat) ->
  (forall P t t' r, tweak P t = Some r -> tweak P t' = Some r -> t = t') ->
  wf_tree t -> (height t <= MAXD)%nat -> build (dfs t 0) P = Val i ->
  cb_key c = P -> (N.of_nat (length s) < 2 ^ 64)%N -> Forall (fun x => length x = 32%nat) (cb_branch c) ->
  verify c (si_outkey i) s = Val true ->
  (cb_parity c = si_parity i /\ in_tree t s (cb_ver c) (cb_branch c)) \/ Collision \/
  (cb_parity c = negb (si_parity i) /\ tth P (Some (cb_root Hleaf Hbranch c s)) <> tth P (Some (root t)) /\
   tweak P (tth P (Some (cb_root Hleaf Hbranch c s))) = Some (si_outkey i, negb (si_parity i))).
Proof. intros HL HB tweak_inj W Hh B K Ls Fp V. apply build_inv in B as (_ & _ & _ & T & _); [|assumption].
  unfold Taproot.verify in V. rewrite K in V. destruct (scalar_ok _); [|discriminate]. inversion V as [C]. apply tweak_spec in C.
  destruct (Bool.bool_dec (cb_parity c) (si_parity i)) as [Ep|Np].
  - rewrite Ep in C. pose proof (tweak_inj _ _ _ _ C T) as Et. unfold tap_tweak_hash in Et.
    apply (same_hash Htweak) in Et as [Em|Cl]; [|right; left; right; right; right; exact Cl].
    apply app_inv_head in Em. unfold cb_root in Em. destruct (chain_in_tree HL HB t s (cb_ver c) (cb_branch c) W Ls Fp Em) as [H|H]; auto.
  - right. right. assert (Ep : cb_parity c = negb (si_parity i)) by (destruct (cb_parity c), (si_parity i); cbn; congruence).
    split; [assumption|]. rewrite Ep in C. split; [|assumption]. intros Et. rewrite Et, T in C. inversion C as [Eb]. destruct (si_parity i); discriminate. Qed.
End TWEAK.
End VERIFY.

Lemma dfs_first t : forall d, exists it rest, dfs t d = it :: rest /\ (N.of_nat d <= item_depth it)%N.
Proof. induction t as [s v|h|a IHa b _]; intros d; cbn [dfs].
  - eexists _, _. split; [reflexivity|cbn; lia]. - eexists _, _. split; [reflexivity|cbn; lia].
  - destruct (IHa (S d)) as (it & rest & -> & L). eexists _, _. split; [reflexivity|lia]. Qed.
(* the walk of a node starts strictly deeper than the node *)
Lemma dfs_node_deeper a b d r it r' : dfs (Node a b) d ++ r = it :: r' -> item_depth it <> N.of_nat d.
Proof. cbn [dfs]. destruct (dfs_first a (S d)) as (it' & rest & -> & L). intros [= -> _]. lia. Qed.
Lemma dfs_prefix_inj : forall t t' d r r', dfs t d ++ r = dfs t' d ++ r' -> t = t' /\ r = r'.
Proof. induction t as [s v|h|a IHa b IHb]; intros [s' v'|h'|a' b'] d r r' E;
    try (apply dfs_node_deeper in E; now destruct E); try (symmetry in E; apply dfs_node_deeper in E; now destruct E);
    cbn [dfs] in E; try discriminate.
  - injection E as -> -> ->. auto.
  - injection E as -> ->. auto.
  - rewrite <- !app_assoc in E. apply IHa in E as [-> E]. apply IHb in E as [-> E]. auto. Qed.
Lemma dfs_inj t t' d : dfs t d = dfs t' d -> t = t'.
Proof. intros E. apply (dfs_prefix_inj t t' d [] []). now rewrite !app_nil_r. Qed.

Section COMPLETE.
Variables Hleaf Hbranch : bytes -> bytes.
Notation combine := (combine Hbranch).
Notation node_of := (node_of Hleaf Hbranch).
Notation insert := (insert Hbranch).
Notation ins := (ins Hbranch).
Notation run := (run Hleaf Hbranch).

(* the frontier of finished left subtrees the branch vector stands for (deepest first, like the vector) *)
Definition frontier := list (option tree).
Definition to_br (ts : frontier) : br := map (option_map node_of) ts.
Fixpoint flat (ts : frontier) : list item :=
  match ts with [] => [] | o :: r => flat r ++ match o with Some t => dfs t (length r) | None => [] end end.
Fixpoint fits (ts : frontier) : Prop :=
  match ts with [] => True | o :: r => match o with Some t => (length r + height t <= MAXD)%nat | None => True end /\ fits r end.
Lemma flat_nones k ts : flat (repeat None k ++ ts) = flat ts.
Proof. induction k; cbn [repeat app flat]; [reflexivity|]. now rewrite app_nil_r. Qed.
Lemma fits_nones k ts : fits ts -> fits (repeat None k ++ ts).
Proof. induction k; cbn [repeat app fits]; auto. Qed.
Lemma to_br_length ts : length (to_br ts) = length ts. Proof. apply map_length. Qed.

(* a subtree placed at depth d, above a frontier that ends higher up *)
Lemma place_rep ts t d : fits ts -> (length ts <= d)%nat -> (d + height t <= MAXD)%nat ->
  exists ts', place (node_of t) d (to_br ts) = to_br ts' /\ fits ts' /\ flat ts' = flat ts ++ dfs t d /\ (exists t0 r0, ts' = Some t0 :: r0).
Proof. intros F L Hh. exists (Some t :: repeat None (d - length ts) ++ ts).
  split; [unfold place, to_br; rewrite map_length; cbn [map option_map]; now rewrite map_app, map_repeat|].
  cbn [fits flat]. rewrite pad_length, flat_nones by assumption.
  split; [split; [assumption|now apply fits_nones]|]. split; [reflexivity|eauto]. Qed.

(* an insertion that succeeds keeps the vector a frontier and appends the subtree's walk to what the frontier stands for *)
Lemma ins_rep : forall ts t d b', fits ts -> (length ts <= d + 1)%nat -> (d + height t <= MAXD)%nat ->
  ins (node_of t) d (to_br ts) = Ok b' ->
  exists ts', b' = to_br ts' /\ fits ts' /\ flat ts' = flat ts ++ dfs t d /\ (exists t0 r0, ts' = Some t0 :: r0).
Proof. induction ts as [|o r IH]; intros t d b' F L Hh E.
  - rewrite ins_short in E by (cbn; lia). injection E as <-. apply (place_rep []); [assumption|cbn; lia|assumption].
  - destruct (Nat.eq_dec (length (o :: r)) (d + 1)) as [Ed|Ne].
    2: { rewrite ins_short in E by (rewrite to_br_length; lia). injection E as <-. apply (place_rep (o :: r)); [assumption|lia|assumption]. }
    destruct F as [Fo Fr]. cbn [length] in Ed.
    destruct o as [tc|]; cbn [to_br map option_map Taproot.ins length] in E; rewrite map_length, Ed, Nat.eqb_refl in E.
    + (* the last finished subtree sits at this depth: the two make a node one level up *)
      destruct d as [|d']; [discriminate|]. rewrite combine_node_of in E by (cbn [height]; lia).
      apply IH in E as (ts' & -> & F' & Fl & Hd); [|assumption|lia|cbn [height]; lia].
      exists ts'. rewrite Fl. cbn [flat dfs]. replace (length r) with (S d') by lia. rewrite <- app_assoc. auto.
    + injection E as <-. exists (Some t :: r). cbn [fits flat]. rewrite app_nil_r. replace (length r) with d by lia.
      split; [reflexivity|]. split; [tauto|]. split; eauto. Qed.

Lemma insert_rep ts it b' : fits ts -> insert (item_node Hleaf it) (item_depth it) (to_br ts) = Ok b' ->
  exists ts', b' = to_br ts' /\ fits ts' /\ flat ts' = flat ts ++ [it] /\ (exists t0 r0, ts' = Some t0 :: r0).
Proof. intros F E. unfold Taproot.insert in E.
  destruct (N.ltb_spec TAPROOT_CONTROL_MAX_NODE_COUNT (item_depth it)) as [|D]; [discriminate|].
  rewrite to_br_length in E. destruct (Nat.ltb_spec (N.to_nat (item_depth it) + 1) (length ts)) as [|L]; [discriminate|].
  set (t := match it with ILeaf _ s v => Leaf s v | IHidden _ h => Hidden h end).
  assert (En : item_node Hleaf it = node_of t) by (destruct it; reflexivity).
  assert (Ei : dfs t (N.to_nat (item_depth it)) = [it]) by (destruct it; cbn [dfs t item_depth]; rewrite Nnat.N2Nat.id; reflexivity).
  rewrite En in E. apply ins_rep in E; [|assumption|lia|unfold MAXD; destruct it; cbn [height t]; lia].
  rewrite Ei in E. exact E. Qed.

(* through the API the vector is always a frontier whose deepest entry, if any, is a finished subtree *)
Lemma run_rep : forall items ts b', fits ts -> (ts = [] \/ exists t0 r0, ts = Some t0 :: r0) -> run items (to_br ts) = Ok b' ->
  exists ts', b' = to_br ts' /\ fits ts' /\ flat ts' = flat ts ++ items /\ (ts' = [] \/ exists t0 r0, ts' = Some t0 :: r0).
Proof. induction items as [|it r IH]; intros ts b' F Hd E; cbn [Taproot.run] in E.
  - injection E as <-. exists ts. rewrite app_nil_r. auto.
  - destruct (insert _ _ (to_br ts)) as [b1|] eqn:I; [|discriminate].
    destruct (insert_rep ts it b1 F I) as (ts1 & -> & F1 & Fl1 & Hd1).
    destruct (IH ts1 b' F1 (or_intror Hd1) E) as (ts' & -> & F' & Fl' & Hd'). exists ts'. rewrite Fl', Fl1, <- app_assoc. auto. Qed.

(* only depth-first walks of trees of height <= 128 leave the builder complete, and the walk determines the tree *)
Theorem builder_complete items b : run items [] = Ok b -> is_complete b = true ->
  exists t, (height t <= MAXD)%nat /\ items = dfs t 0 /\ b = [Some (node_of t)] /\ forall t', items = dfs t' 0 -> t' = t.
Proof. intros R C. destruct (run_rep items [] b I (or_introl eq_refl) R) as (ts & -> & F & Fl & _). cbn [flat app] in Fl.
  destruct ts as [|[t|] [|o r]]; cbn [to_br map option_map is_complete] in C; try discriminate.
  exists t. cbn [fits length Nat.add] in F. split; [tauto|]. cbn [flat length] in Fl. split; [now rewrite <- Fl|]. split; [reflexivity|].
  intros t' E. rewrite <- Fl in E. cbn [app] in E. symmetry. now apply dfs_inj in E. Qed.
(* the builder never reaches a state whose last entry is None through its API, so finalize's `expect` cannot fire *)
Theorem run_head_some items b : run items [] = Ok b -> b = [] \/ exists n r, b = Some n :: r.
Proof. intros R. destruct (run_rep items [] b I (or_introl eq_refl) R) as (ts & -> & _ & _ & [->|(t0 & r0 & ->)]); [now left|right; cbn; eauto]. Qed.
End COMPLETE.

Section REFUSE.
Variables Hleaf Hbranch Htweak : bytes -> bytes.
Variable scalar_ok : bytes -> bool.
Variable tweak : bytes -> bytes -> option (bytes * bool).
(* anything that is not the depth-first walk of a tree of height <= 128 is refused with a TaprootBuilderError: by an add_* call
   or by finalize; it is never accepted and finalize's `expect` cannot fire on a state built through the API *)
Theorem build_refuses items P : (forall t, (height t <= MAXD)%nat -> items <> dfs t 0) ->
  exists e, build Hleaf Hbranch Htweak scalar_ok tweak items P = Fail e.
Proof. intros N. unfold build. destruct (run Hleaf Hbranch items []) as [b|e] eqn:R; [|eauto].
  destruct (run_head_some Hleaf Hbranch items b R) as [->|(n & r & ->)]; [cbn; eauto|].
  destruct r as [|y r].
  - destruct (builder_complete Hleaf Hbranch items _ R eq_refl) as (t & Hh & E & _). exfalso. exact (N t Hh E).
  - cbn. eauto. Qed.
End REFUSE.

(* the tweaked key pair holds the secret of the output key *)
Section KEYPAIR.
Variable Htweak : bytes -> bytes.
Variable scalar_ok : bytes -> bool.
Variable pt : Type.
Variable padd : pt -> pt -> pt.
Variable pneg : pt -> pt.
Variable mulG : Z -> pt.
Variable xonly_of : pt -> option (bytes * bool).
Variable lift_x : bytes -> option pt.
Hypothesis mulG_add : forall a b, mulG (a + b) = padd (mulG a) (mulG b).
Hypothesis mulG_neg : forall a, mulG (- a) = pneg (mulG a).
Hypothesis lift_even : forall s x par, xonly_of (mulG s) = Some (x, par) -> lift_x x = Some (if par then pneg (mulG s) else mulG s).
Theorem keypair_tweak_is_secret sk root sk' :
  keypair_tap_tweak Htweak scalar_ok pt mulG xonly_of sk root = Val sk' ->
  exists P par0 Q par, kp_xonly pt mulG xonly_of sk = Some (P, par0) /\
    tap_tweak Htweak scalar_ok (xonly_tweak pt padd mulG xonly_of lift_x) P root = Val (Q, par) /\
    kp_xonly pt mulG xonly_of sk' = Some (Q, par).
Proof. unfold keypair_tap_tweak, kp_add_xonly_tweak, tap_tweak. destruct (kp_xonly pt mulG xonly_of sk) as [[P par0]|] eqn:K; [|discriminate].
  destruct (scalar_ok _) eqn:S; [|discriminate].
  destruct (xonly_of (mulG ((if par0 then - sk else sk) + scalar_of (tap_tweak_hash Htweak P root)))) as [[Q par]|] eqn:X; [|discriminate].
  intros E; inversion E; subst sk'. exists P, par0, Q, par. split; [reflexivity|]. unfold kp_xonly in *. rewrite X. split; [|reflexivity].
  cbv zeta. rewrite S. unfold xonly_tweak. rewrite (lift_even _ _ _ K). rewrite mulG_add in X. destruct par0; [rewrite mulG_neg in X|]; rewrite X; reflexivity. Qed.
End KEYPAIR.

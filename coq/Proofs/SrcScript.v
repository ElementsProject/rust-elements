(* The script template predicates as TRANSLATED from src/script.rs on every run (Gen/SrcScript.v, translator/rust2coq.py) are the hand-written
   model predicates of Model/Script.v, and their generated no-panic conditions (every `self.0[i]` in bounds, the one usize subtraction not below
   zero; && and || evaluated left to right with short-circuit, as Rust does) hold for EVERY script. *)
From Coq Require Import List Arith NArith Bool Lia ZifyBool ZifyNat ZifyN.
From Coq.Strings Require Import Byte.
From EV Require Import Base.Bytes Gen.Tables Model.Script Gen.SrcScript.
Import ListNotations.
Open Scope N_scope.

(* the translated predicates are the model's, term for term, except that a length test reads `blen s =? n` where the model has `len_is s n` *)
Lemma blen_is s n : (blen s =? n) = len_is s (N.to_nat n).
Proof. unfold blen, len_is. lia. Qed.

Lemma src_is_p2sh s : src_Script_is_p2sh s = is_p2sh s.
Proof. unfold src_Script_is_p2sh. rewrite blen_is. reflexivity. Qed.
Lemma src_is_p2pkh s : src_Script_is_p2pkh s = is_p2pkh s.
Proof. unfold src_Script_is_p2pkh. rewrite blen_is. reflexivity. Qed.
Lemma src_is_p2pk s : src_Script_is_p2pk s = is_p2pk s.
Proof. unfold src_Script_is_p2pk. rewrite !blen_is. reflexivity. Qed.
Lemma src_is_witness_program s : src_Script_is_witness_program s = is_witness_program s.
Proof. reflexivity. Qed.
Lemma src_is_v0_p2wsh s : src_Script_is_v0_p2wsh s = is_v0_p2wsh s.
Proof. unfold src_Script_is_v0_p2wsh. rewrite blen_is. reflexivity. Qed.
Lemma src_is_v1_p2tr s : src_Script_is_v1_p2tr s = is_v1_p2tr s.
Proof. unfold src_Script_is_v1_p2tr. rewrite blen_is. reflexivity. Qed.
Lemma src_is_v1plus_p2witprog s : src_Script_is_v1plus_p2witprog s = is_v1plus_p2witprog s.
Proof. reflexivity. Qed.
Lemma src_is_v0_p2wpkh s : src_Script_is_v0_p2wpkh s = is_v0_p2wpkh s.
Proof. unfold src_Script_is_v0_p2wpkh. rewrite blen_is. reflexivity. Qed.
Lemma src_is_op_return s : src_Script_is_op_return s = is_op_return s.
Proof. reflexivity. Qed.
Lemma src_is_provably_unspendable s : src_Script_is_provably_unspendable s = is_provably_unspendable s.
Proof. reflexivity. Qed.

(* ---- no panic: the generated safety condition of every predicate is true for every script.  It is a boolean formula over comparisons
   of the length (and byte tests, which stay atoms): `if a then b else true` is `implb a b`, `if a then true else b` is `a || b`, and lia decides it *)
Lemma if_implb (a b : bool) : (if a then b else true) = implb a b. Proof. destruct a; reflexivity. Qed.
Lemma if_orb (a b : bool) : (if a then true else b) = a || b. Proof. destruct a; reflexivity. Qed.
Ltac safe := cbv zeta; rewrite ?if_implb, ?if_orb; lia.

Lemma src_is_p2sh_safe s : src_Script_is_p2sh_safe s = true.                     Proof. unfold src_Script_is_p2sh_safe. safe. Qed.
Lemma src_is_p2pkh_safe s : src_Script_is_p2pkh_safe s = true.                   Proof. unfold src_Script_is_p2pkh_safe. safe. Qed.
Lemma src_is_p2pk_safe s : src_Script_is_p2pk_safe s = true.                     Proof. unfold src_Script_is_p2pk_safe. safe. Qed.
Lemma src_is_witness_program_safe s : src_Script_is_witness_program_safe s = true.
Proof. unfold src_Script_is_witness_program_safe. safe. Qed.
Lemma src_is_v0_p2wsh_safe s : src_Script_is_v0_p2wsh_safe s = true.             Proof. unfold src_Script_is_v0_p2wsh_safe. safe. Qed.
Lemma src_is_v1_p2tr_safe s : src_Script_is_v1_p2tr_safe s = true.               Proof. unfold src_Script_is_v1_p2tr_safe. safe. Qed.
Lemma src_is_v1plus_p2witprog_safe s : src_Script_is_v1plus_p2witprog_safe s = true.
Proof. unfold src_Script_is_v1plus_p2witprog_safe. safe. Qed.
Lemma src_is_v0_p2wpkh_safe s : src_Script_is_v0_p2wpkh_safe s = true.           Proof. unfold src_Script_is_v0_p2wpkh_safe. safe. Qed.
Lemma src_is_op_return_safe s : src_Script_is_op_return_safe s = true.           Proof. destruct s; reflexivity. Qed.
Lemma src_is_provably_unspendable_safe s : src_Script_is_provably_unspendable_safe s = true. Proof. destruct s; reflexivity. Qed.

(* Lawfulness of the codec combinators of Model/SerdePset.v and of the PSET codecs assembled from the regenerated field tables. *)
From Coq Require Import List NArith ZArith Bool Lia ZifyN ZifyBool ZifyNat.
From Coq.Strings Require Import Byte.
From EV Require Import Base.Bytes Base.Codec Gen.Tables Model.Tx Model.Block Model.Text Model.Serde Model.SerdePset
  Proofs.Tx Proofs.Text Proofs.Serde Proofs.SerdeBridge.
Import ListNotations.
Ltac Zify.zify_post_hook ::= Z.div_mod_to_equations.
Open Scope N_scope.
Local Opaque tweak_ok rangeproof_ok surjproof_ok.

Definition SLawful (c : scodec) : Prop := forall hr x, s_wf c x = true -> s_de c hr (view hr (s_ser c hr x)) = Ok x.
Definition SNonNull (c : scodec) : Prop := forall hr x, s_wf c x = true -> view hr (s_ser c hr x) <> VUnit.

Lemma view_bytes_cbor b : view false (VBytes b) = VBytes b. Proof. reflexivity. Qed.

Lemma sc_bytes_lawful ser de wf : (forall hr b, wf b = true -> de hr (view hr (ser hr b)) = Ok b) -> SLawful (sc_bytes ser de wf).
Proof. intros H hr x W. destruct x; cbn in W; try discriminate. cbn. now rewrite H. Qed.
Lemma sc_bytes_nonnull ser de wf : (forall hr b, wf b = true -> view hr (ser hr b) <> VUnit) -> SNonNull (sc_bytes ser de wf).
Proof. intros H hr x W. destruct x; cbn in W; try discriminate. cbn. now apply H. Qed.
Lemma sc_num_lawful ser de wf : (forall hr n, wf n = true -> de hr (view hr (ser hr n)) = Ok n) -> SLawful (sc_num ser de wf).
Proof. intros H hr x W. destruct x; cbn in W; try discriminate. cbn. now rewrite H. Qed.
Lemma sc_num_nonnull ser de wf : (forall hr n, wf n = true -> view hr (ser hr n) <> VUnit) -> SNonNull (sc_num ser de wf).
Proof. intros H hr x W. destruct x; cbn in W; try discriminate. cbn. now apply H. Qed.

Ltac writes_no_null := intros hr ? _; destruct hr; cbn; discriminate.
Lemma uint_lawful bound : SLawful (sc_uint bound).
Proof. apply sc_num_lawful. intros hr n W. apply rt_u. now apply N.ltb_lt. Qed.
Lemma uint_nonnull bound : SNonNull (sc_uint bound). Proof. apply sc_num_nonnull. writes_no_null. Qed.
Lemma vecu8_lawful : SLawful sc_vecu8. Proof. apply sc_bytes_lawful. intros. apply rt_vecu8. Qed.
Lemma vecu8_nonnull : SNonNull sc_vecu8. Proof. apply sc_bytes_nonnull. writes_no_null. Qed.
Lemma hexbytes_lawful : SLawful sc_hexbytes.
Proof. apply sc_bytes_lawful. intros hr b _. destruct hr; [cbn; apply hex_decode_var_ok|apply rt_vecu8]. Qed.
Lemma hexbytes_nonnull : SNonNull sc_hexbytes. Proof. apply sc_bytes_nonnull. writes_no_null. Qed.
Lemma hexstr_lawful : SLawful sc_hexstr. Proof. apply sc_bytes_lawful. intros hr b _. views. apply hex_decode_var_ok. Qed.
Lemma hexstr_or_bytes_lawful : SLawful sc_hexstr_or_bytes. Proof. apply sc_bytes_lawful. intros hr b _. views. apply hex_decode_var_ok. Qed.
Lemma array32_lawful : SLawful sc_array32. Proof. apply sc_bytes_lawful. intros hr b W. apply rt_array. now apply len_is_eq. Qed.
Lemma array32_nonnull : SNonNull sc_array32. Proof. apply sc_bytes_nonnull. writes_no_null. Qed.
Lemma script_lawful : SLawful sc_script. Proof. apply sc_bytes_lawful. intros. apply rt_script. Qed.
Lemma script_nonnull : SNonNull sc_script. Proof. apply sc_bytes_nonnull. writes_no_null. Qed.
Lemma hash_lawful len r : SLawful (sc_hash len r r).
Proof. apply sc_bytes_lawful. intros hr b W. apply rt_hash. now apply N.eqb_eq. Qed.
Lemma hash_nonnull len db pb : SNonNull (sc_hash len db pb). Proof. apply sc_bytes_nonnull. writes_no_null. Qed.
Lemma midstate_lawful : SLawful sc_midstate. Proof. apply sc_bytes_lawful. intros hr b W. apply rt_midstate. now apply len_is_eq. Qed.
Lemma midstate_nonnull : SNonNull sc_midstate. Proof. apply sc_bytes_nonnull. writes_no_null. Qed.
Lemma tweak_lawful : SLawful sc_tweak.
Proof. apply sc_bytes_lawful. intros hr b W. apply andb_prop in W as [L T]. apply rt_tweak; [now apply len_is_eq|exact T]. Qed.
Lemma tweak_nonnull : SNonNull sc_tweak. Proof. apply sc_bytes_nonnull. writes_no_null. Qed.
Lemma sequence_lawful : SLawful sc_sequence.
Proof. apply sc_num_lawful. intros hr n W. apply rt_sequence. now apply N.ltb_lt. Qed.
Lemma sequence_nonnull : SNonNull sc_sequence. Proof. apply sc_num_nonnull. writes_no_null. Qed.
Lemma height_lawful : SLawful sc_height.
Proof. apply sc_num_lawful. intros hr n W. views. apply de_height_ok. now apply N.ltb_lt. Qed.
Lemma height_nonnull : SNonNull sc_height. Proof. apply sc_num_nonnull. writes_no_null. Qed.
Lemma time_lawful : SLawful sc_time.
Proof. apply sc_num_lawful. intros hr n W. views. apply andb_prop in W as [W1 W2]. apply de_time_ok; [now apply N.leb_le|now apply N.ltb_lt]. Qed.
Lemma time_nonnull : SNonNull sc_time. Proof. apply sc_num_nonnull. writes_no_null. Qed.
Lemma locktime_lawful : SLawful sc_locktime.
Proof. apply sc_num_lawful. intros hr n W. apply N.ltb_lt in W. rewrite rt_locktime by (now apply locktime_from_consensus_wf). cbn [rbind].
  now rewrite locktime_consensus_rt. Qed.
Lemma locktime_nonnull : SNonNull sc_locktime.
Proof. apply sc_num_nonnull. intros hr n _. unfold ser_locktime, locktime_from_consensus. destruct (n <? C20_LOCK_TIME_THRESHOLD); destruct hr; cbn; discriminate. Qed.
Lemma psbt_sighash_lawful : SLawful sc_psbt_sighash.
Proof. apply sc_num_lawful. intros hr n W. apply rt_string. apply parse_print_psbt. now apply N.ltb_lt. Qed.
Lemma psbt_sighash_nonnull : SNonNull sc_psbt_sighash. Proof. apply sc_num_nonnull. writes_no_null. Qed.
Lemma schnorr_sighash_lawful : SLawful sc_schnorr_sighash.
Proof. apply sc_num_lawful. intros hr n W. apply rt_string. now apply parse_print_schnorr. Qed.
Lemma leafver_lawful : SLawful sc_leafver.
Proof. apply sc_num_lawful. intros hr n W. views. apply de_u_check; [|exact W]. unfold leafver_ok in W. lia. Qed.
Lemma leafver_nonnull : SNonNull sc_leafver. Proof. apply sc_num_nonnull. writes_no_null. Qed.
Lemma parity_lawful : SLawful sc_parity.
Proof. apply sc_num_lawful. intros hr n W. views. apply de_u_check; [lia|exact W]. Qed.

Lemma option_lawful c : SLawful c -> SNonNull c -> SLawful (sc_option c).
Proof. intros L NN hr x W. destruct x as [| | |[y|]| |]; cbn in W; try discriminate; cbn [sc_option s_ser s_de]; views; [|reflexivity].
  specialize (NN hr y W). rewrite (L hr y W). destruct (view hr (s_ser c hr y)); try reflexivity. congruence. Qed.
Lemma de_list_map_ok c hr l : SLawful c -> forallb (s_wf c) l = true -> de_list (s_de c hr) (map (view hr) (map (s_ser c hr) l)) = Ok l.
Proof. intros L. apply (de_list_ok (s_de c hr) (s_ser c hr) (view hr) (s_wf c)). intros x W. now apply L. Qed.
Lemma vec_lawful c : SLawful c -> SLawful (sc_vec c).
Proof. intros L hr x W. destruct x; cbn in W; try discriminate. cbn [sc_vec s_ser s_de]. views. now rewrite de_list_map_ok. Qed.
Lemma vec_nonnull c : SNonNull (sc_vec c). Proof. intros hr x W. destruct x; cbn in W; try discriminate. cbn. views. discriminate. Qed.
Lemma newtype_lawful n c : SLawful c -> SLawful (sc_newtype n c).
Proof. intros L hr x W. cbn [sc_newtype s_ser s_de]. views. now apply L. Qed.
Lemma newtype_nonnull n c : SNonNull c -> SNonNull (sc_newtype n c).
Proof. intros L hr x W. cbn [sc_newtype s_ser]. views. now apply L. Qed.

Lemma de_tuple_ok cs hr : Forall SLawful cs -> forall xs, wf_tuple cs xs = true -> de_tuple cs hr (map (view hr) (ser_tuple cs hr xs)) = Ok xs.
Proof. induction 1 as [|c cs Lc _ IH]; intros [|x xs] W; cbn in W; try discriminate; [reflexivity|].
  apply andb_prop in W as [Wx Wr]. cbn [ser_tuple map de_tuple]. rewrite (Lc hr x Wx). cbn [rbind]. now rewrite (IH xs Wr). Qed.
Lemma tuple_lawful cs : Forall SLawful cs -> SLawful (sc_tuple cs).
Proof. intros L hr x W. destruct x; cbn in W; try discriminate. cbn [sc_tuple s_ser s_de]. views. now rewrite de_tuple_ok. Qed.
Lemma tuple_nonnull cs : SNonNull (sc_tuple cs). Proof. intros hr x W. destruct x; cbn in W; try discriminate. cbn. views. discriminate. Qed.

Lemma de_entries_ok kc vc hr : SLawful kc -> SLawful vc -> forall l, forallb (is_pair kc vc) l = true ->
  de_entries kc vc hr (map (fun kv => (view hr (fst kv), view hr (snd kv))) (ser_entries kc vc hr l)) = Ok l.
Proof. intros Lk Lv. induction l as [|e l IH]; [reflexivity|]. cbn [forallb]. intros W. apply andb_prop in W as [We Wl].
  destruct e as [| | | | |[|k [|v [|w r]]]]; cbn in We; try discriminate. apply andb_prop in We as [Wk Wv].
  cbn [ser_entries map pair_of fst snd de_entries]. rewrite (Lk hr k Wk). cbn [rbind]. rewrite (Lv hr v Wv). cbn [rbind].
  unfold ser_entries in IH. now rewrite (IH Wl). Qed.
Lemma map_lawful kc vc : SLawful kc -> SLawful vc -> SLawful (sc_map kc vc).
Proof. intros Lk Lv hr x W. destruct x; cbn in W; try discriminate. cbn [sc_map s_ser s_de]. rewrite view_map. now rewrite de_entries_ok. Qed.
Lemma map_nonnull kc vc : SNonNull (sc_map kc vc). Proof. intros hr x W. destruct x; cbn in W; try discriminate. cbn [sc_map s_ser]. rewrite view_map. discriminate. Qed.
Lemma is_pair_tuple kc vc l : forallb (is_pair kc vc) l = true -> forallb (s_wf (sc_tuple [kc; vc])) l = true.
Proof. apply forallb_impl. intros e. destruct e as [| | | | |[|k [|v [|w r]]]]; cbn; try discriminate. now rewrite andb_true_r. Qed.
Lemma is_pair_weaken kc vc vc' l : (forall v, s_wf vc v = true -> s_wf vc' v = true) -> forallb (is_pair kc vc) l = true -> forallb (is_pair kc vc') l = true.
Proof. intros H. apply forallb_impl. intros e. destruct e as [| | | | |[|k [|v [|w r]]]]; cbn; try discriminate.
  intros W. apply andb_prop in W as [Wk Wv]. now rewrite Wk, (H v Wv). Qed.
(* the serde_utils helpers pick one of two codecs by is_human_readable; the values are those of the second *)
Definition by_view (c1 c2 : scodec) : scodec :=
  {| s_ser := fun hr x => if hr then s_ser c1 hr x else s_ser c2 hr x; s_de := fun hr v => if hr then s_de c1 hr v else s_de c2 hr v;
     s_wf := s_wf c2; s_missing := None |}.
Lemma by_view_lawful c1 c2 : SLawful c1 -> SLawful c2 -> (forall x, s_wf c2 x = true -> s_wf c1 x = true) -> SLawful (by_view c1 c2).
Proof. intros L1 L2 W hr x Wx. destruct hr; [apply L1, W, Wx|apply L2, Wx]. Qed.
Lemma pair_tuple_lawful kc vc : SLawful kc -> SLawful vc -> SLawful (sc_vec (sc_tuple [kc; vc])).
Proof. intros Lk Lv. apply vec_lawful, tuple_lawful. now repeat constructor. Qed.
Lemma map_as_seq_lawful kc vc : SLawful kc -> SLawful vc -> SLawful (sc_map_as_seq kc vc).
Proof. intros Lk Lv. apply (by_view_lawful (sc_vec (sc_tuple [kc; vc])) (sc_map kc vc)); [now apply pair_tuple_lawful|now apply map_lawful|].
  intros [] W; try discriminate W. now apply is_pair_tuple. Qed.
Lemma map_byte_values_lawful kc : SLawful kc -> SLawful (sc_map_byte_values kc).
Proof. intros Lk. apply (by_view_lawful (sc_map kc sc_hexstr) (sc_map kc sc_vecu8)); [now apply map_lawful, hexstr_lawful|now apply map_lawful, vecu8_lawful|].
  intros [] W; try discriminate W. now apply (is_pair_weaken kc sc_vecu8). Qed.
Lemma map_as_seq_byte_values_lawful kc : SLawful kc -> SLawful (sc_map_as_seq_byte_values kc).
Proof. intros Lk. apply (by_view_lawful (sc_vec (sc_tuple [kc; sc_hexstr_or_bytes])) (sc_map kc sc_vecu8));
    [now apply pair_tuple_lawful, hexstr_or_bytes_lawful|now apply map_lawful, vecu8_lawful|].
  intros [] W; try discriminate W. apply is_pair_tuple. now apply (is_pair_weaken kc sc_vecu8). Qed.
Lemma map_variants_nonnull kc vc : SNonNull (sc_map_as_seq kc vc) /\ SNonNull (sc_map_byte_values kc) /\ SNonNull (sc_map_as_seq_byte_values kc).
Proof. repeat split; intros hr x W; destruct x; cbn in W; try discriminate; destruct hr; cbn; discriminate. Qed.

Definition viewed (hr : bool) (l : list (bytes * sval)) : list (bytes * sval) := map (fun kv => (fst kv, view hr (snd kv))) l.
Lemma str_keys_viewed hr l : str_keys (map (fun kv => (VStr (fst kv), view hr (snd kv))) l) = Ok (viewed hr l).
Proof. induction l as [|[k v] l IH]; [reflexivity|]. cbn [map str_keys fst snd]. rewrite IH. reflexivity. Qed.
Lemma ser_fields_names F hr : forall xs, wf_fields F xs = true -> map fst (viewed hr (ser_fields F hr xs)) = map fst F.
Proof. induction F as [|[n c] F IH]; intros [|x xs] W; cbn in W; try discriminate; [reflexivity|]. apply andb_prop in W as [_ W].
  cbn [ser_fields viewed map fst]. f_equal. now apply IH. Qed.

Lemma existsb_eqb_In n l : existsb (bytes_eqb n) l = true <-> In n l.
Proof. rewrite existsb_exists. split; [intros (m & H & E); now destruct (bytes_eqb_spec n m); subst|]. intros H. exists n. now rewrite bytes_eqb_refl. Qed.
Lemma nodup_names_NoDup l : nodup_names l = true -> NoDup l.
Proof. induction l as [|n l IH]; [constructor|]. cbn [nodup_names]. intros H. apply andb_prop in H as [Hn Hl]. constructor; [|now apply IH].
  rewrite <- existsb_eqb_In. now destruct (existsb _ l). Qed.

Lemma lookup_all_app k a b : lookup_all k (a ++ b) = lookup_all k a ++ lookup_all k b.
Proof. unfold lookup_all. now rewrite filter_app, map_app. Qed.
Lemma lookup_all_cons_eq k v l : lookup_all k ((k, v) :: l) = v :: lookup_all k l.
Proof. unfold lookup_all. cbn [filter fst]. rewrite bytes_eqb_refl. reflexivity. Qed.
Lemma lookup_all_absent k l : ~ In k (map fst l) -> lookup_all k l = [].
Proof. unfold lookup_all. induction l as [|[k' v] l IH]; [reflexivity|]. cbn [map fst filter In]. intros H.
  destruct (bytes_eqb_spec k' k); [tauto|]. apply IH. tauto. Qed.

(* the visitor looks every field up in the whole map, so the induction carries the entries already passed, `pre` *)
Lemma de_fields_ok hr : forall F, NoDup (map fst F) -> Forall SLawful (map snd F) ->
  forall xs pre, wf_fields F xs = true -> (forall n, In n (map fst F) -> ~ In n (map fst pre)) ->
  de_fields F hr (pre ++ viewed hr (ser_fields F hr xs)) = Ok xs.
Proof. induction F as [|[n c] F IH]; intros ND L [|x xs] pre W D; cbn in W; try discriminate; [reflexivity|].
  apply andb_prop in W as [Wx Wr]. inversion ND as [|? ? Nn ND']; subst. inversion L as [|? ? Lc LF]; subst.
  cbn [ser_fields de_fields viewed map fst snd]. fold (viewed hr (ser_fields F hr xs)).
  rewrite lookup_all_app, (lookup_all_absent n pre) by (apply D; now left). rewrite lookup_all_cons_eq, lookup_all_absent by (now rewrite ser_fields_names).
  cbn [app]. rewrite (Lc hr x Wx). cbn [rbind].
  rewrite (app_assoc pre [_]  _ : pre ++ _ :: _ = _). rewrite (IH ND' LF xs _ Wr); [reflexivity|].
  intros m Hm. rewrite map_app, in_app_iff. intros [H|[<-|[]]]; [exact (D m (or_intror Hm) H)|exact (Nn Hm)]. Qed.
Lemma struct_lawful name F : nodup_names (map fst F) = true -> Forall SLawful (map snd F) -> SLawful (sc_struct name F).
Proof. intros ND L hr x W. destruct x; cbn in W; try discriminate. cbn [sc_struct s_ser s_de]. rewrite view_struct, str_keys_viewed. cbn [rbind].
  now rewrite (de_fields_ok hr F (nodup_names_NoDup _ ND) L l [] W (fun _ _ H => H) : de_fields F hr (viewed hr _) = _). Qed.
Lemma struct_nonnull name F : SNonNull (sc_struct name F).
Proof. intros hr x W. destruct x; cbn in W; try discriminate. cbn [sc_struct s_ser]. rewrite view_struct. discriminate. Qed.

Lemma assoc_in {B} k (T : list (bytes * B)) c : assoc k T = Some c -> In (k, c) T.
Proof. induction T as [|[k' c'] T IH]; cbn; [discriminate|]. destruct (bytes_eqb_spec k k') as [->|]; [intros E; inversion E; now left|]. intros H. right. now apply IH. Qed.
Lemma fields_of_lawful (T : ctable) l : Forall (fun kc => SLawful (snd kc)) T -> fields_known T l = true -> Forall SLawful (map snd (fields_of T l)).
Proof. intros LT. induction l as [|[n k] l IH]; [constructor|]. cbn [fields_known forallb snd]. intros K. apply andb_prop in K as [Kk Kl].
  cbn [fields_of map fst snd]. constructor; [|now apply IH]. destruct (assoc k T) as [c|] eqn:E; [|discriminate].
  rewrite Forall_forall in LT. exact (LT _ (assoc_in _ _ _ E)). Qed.
Lemma table_struct_lawful name (T : ctable) l : Forall (fun kc => SLawful (snd kc)) T ->
  nodup_names (map fst l) && fields_known T l = true -> SLawful (sc_struct name (fields_of T l)).
Proof. intros LT H. apply andb_prop in H as [ND K]. apply struct_lawful; [|now apply fields_of_lawful].
  unfold fields_of. now rewrite map_map. Qed.

Section PSETLAW.
Variable pt_ok : bytes -> bool.
Variables maxvec cap_txin cap_txout cap_vecu8 : N.
Variable leaf_ser : bytes -> bool -> bytes -> sval.
Variable leaf_de : bytes -> bool -> sval -> res bytes.
Variable leaf_ok : bytes -> bytes -> bool.
(* premise: the dependency's own Serialize / Deserialize round-trip (checked on the real crate by every `ps` case) *)
Hypothesis leaf_roundtrip : forall kind hr b, leaf_ok kind b = true -> leaf_de kind hr (view hr (leaf_ser kind hr b)) = Ok b.
Hypothesis leaf_not_null : forall kind hr b, leaf_ok kind b = true -> view hr (leaf_ser kind hr b) <> VUnit.

Notation sc_leaf := (sc_leaf leaf_ser leaf_de leaf_ok).
Lemma leaf_lawful kind : SLawful (sc_leaf kind). Proof. apply sc_bytes_lawful. apply leaf_roundtrip. Qed.
Lemma leaf_nonnull kind : SNonNull (sc_leaf kind). Proof. apply sc_bytes_nonnull. apply leaf_not_null. Qed.

Lemma via_codec_lawful {A} (c : codec A) ser de : Lawful c -> (forall hr v, wf c v = true -> de hr (view hr (ser hr v)) = Ok v) -> SLawful (via_codec c ser de).
Proof. intros LC H. apply sc_bytes_lawful. intros hr b W. destruct (deserialize c b) as [v|] eqn:E; [|discriminate].
  destruct (deserialize_exact c LC b v E) as [-> Wv]. rewrite (H hr v Wv). reflexivity. Qed.
Lemma txout_lawful : SLawful (sc_txout pt_ok maxvec).
Proof. apply via_codec_lawful; [apply c_txout_nowit_lawful|]. intros hr v W. apply rt_txout. eapply br_txout; exact W. Qed.
Lemma txout_nonnull : SNonNull (sc_txout pt_ok maxvec).
Proof. apply sc_bytes_nonnull. intros hr b W. destruct (deserialize _ b); [|discriminate]. unfold ser_txout. rewrite view_struct. discriminate. Qed.
Lemma tx_lawful : SLawful (sc_tx pt_ok maxvec cap_txin cap_txout cap_vecu8).
Proof. apply via_codec_lawful; [apply c_tx_lawful|]. intros hr v W. apply rt_tx. eapply br_tx; exact W. Qed.
Lemma tx_nonnull : SNonNull (sc_tx pt_ok maxvec cap_txin cap_txout cap_vecu8).
Proof. apply sc_bytes_nonnull. intros hr b W. destruct (deserialize _ b); [|discriminate]. unfold ser_tx. rewrite view_struct. discriminate. Qed.
Lemma point_lawful lo hi : SLawful (sc_point pt_ok lo hi). Proof. apply sc_bytes_lawful. intros hr b W. now apply rt_point. Qed.
Lemma point_nonnull lo hi : SNonNull (sc_point pt_ok lo hi). Proof. apply sc_bytes_nonnull. writes_no_null. Qed.
Lemma proof_lawful ok : SLawful (sc_proof ok).
Proof. apply sc_bytes_lawful. intros hr b W. now apply rt_proof. Qed.
Lemma proof_nonnull ok : SNonNull (sc_proof ok). Proof. apply sc_bytes_nonnull. writes_no_null. Qed.

Create HintDb slaw.
Hint Resolve uint_lawful uint_nonnull vecu8_lawful vecu8_nonnull hexbytes_lawful hexbytes_nonnull array32_lawful array32_nonnull script_lawful script_nonnull
  hash_lawful hash_nonnull midstate_lawful midstate_nonnull tweak_lawful tweak_nonnull sequence_lawful sequence_nonnull height_lawful height_nonnull
  time_lawful time_nonnull locktime_lawful locktime_nonnull psbt_sighash_lawful psbt_sighash_nonnull schnorr_sighash_lawful leafver_lawful leafver_nonnull parity_lawful
  option_lawful vec_lawful vec_nonnull newtype_lawful newtype_nonnull tuple_lawful tuple_nonnull map_lawful map_nonnull map_as_seq_lawful map_byte_values_lawful
  map_as_seq_byte_values_lawful struct_nonnull leaf_lawful leaf_nonnull txout_lawful txout_nonnull tx_lawful tx_nonnull point_lawful point_nonnull proof_lawful proof_nonnull : slaw.
(* row by row, the keys dropped first: the codec of a row is a term over the combinators and leaves above *)
Ltac table_law := apply Forall_map; cbn [map snd]; repeat (apply Forall_cons; [auto 10 using Forall_cons, Forall_nil with slaw|]); try apply Forall_nil.

Notation T0 := (table0 leaf_ser leaf_de leaf_ok).
Lemma table0_lawful : Forall (fun kc => SLawful (snd kc)) T0.
Proof. unfold table0. table_law. Qed.

Lemma txdata_lawful : SLawful (sc_txdata leaf_ser leaf_de leaf_ok). Proof. apply table_struct_lawful; [exact table0_lawful|reflexivity]. Qed.
Lemma rawkey_lawful : SLawful (sc_rawkey leaf_ser leaf_de leaf_ok). Proof. apply table_struct_lawful; [exact table0_lawful|reflexivity]. Qed.
Lemma propkey_lawful : SLawful (sc_propkey leaf_ser leaf_de leaf_ok). Proof. apply table_struct_lawful; [exact table0_lawful|reflexivity]. Qed.
Lemma schnorrsig_lawful : SLawful (sc_schnorrsig leaf_ser leaf_de leaf_ok). Proof. apply table_struct_lawful; [exact table0_lawful|reflexivity]. Qed.
Lemma controlblock_lawful : SLawful (sc_controlblock leaf_ser leaf_de leaf_ok). Proof. apply table_struct_lawful; [exact table0_lawful|reflexivity]. Qed.
Hint Resolve txdata_lawful rawkey_lawful propkey_lawful schnorrsig_lawful controlblock_lawful : slaw.

Notation T1 := (table1 pt_ok maxvec cap_txin cap_txout cap_vecu8 leaf_ser leaf_de leaf_ok).
Lemma table1_lawful : Forall (fun kc => SLawful (snd kc)) T1.
Proof. unfold table1. apply Forall_app. split; [exact table0_lawful|].
  unfold sc_xonly, sc_keysource, sc_tapleafhash, sc_plainhash, sc_schnorrsig, sc_txdata, sc_rawkey, sc_propkey, sc_controlblock.
  table_law. Qed.
Lemma global_lawful : SLawful (sc_global pt_ok maxvec cap_txin cap_txout cap_vecu8 leaf_ser leaf_de leaf_ok).
Proof. apply table_struct_lawful; [exact table1_lawful|reflexivity]. Qed.
Lemma input_lawful : SLawful (sc_input pt_ok maxvec cap_txin cap_txout cap_vecu8 leaf_ser leaf_de leaf_ok).
Proof. apply table_struct_lawful; [exact table1_lawful|reflexivity]. Qed.
Lemma output_lawful : SLawful (sc_output pt_ok maxvec cap_txin cap_txout cap_vecu8 leaf_ser leaf_de leaf_ok).
Proof. apply table_struct_lawful; [exact table1_lawful|reflexivity]. Qed.
Notation T2 := (table2 pt_ok maxvec cap_txin cap_txout cap_vecu8 leaf_ser leaf_de leaf_ok).
Lemma table2_lawful : Forall (fun kc => SLawful (snd kc)) T2.
Proof. unfold table2. repeat apply Forall_cons; try apply Forall_nil; cbn [snd].
  - exact global_lawful.
  - exact (vec_lawful _ input_lawful).
  - exact (vec_lawful _ output_lawful). Qed.
Lemma pset_lawful : SLawful (sc_pset pt_ok maxvec cap_txin cap_txout cap_vecu8 leaf_ser leaf_de leaf_ok).
Proof. apply table_struct_lawful; [exact table2_lawful|reflexivity]. Qed.
End PSETLAW.

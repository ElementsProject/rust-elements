(* Proofs for C05_tamper: from an accepted transaction every single-location tamper of Model/Tamper.v is rejected.
   An output tamper leaves the input loop alone, so the tampered output must pass under the domain under which the old outputs
   passed: ideal proofs verify for one statement only, and explicit amounts move the balance.  An input tamper leaves the rest
   of the input side and all output commitments alone, so the one changed input must contribute the same sum as before. *)
From Coq Require Import List NArith ZArith Bool Lia Setoid Morphisms.
From Coq.Strings Require Import Byte.
From EV Require Import Base.Bytes Base.Zn Base.FreeMod Model.Script Model.Ideal Model.Verify Model.Blind Model.Tamper
  Proofs.Ideal Proofs.Verify.
Import ListNotations.
Open Scope Z_scope.

Lemma upd_some {A} (l : list A) j f x : nth_error l j = Some x -> upd l j f = set_nth l j (f x).
Proof. unfold upd. now intros ->. Qed.
Lemma upd_split {A} (l : list A) i x f : nth_error l i = Some x -> upd l i f = firstn i l ++ f x :: skipn (S i) l.
Proof. intro NE. rewrite (upd_some _ _ _ _ NE). now destruct (set_nth_split l i x (f x) NE) as (_ & E & _). Qed.
Lemma swap_nth {A} (l : list A) j k f x y : j <> k -> nth_error l j = Some x -> nth_error l k = Some y ->
  nth_error (swap_with l j k f) j = Some (f x y) /\ nth_error (swap_with l j k f) k = Some (f y x).
Proof.
  intros NE NJ NK. unfold swap_with. rewrite NJ, NK. split; [rewrite nth_set_neq by congruence; eapply nth_set_eq, NJ|].
  eapply nth_set_eq. rewrite nth_set_neq by exact NE. exact NK.
Qed.

Lemma out_at_inv T j f : out_at T j f = true -> exists o, nth_error (t_out T) j = Some o /\ f o = true.
Proof. unfold out_at. destruct (nth_error (t_out T) j) as [o|]; [|discriminate]. now exists o. Qed.
Lemma out_at_both T j f g : out_at T j f = true -> out_at T j g = true ->
  exists o, nth_error (t_out T) j = Some o /\ f o = true /\ g o = true.
Proof. intros F G. apply out_at_inv in F as (o & NE & F), G as (o' & NE' & G). rewrite NE in NE'. injection NE' as <-. now exists o. Qed.
Lemma out2_at_both T j k f g : out2_at T j k f = true -> out2_at T j k g = true ->
  j <> k /\ exists x y, nth_error (t_out T) j = Some x /\ nth_error (t_out T) k = Some y /\ f x y = true /\ g x y = true.
Proof.
  unfold out2_at. rewrite !andb_true_iff. intros [NE F] [_ G]. split; [apply Nat.eqb_neq; now destruct (Nat.eqb j k)|].
  destruct (nth_error (t_out T) j) as [x|]; [|discriminate]. destruct (nth_error (t_out T) k) as [y|]; [|discriminate]. now exists x, y.
Qed.
Lemma u64b_range v : u64b v = true -> 0 <= v < qn.
Proof. unfold u64b. intro U. apply andb_true_iff in U as [L H]. apply Z.leb_le in L. apply Z.ltb_lt in H. pose proof qn_big. lia. Qed.

Lemma balance_mid X A c c' B : geq X (gsum (A ++ c :: B)) -> geq X (gsum (A ++ c' :: B)) -> geq c c'.
Proof. intros H H'. rewrite H in H'. apply (gsum_cancel A [c] [c'] B) in H'. now rewrite !gsum_single in H'. Qed.
Lemma Forall2_geq_mid A g B A' g' B' : length A = length A' -> Forall2 geq (A ++ g :: B) (A' ++ g' :: B') -> geq g g'.
Proof.
  revert A'. induction A as [|a A IH]; intros [|a' A'] L F; cbn in *; try discriminate.
  - now inversion F. - inversion F; subst. apply (IH A'); [lia|assumption].
Qed.

Lemma verify_outputs_replace dom outs outs' j o o' cs cs' c' :
  verify_outputs dom outs 0 = OVal cs -> verify_outputs dom outs' 0 = OVal cs' ->
  nth_error outs j = Some o -> outs' = set_nth outs j o' -> verify_output_step dom j o' = OVal c' ->
  exists c, verify_output_step dom j o = OVal c /\ cs = firstn j cs ++ c :: skipn (S j) cs /\ cs' = firstn j cs ++ c' :: skipn (S j) cs.
Proof.
  intros V V' NE -> Vo'. apply verify_outputs_iff in V as [-> F], V' as [-> _]. apply step_iff in Vo' as [-> _].
  rewrite Forall_forall in F. exists (out_pushed o). split; [apply step_iff; split; [reflexivity|exact (F o (nth_error_In _ _ NE))]|].
  rewrite map_set_nth. destruct (set_nth_split _ j _ (out_pushed o') (map_nth_error out_pushed _ _ NE)) as (E1 & E2 & _). now split.
Qed.

Lemma gen_binds_asset x y gx gy : get_asset_gen x = OVal gx -> get_asset_gen y = OVal gy -> geq gx gy ->
  asset_kind_eq (o_asset x) (o_asset y) = true -> asset_eqb (o_asset x) (o_asset y) = true.
Proof.
  unfold get_asset_gen. intros GX GY G.
  destruct (o_asset x) as [|a|g], (o_asset y) as [|a'|g']; try discriminate; intros _; injection GX as <-; injection GY as <-; cbn.
  - rewrite <- !asset_gen_0 in G. apply asset_gen_inj in G as ->. apply N.eqb_refl.
  - now apply geqb_spec.
Qed.

Lemma step_explicit_amount dom k o v v' oc oc' : Forall opened_gen dom -> o_value o = VExp v -> 0 <= v < qn -> 0 <= v' < qn -> v <> v' ->
  verify_output_step dom k o = OVal oc -> verify_output_step dom k (set_value (VExp v') o) = OVal oc' -> ~ geq (oc2g oc) (oc2g oc').
Proof.
  intros D OV R R' NE S S'.
  destruct (step_inv _ _ _ _ S) as [[SK ->]|(_ & c & -> & V)], (step_inv _ _ _ _ S') as [[SK' ->]|(_ & c' & -> & V')]; cbn [oc2g].
  - apply skipped_spec in SK as [E _]. apply skipped_spec in SK' as [E' _]. cbn in E'. congruence.
  - apply verify_output_ok in V' as [GV' P']. destruct (explicit_commit _ _ _ _ D P' eq_refl GV') as (NZ' & g & a & abf & _ & G & ->).
    intro E. symmetry in E. revert E. apply (commit_opened_nonzero _ _ _ _ _ G). lia.
  - apply verify_output_ok in V as [GV P]. destruct (explicit_commit _ _ _ _ D P OV GV) as (NZ & g & a & abf & _ & G & ->).
    apply (commit_opened_nonzero _ _ _ _ _ G). lia.
  - apply verify_output_ok in V as [GV P], V' as [GV' P']. destruct (explicit_commit _ _ _ _ D P OV GV) as (NZ & g & a & abf & GA & G & ->).
    destruct (explicit_commit _ _ _ _ D P' eq_refl GV') as (_ & g' & _ & _ & GA' & _ & ->). change (get_asset_gen o = OVal g') in GA'.
    rewrite GA in GA'. injection GA' as <-. intro E. apply (commit_opened_binds _ _ _ _ _ _ _ _ _ _ G G) in E; [tauto|lia|lia].
Qed.

(* an explicit asset under an explicit amount: the commitment moves to the other asset *)
Lemma step_explicit_asset dom k o a a' v oc oc' : o_asset o = AExp a -> o_value o = VExp v -> 0 <= v < qn -> a <> a' -> skipped o = false ->
  verify_output_step dom k o = OVal oc -> verify_output_step dom k (set_asset (AExp a') o) = OVal oc' -> ~ geq (oc2g oc) (oc2g oc').
Proof.
  intros OA OV R NE SK S S'. assert (SK' : skipped (set_asset (AExp a') o) = false) by now rewrite (skipped_same o (set_asset (AExp a') o)).
  destruct (step_inv _ _ _ _ S) as [[? _]|(_ & c & -> & V)]; [congruence|]. destruct (step_inv _ _ _ _ S') as [[? _]|(_ & c' & -> & V')]; [congruence|].
  apply verify_output_ok in V as [GV _], V' as [GV' _]. destruct (explicit_commit_H o a v c OA OV GV) as (NZ & ->).
  destruct (explicit_commit_H (set_asset (AExp a') o) a' v c' eq_refl OV GV') as (_ & ->). intro E. apply commit_H_binds in E as [E _]; lia.
Qed.

Lemma verify_inputs_split : forall ins1 sp1 inp ins2 u sp2 k dom coms, length ins1 = length sp1 ->
  verify_inputs (ins1 ++ inp :: ins2) (sp1 ++ u :: sp2) k = OVal (dom, coms) ->
  exists d1 c1 g c idom icom d2 c2,
    verify_inputs ins1 sp1 0 = OVal (d1, c1) /\ get_asset_gen u = OVal g /\ get_value_commit u = OVal c
    /\ issuance_commits inp = OVal (idom, icom) /\ verify_inputs ins2 sp2 0 = OVal (d2, c2)
    /\ dom = d1 ++ g :: idom ++ d2 /\ coms = c1 ++ c :: icom ++ c2.
Proof.
  induction ins1 as [|i1 ins1 IH]; intros [|u1 sp1] inp ins2 u sp2 k dom coms L; cbn in L; try discriminate; cbn [app]; intro H;
    apply verify_inputs_cons in H as (g & c & idom & icom & dd & cc & GA & GV & IC & R & [= -> ->]).
  - exists [], [], g, c, idom, icom, dd, cc. repeat split; try assumption. exact (verify_inputs_index _ _ _ 0%nat _ R).
  - destruct (IH sp1 inp ins2 u sp2 (S k) dd cc ltac:(lia) R) as (d1 & c1 & g' & c' & idom' & icom' & d2 & c2 & V1 & GA' & GV' & IC' & V2 & -> & ->).
    exists (g :: idom ++ d1), (c :: icom ++ c1), g', c', idom', icom', d2, c2. repeat split; try assumption; cbn [app]; try now rewrite <- !app_assoc.
    apply verify_inputs_cons. exists g, c, idom, icom, d1, c1. repeat split; try assumption. exact (verify_inputs_index _ _ _ 1%nat _ V1).
Qed.
(* the whole accepted transaction, with input position i singled out *)
Lemma accepted_at_input T spent i inp u :
  verify_tx_amt_proofs T spent = OVal tt -> nth_error (t_in T) i = Some inp -> nth_error spent i = Some u ->
  exists d1 c1 g c idom icom d2 c2 cs,
    verify_inputs (firstn i (t_in T)) (firstn i spent) 0 = OVal (d1, c1) /\ get_asset_gen u = OVal g /\ get_value_commit u = OVal c
    /\ issuance_commits inp = OVal (idom, icom) /\ verify_inputs (skipn (S i) (t_in T)) (skipn (S i) spent) 0 = OVal (d2, c2)
    /\ verify_outputs (d1 ++ g :: idom ++ d2) (t_out T) 0 = OVal cs /\ geq (gsum (map oc2g cs)) (gsum (c1 ++ c :: icom ++ c2)).
Proof.
  intros V NI NS. apply verify_ok_inv in V as (L & dom & coms & ocoms & VI & VO & B).
  destruct (set_nth_split _ _ _ inp NI) as (EI & _ & LI). destruct (set_nth_split _ _ _ u NS) as (ES & _ & LS). rewrite EI, ES in VI.
  apply verify_inputs_split in VI; [|lia]. destruct VI as (d1 & c1 & g & c & idom & icom & d2 & c2 & V1 & GA & GV & IC & V2 & -> & ->).
  exists d1, c1, g, c, idom, icom, d2, c2, ocoms. repeat split; try assumption. now symmetry.
Qed.
(* two accepted transactions with the same outputs that differ in one input and its spent output: the rest of the input side and the
   pushed output commitments are the same, so the changed input contributes the same sum; and an output that is not skipped and
   carries a surjection proof passed under both domains, which that proof binds *)
Lemma input_replaced T spent T' spent' i inp u inp' u' :
  verify_tx_amt_proofs T spent = OVal tt -> verify_tx_amt_proofs T' spent' = OVal tt ->
  nth_error (t_in T) i = Some inp -> nth_error spent i = Some u ->
  t_in T' = set_nth (t_in T) i inp' -> spent' = set_nth spent i u' -> t_out T' = t_out T ->
  exists g c idom icom g' c' idom' icom',
    get_asset_gen u = OVal g /\ get_value_commit u = OVal c /\ issuance_commits inp = OVal (idom, icom)
    /\ get_asset_gen u' = OVal g' /\ get_value_commit u' = OVal c' /\ issuance_commits inp' = OVal (idom', icom')
    /\ geq (gsum (c :: icom)) (gsum (c' :: icom')) /\ (has_conf_asset_output T = true -> geq g g').
Proof.
  intros V V' NI NS EI -> EO.
  destruct (accepted_at_input _ _ i inp u V NI NS) as (d1 & c1 & g & c & idom & icom & d2 & c2 & cs & V1 & GA & GV & IC & V2 & VO & B).
  destruct (accepted_at_input _ _ i inp' u' V') as (d1' & c1' & g' & c' & idom' & icom' & d2' & c2' & cs' & V1' & GA' & GV' & IC' & V2' & VO' & B').
  { rewrite EI. eapply nth_set_eq, NI. } { eapply nth_set_eq, NS. }
  destruct (set_nth_parts (t_in T) inp' i) as [FI SI]. destruct (set_nth_parts spent u' i) as [FS SS].
  rewrite EI, FI, FS, V1 in V1'. rewrite EI, SI, SS, V2 in V2'. rewrite EO in VO'. injection V1' as <- <-. injection V2' as <- <-.
  apply verify_outputs_iff in VO as [-> F], VO' as [-> F']. rewrite B in B'.
  exists g, c, idom, icom, g', c', idom', icom'. repeat split; try assumption.
  - exact (gsum_cancel c1 (c :: icom) (c' :: icom') c2 B').
  - intro HC. unfold has_conf_asset_output in HC. apply existsb_exists in HC as (o & I & OA). apply andb_true_iff in OA as [LV OA].
    apply negb_true_iff in LV. destruct (o_asset o) as [| |go] eqn:OAo; try discriminate. rewrite Forall_forall in F, F'.
    destruct (same_sp _ _ _ _ _ _ (proj2 (F o I LV)) (proj2 (F' o I LV)) OAo OAo eq_refl) as (_ & D). now apply Forall2_geq_mid in D.
Qed.
Lemma pedersen_unblinded_zero {E} g : @pedersen_unblinded E 0 g = OPanic PPedersenInfinity.
Proof.
  unfold pedersen_unblinded. now rewrite (proj2 (geqb_spec _ _) (commit_0 g)).
Qed.
(* since 3c38a91 an explicit zero amount is the error IssuanceTransactionInput (before: the library's assertion) *)
Lemma issuance_commits_nonzero i r w : issuance_commits i = OVal r -> iss_field w i <> VExp 0.
Proof.
  unfold issuance_commits, has_issuance. intros H F. destruct w; cbn [iss_field] in F; rewrite F in H.
  - cbn in H. discriminate.
  - destruct (is_amount (in_iss i)) as [|x|c]; cbn in H; try discriminate.
    destruct (x =? 0); cbn in H; [discriminate|]. unfold pedersen_unblinded in H. destruct (geqb _ gzero); discriminate.
Qed.

Section Accepted.
  Variables (T : tx) (spent : list txout) (ss : list secrets).
  Hypothesis V : verify_tx_amt_proofs T spent = OVal tt.
  Hypothesis OP : opens (t_in T) spent ss.

  Lemma tampered_outputs outs' : verify_tx_amt_proofs (mkTx (t_in T) outs') spent = OVal tt ->
    exists dom, Forall opened_gen dom /\ Forall (accepted dom) (t_out T) /\ Forall (accepted dom) outs'
                /\ geq (gsum (map oc2g (map out_pushed (t_out T)))) (gsum (map oc2g (map out_pushed outs'))).
  Proof.
    intro V'. apply verify_ok_inv in V as (_ & dom & coms & ocoms & VI & VO & B).
    apply verify_ok_inv in V' as (_ & dom' & coms' & ocoms' & VI' & VO' & B'). cbn [t_in t_out] in *.
    rewrite VI in VI'. injection VI' as <- <-. destruct (verify_inputs_ok _ _ _ OP 0%nat) as (? & ? & VI' & D & _). rewrite VI in VI'. injection VI' as <- <-.
    apply verify_outputs_iff in VO as [-> F], VO' as [-> F']. exists dom. split; [exact (dom_opened _ _ D)|]. now rewrite <- B, <- B'.
  Qed.
  (* an output of the tampered list passed under the domain under which the outputs of T passed (neither being skipped) *)
  Lemma tampered_pair outs' k y j o' : verify_tx_amt_proofs (mkTx (t_in T) outs') spent = OVal tt ->
    nth_error (t_out T) k = Some y -> nth_error outs' j = Some o' -> skipped y = false -> skipped o' = false ->
    exists dom, proofs_for dom y /\ proofs_for dom o'.
  Proof.
    intros V' NY NO SY SO. destruct (tampered_outputs _ V') as (dom & _ & F & F' & _). rewrite Forall_forall in F, F'. exists dom.
    split; [exact (proj2 (F y (nth_error_In _ _ NY) SY))|exact (proj2 (F' o' (nth_error_In _ _ NO) SO))].
  Qed.
  Lemma tampered_rp outs' k y j o' : verify_tx_amt_proofs (mkTx (t_in T) outs') spent = OVal tt ->
    nth_error (t_out T) k = Some y -> nth_error outs' j = Some o' ->
    value_is_conf (o_value y) = true -> value_is_conf (o_value o') = true -> o_rp o' = o_rp y ->
    value_eqb (o_value y) (o_value o') = true /\ o_script y = o_script o'
    /\ (asset_kind_eq (o_asset y) (o_asset o') = true -> asset_eqb (o_asset y) (o_asset o') = true).
  Proof.
    intros V' NY NO CY CO E. destruct (o_value y) as [| |cy] eqn:OVy; try discriminate. destruct (o_value o') as [| |c'] eqn:OVo; try discriminate.
    destruct (tampered_pair _ _ _ _ _ V' NY NO (skipped_conf _ _ OVy) (skipped_conf _ _ OVo)) as (dom & P & P').
    destruct (same_rp _ _ _ _ _ _ P P' OVy OVo (eq_sym E)) as (C & S & gy & g' & GY & GO & G).
    split; [now apply geqb_spec|]. split; [exact S|exact (gen_binds_asset _ _ _ _ GY GO G)].
  Qed.
  Lemma tampered_sp outs' k y j o' gy g' : verify_tx_amt_proofs (mkTx (t_in T) outs') spent = OVal tt ->
    nth_error (t_out T) k = Some y -> nth_error outs' j = Some o' -> skipped y = false -> skipped o' = false ->
    o_asset y = AConf gy -> o_asset o' = AConf g' -> o_sp o' = o_sp y -> geq gy g'.
  Proof.
    intros V' NY NO SY SO OAy OAo E. destruct (tampered_pair _ _ _ _ _ V' NY NO SY SO) as (dom & P & P').
    exact (proj1 (same_sp _ _ _ _ _ _ P P' OAy OAo (eq_sym E))).
  Qed.
  Lemma tampered_balance j o o' : nth_error (t_out T) j = Some o ->
    verify_tx_amt_proofs (mkTx (t_in T) (set_nth (t_out T) j o')) spent = OVal tt ->
    exists dom c c', Forall opened_gen dom /\ verify_output_step dom j o = OVal c /\ verify_output_step dom j o' = OVal c'
                     /\ geq (oc2g c) (oc2g c').
  Proof.
    intros NE V'. destruct (tampered_outputs _ V') as (dom & D & F & F' & B). rewrite Forall_forall in F, F'.
    exists dom, (out_pushed o), (out_pushed o'). split; [exact D|].
    split; [apply step_iff; split; [reflexivity|exact (F o (nth_error_In _ _ NE))]|].
    split; [apply step_iff; split; [reflexivity|exact (F' o' (nth_error_In _ _ (nth_set_eq _ _ _ o' NE)))]|].
    rewrite !map_set_nth in B. destruct (set_nth_split _ j _ (oc2g (out_pushed o')) (map_nth_error oc2g _ _ (map_nth_error out_pushed _ _ NE))) as (E1 & E2 & _).
    rewrite E2 in B. refine (balance_mid _ _ _ _ _ _ B). now rewrite <- E1.
  Qed.

  Lemma length_ok : length spent = length (t_in T).
  Proof. apply verify_ok_inv in V. tauto. Qed.

  (* the spent output at i presented as u': it contributes the same commitment, and the same generator if an output that is not
     skipped carries a surjection proof, which binds the domain *)
  Lemma spent_replaced i u u' : nth_error spent i = Some u -> verify_tx_amt_proofs T (set_nth spent i u') = OVal tt ->
    exists g c g' c',
      get_asset_gen u = OVal g /\ get_value_commit u = OVal c /\ get_asset_gen u' = OVal g' /\ get_value_commit u' = OVal c'
      /\ opened_gen g /\ (forall v, o_value u = VExp v -> 0 < v < qn) /\ geq c c' /\ (has_conf_asset_output T = true -> geq g g').
  Proof.
    intros NS V'. destruct (same_length_nth _ _ _ _ length_ok NS) as (inp & NI).
    destruct (input_replaced _ _ _ _ i inp u inp u' V V' NI NS (eq_sym (set_nth_same _ _ _ NI)) eq_refl eq_refl)
      as (g & c & idom & icom & g' & c' & idom' & icom' & GA & GV & IC & GA' & GV' & IC' & B & SG).
    rewrite IC in IC'. injection IC' as <- <-. apply (balance_mid _ [] c c' icom (reflexivity _)) in B.
    destruct (opens_nth _ _ _ OP i inp u NI NS) as (_ & s & AO & VOp). destruct (get_asset_gen_opened u s AO) as (g0 & GA0 & G).
    rewrite GA in GA0. injection GA0 as <-. exists g, c, g', c'.
    split; [exact GA|]. split; [exact GV|]. split; [exact GA'|]. split; [exact GV'|]. split; [now exists (s_asset s), (s_abf s)|].
    split; [|split; [exact B|exact SG]].
    intros v OV. destruct VOp as [(E & _ & R)|(? & E & _)]; [|congruence]. rewrite OV in E. injection E as ->. exact R.
  Qed.

  Lemma reject_spent_value i u v' : nth_error spent i = Some u -> value_kind_eq (o_value u) v' = true -> value_u64 v' = true ->
    value_eqb (o_value u) v' = false -> verify_tx_amt_proofs T (upd spent i (set_value v')) <> OVal tt.
  Proof.
    intros NS KD U64 NE V'. rewrite (upd_some _ _ _ _ NS) in V'.
    destruct (spent_replaced i u _ NS V') as (g & c & g' & c' & GA & GV & _ & GV' & (a & abf & G) & R & B & _).
    destruct (o_value u) as [|v|comm] eqn:OV, v' as [|w|comm']; try discriminate.
    - destruct (get_value_commit_explicit _ _ _ OV GV) as (_ & g1 & GA1 & ->).
      destruct (get_value_commit_explicit (set_value (VExp w) u) _ _ eq_refl GV') as (_ & g2 & GA2 & ->). change (get_asset_gen u = OVal g2) in GA2.
      rewrite GA in GA1, GA2. injection GA1 as <-. injection GA2 as <-.
      apply (commit_opened_binds _ _ _ _ _ _ _ _ _ _ G G (R v eq_refl) (u64b_range _ U64)) in B as [_ B]. apply Z.eqb_neq in NE. contradiction.
    - rewrite (get_value_commit_conf _ _ OV) in GV. rewrite (get_value_commit_conf (set_value (VConf comm') u) _ eq_refl) in GV'.
      injection GV as <-. injection GV' as <-. now apply geqb_false in NE.
  Qed.

  Lemma reject_spent_asset i u a' : nth_error spent i = Some u -> asset_kind_eq (o_asset u) a' = true ->
    has_conf_asset_output T || (value_is_explicit (o_value u) && asset_is_explicit (o_asset u)) = true ->
    asset_eqb (o_asset u) a' = false -> verify_tx_amt_proofs T (upd spent i (set_asset a')) <> OVal tt.
  Proof.
    intros NS KD AP NE V'. rewrite (upd_some _ _ _ _ NS) in V'.
    destruct (spent_replaced i u _ NS V') as (g & c & g' & c' & GA & GV & GA' & GV' & _ & R & B & SG).
    apply orb_true_iff in AP as [HC|EX].
    - pose proof (gen_binds_asset u (set_asset a' u) _ _ GA GA' (SG HC) KD) as E. cbn [set_asset o_asset] in E. congruence.
    - (* explicit amount under an explicit asset: the input commitment moves to another asset *)
      apply andb_true_iff in EX as [EV EA].
      destruct (o_value u) as [|v|] eqn:OV; try discriminate. destruct (o_asset u) as [|a|] eqn:OA; try discriminate. destruct a' as [|a2|]; try discriminate.
      destruct (explicit_commit_H u a v c OA OV GV) as (_ & ->). destruct (explicit_commit_H (set_asset (AExp a2) u) a2 v c' eq_refl OV GV') as (_ & ->).
      pose proof (R v eq_refl). apply commit_H_binds in B as [-> _]; try lia. cbn in NE. rewrite N.eqb_refl in NE. discriminate.
  Qed.

  Lemma reject_issuance i inp w x : nth_error (t_in T) i = Some inp -> value_is_explicit (iss_field w inp) = true ->
    u64b x = true -> value_eqb (iss_field w inp) (VExp x) = false ->
    verify_tx_amt_proofs (mkTx (upd (t_in T) i (set_iss w (VExp x))) (t_out T)) spent <> OVal tt.
  Proof.
    intros NI EX U NE V'. destruct (same_length_nth _ _ _ _ (eq_sym length_ok) NI) as (u & NS).
    destruct (input_replaced _ _ _ _ i inp u (set_iss w (VExp x) inp) u V V' NI NS (upd_some _ _ _ _ NI) (eq_sym (set_nth_same _ _ _ NS)) eq_refl)
      as (g & c & idom & icom & g' & c' & idom' & icom' & _ & GV & IC & _ & GV' & IC' & B & _).
    rewrite GV in GV'. injection GV' as <-. destruct (opens_nth _ _ _ OP i inp u NI NS) as ([AK KK] & _).
    apply u64b_range in U. assert (XR : 0 < x < qn).
    { split; [|lia]. destruct (Z.eq_dec x 0) as [->|]; [|lia]. destruct (issuance_commits_nonzero _ _ w IC'). now destruct w. }
    assert (OK' : iss_ok (set_iss w (VExp x) inp)) by (destruct w; split; try assumption; right; now exists x).
    rewrite (issuance_commits_shape _ (conj AK KK)) in IC. rewrite (issuance_commits_shape _ OK') in IC'.
    injection IC as <- <-. injection IC' as <- <-.
    (* the amount in question, its id, and what stands before and after it in the input commitments *)
    assert (E : exists v id A Z, iss_field w inp = VExp v /\ 0 < v < qn
                                 /\ geq (gsum (A ++ [commit v (gH id) 0] ++ Z)) (gsum (A ++ [commit x (gH id) 0] ++ Z))).
    { destruct w; cbn [iss_field set_iss in_iss is_amount is_keys is_asset is_token] in *.
      - destruct AK as [EA|(v & EA & R)]; rewrite EA in *; [discriminate|].
        exists v, (is_asset (in_iss inp)), [c], (ipc (is_token (in_iss inp)) (is_keys (in_iss inp))). split; [reflexivity|]. split; [exact R|exact B].
      - destruct KK as [EK|(v & EK & R)]; rewrite EK in *; [discriminate|].
        exists v, (is_token (in_iss inp)), (c :: ipc (is_asset (in_iss inp)) (is_amount (in_iss inp))), []. split; [reflexivity|]. split; [exact R|exact B]. }
    destruct E as (v & id & A & Z & F & R & E). apply gsum_cancel in E. rewrite !gsum_single in E.
    apply commit_H_binds in E as [_ ->]; try lia.
    rewrite F in NE. cbn in NE. now rewrite Z.eqb_refl in NE.
  Qed.
End Accepted.

Theorem tamper_rejected T spent ss t :
  verify_tx_amt_proofs T spent = OVal tt -> opens (t_in T) spent ss ->
  Forall (fun o => forall v, o_value o = VExp v -> 0 <= v < qn) (t_out T) ->
  applicable t (T, spent) = true -> changes t (T, spent) = true ->
  verify_tx_amt_proofs (fst (apply t (T, spent))) (snd (apply t (T, spent))) <> OVal tt.
Proof.
  intros V OP U64 AP CH.
  assert (UO : forall j o v, nth_error (t_out T) j = Some o -> o_value o = VExp v -> 0 <= v < qn).
  { intros j o v NE. rewrite Forall_forall in U64. apply U64. eapply nth_error_In, NE. }
  pose proof (tampered_rp T spent ss V OP) as RP. pose proof (tampered_sp T spent ss V OP) as SP. pose proof (tampered_balance T spent ss V OP) as BAL.
  destruct t as [j v|j a|j k|j k|j|j k|j|j|j k|j|j s|i w v|i v|i a]; cbn [apply applicable changes fst snd] in *.
  - (* TOutValue *) apply andb_true_iff in AP as [KD U]. destruct (out_at_both _ _ _ _ KD CH) as (o & NE & KD' & CH'). rewrite (upd_some _ _ _ _ NE).
    apply negb_true_iff in CH'. intro V'. destruct (o_value o) as [|v0|comm] eqn:OV, v as [|w|comm']; try discriminate.
    + (* an explicit amount: the balance moves *)
      destruct (BAL j o _ NE V') as (dom & c & c' & D & S & S' & B). revert B.
      apply (step_explicit_amount dom j o v0 w c c' D OV (UO _ _ _ NE OV) (u64b_range _ U)); [|exact S|exact S']. now apply Z.eqb_neq.
    + (* a commitment: the range proof states the old one *)
      destruct (RP _ j o j _ V' NE (nth_set_eq _ _ _ _ NE)) as (E & _); [now rewrite OV|reflexivity|reflexivity|].
      cbn [set_value o_value] in E. rewrite OV in E. congruence.
  - (* TOutAsset *) destruct (out_at_both _ _ _ _ AP CH) as (o & NE & AP' & CH'). rewrite (upd_some _ _ _ _ NE).
    apply andb_true_iff in AP' as [LV KD]. apply negb_true_iff in LV, CH'. intro V'.
    destruct (o_asset o) as [|a0|g] eqn:OA, a as [|a1|g']; try discriminate.
    + destruct (o_value o) as [|v0|comm] eqn:OV.
      * destruct (verify_ok_output _ _ j o V NE LV) as (_ & (c & GV) & _). unfold get_value_commit in GV. rewrite OV in GV. discriminate.
      * (* an explicit asset under an explicit amount: the balance moves *)
        destruct (BAL j o _ NE V') as (dom & oc & oc' & _ & S & S' & B). revert B.
        apply (step_explicit_asset dom j o a0 a1 v0 oc oc' OA OV (UO _ _ _ NE OV)); [now apply N.eqb_neq|exact LV|exact S|exact S'].
      * (* under a confidential amount: the range proof states the old asset *)
        destruct (RP _ j o j _ V' NE (nth_set_eq _ _ _ _ NE)) as (_ & _ & E); [now rewrite OV|cbn; now rewrite OV|reflexivity|].
        cbn [set_asset o_asset] in E. rewrite OA in E. rewrite E in CH' by reflexivity. discriminate.
    + (* an asset commitment: the surjection proof states the old one *)
      pose proof (SP _ j o j _ g g' V' NE (nth_set_eq _ _ _ _ NE) LV (eq_trans (skipped_same o (set_asset (AConf g') o) eq_refl eq_refl) LV) OA eq_refl eq_refl) as E.
      now apply geqb_false in CH'.
  - (* TSwapValue: at j stands the commitment of y under the range proof of x *)
    destruct (out2_at_both _ _ _ _ _ AP CH) as (NJK & x & y & NX & NY & KD & CH'). apply andb_true_iff in KD as [CX CY]. apply negb_true_iff in CH'. intro V'.
    destruct (RP _ j x j _ V' NX (proj1 (swap_nth _ j k _ x y NJK NX NY)) CX CY eq_refl) as (E & _). cbn [set_value o_value] in E. congruence.
  - (* TSwapAsset: at j stands the generator of y under the surjection proof of x *)
    destruct (out2_at_both _ _ _ _ _ AP CH) as (NJK & x & y & NX & NY & KD & CH'). apply andb_true_iff in KD as [LV KD]. apply andb_true_iff in LV as [LX _].
    apply negb_true_iff in LX, CH'. intro V'.
    destruct (o_asset x) as [| |gx] eqn:OAx; try discriminate. destruct (o_asset y) as [| |gy] eqn:OAy; try discriminate.
    pose proof (SP _ j x j _ gx gy V' NX (proj1 (swap_nth _ j k _ x y NJK NX NY)) LX (eq_trans (skipped_same x (set_asset (o_asset y) x) eq_refl eq_refl) LX) OAx OAy eq_refl) as E.
    now apply geqb_false in CH'.
  - (* TRemoveRp *) destruct (out_at_inv _ _ _ AP) as (o & NE & AP'). rewrite (upd_some _ _ _ _ NE). apply andb_true_iff in AP' as [CV _]. intro V'.
    destruct (verify_ok_rp _ _ j _ V' (nth_set_eq _ _ _ _ NE) CV) as (rp & R & _). discriminate R.
  - (* TSwapRp: at k stands y under the range proof of x *)
    destruct (out2_at_both _ _ _ _ _ AP CH) as (NJK & x & y & NX & NY & KD & CH'). apply andb_true_iff in KD as [KD AK]. apply andb_true_iff in KD as [CX CY].
    apply negb_true_iff in CH'. intro V'.
    destruct (RP _ j x k _ V' NX (proj2 (swap_nth _ j k _ x y NJK NX NY)) CX CY eq_refl) as (E1 & E2 & E3). cbn [set_rp o_value o_script o_asset] in E1, E2, E3.
    unfold rp_statement_eqb in CH'. rewrite E1, E2, bytes_eqb_refl, (E3 AK) in CH'. discriminate.
  - (* TCorruptRp *) destruct (out_at_inv _ _ _ AP) as (o & NE & AP'). rewrite (upd_some _ _ _ _ NE). apply andb_true_iff in AP' as [CV _]. intro V'.
    destruct (verify_ok_rp _ _ j _ V' (nth_set_eq _ _ _ _ NE) CV) as (rp & R & I). cbn [set_rp o_rp] in R. destruct (o_rp o); [|discriminate]. injection R as <-. discriminate I.
  - (* TRemoveSp; `skipped` reads amount and script only, so LV also says that the output without its proof is not skipped *)
    destruct (out_at_inv _ _ _ AP) as (o & NE & AP'). rewrite (upd_some _ _ _ _ NE). apply andb_true_iff in AP' as [LV KD]. apply negb_true_iff in LV.
    destruct (o_asset o) as [| |g] eqn:OA; try discriminate. intro V'.
    destruct (verify_ok_sp _ _ j _ g V' (nth_set_eq _ _ _ _ NE) LV OA) as (sp & S & _). discriminate S.
  - (* TSwapSp: at j stands x under the surjection proof of y *)
    destruct (out2_at_both _ _ _ _ _ AP CH) as (NJK & x & y & NX & NY & KD & CH'). apply andb_true_iff in KD as [LV KD]. apply andb_true_iff in LV as [LX LY].
    apply negb_true_iff in LX, LY, CH'. intro V'.
    destruct (o_asset x) as [| |gx] eqn:OAx; try discriminate. destruct (o_asset y) as [| |gy] eqn:OAy; try discriminate.
    pose proof (SP _ k y j _ gy gx V' NY (proj1 (swap_nth _ j k _ x y NJK NX NY)) LY LX OAy OAx eq_refl) as E.
    symmetry in E. now apply geqb_false in CH'.
  - (* TCorruptSp *) destruct (out_at_inv _ _ _ AP) as (o & NE & AP'). rewrite (upd_some _ _ _ _ NE). apply andb_true_iff in AP' as [LV KD]. apply negb_true_iff in LV.
    destruct (o_asset o) as [| |g] eqn:OA; try discriminate. intro V'.
    destruct (verify_ok_sp _ _ j _ g V' (nth_set_eq _ _ _ _ NE) LV OA) as (sp & S & I).
    cbn [set_sp o_sp] in S. destruct (o_sp o); [|discriminate]. injection S as <-. discriminate I.
  - (* TScript: the range proof states the old script *)
    destruct (out_at_both _ _ _ _ AP CH) as (o & NE & CV & CH'). rewrite (upd_some _ _ _ _ NE). apply negb_true_iff in CH'. intro V'.
    destruct (RP _ j o j _ V' NE (nth_set_eq _ _ _ _ NE) CV CV eq_refl) as (_ & E & _). cbn [set_script o_script] in E. now rewrite <- E, bytes_eqb_refl in CH'.
  - (* TIssuance *) destruct (nth_error (t_in T) i) as [inp|] eqn:NI; [|discriminate]. apply andb_true_iff in AP as [AP U]. apply andb_true_iff in AP as [EX EV].
    destruct v as [|x|]; try discriminate. apply negb_true_iff in CH.
    exact (reject_issuance T spent ss V OP i inp w x NI EX U CH).
  - (* TSpentValue *) destruct (nth_error spent i) as [u|] eqn:NS; [|discriminate]. apply andb_true_iff in AP as [KD U]. apply negb_true_iff in CH.
    exact (reject_spent_value T spent ss V OP i u v NS KD U CH).
  - (* TSpentAsset *) destruct (nth_error spent i) as [u|] eqn:NS; [|discriminate]. apply andb_true_iff in AP as [KD AP]. apply negb_true_iff in CH.
    exact (reject_spent_asset T spent ss V OP i u a NS KD AP CH).
Qed.

(* so a tampered transaction that still passes both loops is refused at the balance *)
Corollary tamper_balance_failed T spent ss t ins' outs' spent' dom coms ocoms :
  verify_tx_amt_proofs T spent = OVal tt -> opens (t_in T) spent ss ->
  Forall (fun o => forall v, o_value o = VExp v -> 0 <= v < qn) (t_out T) ->
  applicable t (T, spent) = true -> changes t (T, spent) = true -> apply t (T, spent) = (mkTx ins' outs', spent') ->
  length spent' = length ins' -> verify_inputs ins' spent' 0 = OVal (dom, coms) -> verify_outputs dom outs' 0 = OVal ocoms ->
  verify_tx_amt_proofs (mkTx ins' outs') spent' = OFail BalanceCheckFailed.
Proof.
  intros V OP U AP CH E L VI VO. apply (verify_balance_failed (mkTx ins' outs') _ dom coms ocoms L VI VO).
  pose proof (tamper_rejected T spent ss t V OP U AP CH) as R. now rewrite E in R.
Qed.

(* a checkable form of the amount-range hypothesis *)
Definition explicit_amounts_in_range (outs : list txout) : bool :=
  forallb (fun o => match o_value o with VExp v => (0 <=? v) && (v <? qn) | _ => true end) outs.
Lemma explicit_amounts_in_range_ok outs : explicit_amounts_in_range outs = true ->
  Forall (fun o => forall v, o_value o = VExp v -> 0 <= v < qn) outs.
Proof.
  unfold explicit_amounts_in_range. rewrite forallb_forall, Forall_forall. intros H o I v E. specialize (H o I). rewrite E in H.
  apply andb_true_iff in H as [A B]. apply Z.leb_le in A. apply Z.ltb_lt in B. lia.
Qed.

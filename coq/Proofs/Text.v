(* Proofs for Model/Text.v: parse (print x) = Ok x for every Display/FromStr pair. *)
From Coq Require Import List NArith ZArith Bool Lia ZifyN ZifyBool ZifyNat.
From Coq.Strings Require Import Byte.
From EV Require Import Base.Bytes Gen.Tables Model.Tx Model.Text.
Import ListNotations.
Ltac Zify.zify_post_hook ::= Z.div_mod_to_equations.
Open Scope N_scope.

Lemma lt16_cases (P : N -> Prop) : Forall P (map N.of_nat (seq 0 16)) -> forall d, d < 16 -> P d.
Proof. intros H d Hd. rewrite Forall_forall in H. apply H. rewrite <- (Nnat.N2Nat.id d). apply in_map. apply List.in_seq. lia. Qed.
Lemma unhex_hexdigit d : d < 16 -> unhexdigit (hexdigit d) = Some d.
Proof. revert d. apply lt16_cases. repeat constructor. Qed.
Lemma undigit_hexdigit r d : r <= 16 -> d < r -> undigit r (hexdigit d) = Some d.
Proof. intros Hr Hd. unfold undigit. rewrite unhex_hexdigit by lia. destruct (N.ltb_spec d r); [reflexivity|lia]. Qed.
Definition plain_char (c : byte) : bool := negb (byte_eqb c colon) && negb (byte_eqb c plus) && negb (byte_eqb c minus).
Lemma plain_char_neq c : plain_char c = true -> byte_eqb c colon = false /\ byte_eqb c plus = false /\ byte_eqb c minus = false.
Proof. unfold plain_char. rewrite !andb_true_iff, !negb_true_iff. tauto. Qed.
Lemma hexdigit_plain d : d < 16 -> plain_char (hexdigit d) = true.
Proof. revert d. apply lt16_cases. repeat constructor. Qed.
Lemma hexdigit_not_zero d : d < 16 -> d <> 0 -> byte_eqb (hexdigit d) zero_ch = false.
Proof. revert d. apply (lt16_cases (fun d => d <> 0 -> _ = false)). repeat constructor. intros Hz. now elim Hz. Qed.
Lemma hexdigit_not_x d : d < 16 -> byte_eqb (hexdigit d) x78 = false.
Proof. revert d. apply lt16_cases. repeat constructor. Qed.

Lemma hex_of_bytes_cons x b : hex_of_bytes (x :: b) = hexdigit (b2n x / 16) :: hexdigit (b2n x mod 16) :: hex_of_bytes b.
Proof. reflexivity. Qed.
Lemma hex_pairs_of_bytes b : hex_pairs (hex_of_bytes b) = Ok b.
Proof. induction b as [|x b IH]; [reflexivity|]. rewrite hex_of_bytes_cons. cbn [hex_pairs].
  pose proof (b2n_lt x) as Hx. rewrite !unhex_hexdigit by lia. rewrite IH. cbn [rbind]. do 2 f_equal.
  replace (16 * (b2n x / 16) + b2n x mod 16) with (b2n x) by lia. apply n2b_b2n. Qed.
Lemma hex_of_bytes_length b : length (hex_of_bytes b) = (2 * length b)%nat.
Proof. induction b as [|x b IH]; [reflexivity|]. rewrite hex_of_bytes_cons. cbn [length]. lia. Qed.
Lemma hex_of_bytes_plain b : forallb plain_char (hex_of_bytes b) = true.
Proof. induction b as [|x b IH]; [reflexivity|]. rewrite hex_of_bytes_cons. cbn [forallb]. pose proof (b2n_lt x).
  rewrite !hexdigit_plain by lia. exact IH. Qed.
Lemma hex_decode_fixed_ok len b : N.of_nat (length b) = len -> hex_decode_fixed len (hex_of_bytes b) = Ok b.
Proof. intros L. unfold hex_decode_fixed. rewrite hex_of_bytes_length.
  destruct (N.eqb_spec (N.of_nat (2 * length b)) (2 * len)); [apply hex_pairs_of_bytes|lia]. Qed.
Lemma maybe_rev_length r b : length (maybe_rev r b) = length b.
Proof. destruct r; cbn; [apply rev_length|reflexivity]. Qed.
Lemma maybe_rev_invol r b : maybe_rev r (maybe_rev r b) = b.
Proof. destruct r; cbn; [apply rev_involutive|reflexivity]. Qed.
Lemma parse_print_hash len r b : N.of_nat (length b) = len -> parse_hash len r (print_hash r b) = Ok b.
Proof. intros L. unfold parse_hash, print_hash. rewrite hex_decode_fixed_ok by (now rewrite maybe_rev_length).
  cbn [rbind]. now rewrite maybe_rev_invol. Qed.
Lemma parse_print_bf len r b : N.of_nat (length b) = len -> tweak_ok b = true -> parse_bf len r (print_bf r b) = Ok b.
Proof. intros L T. unfold parse_bf, print_bf. rewrite parse_print_hash by exact L. cbn [rbind]. now rewrite T. Qed.
(* a row of the regenerated tables of hash newtypes: (name, (length, (Display backward, FromStr backward))) *)
Lemma hash_table_dirs (T : list (bytes * (N * (bool * bool)))) name len db pb :
  forallb (fun e => Bool.eqb (fst (snd (snd e))) (snd (snd (snd e)))) T = true -> In (name, (len, (db, pb))) T -> db = pb.
Proof. intros D HIn. rewrite forallb_forall in D. exact (Bool.eqb_prop _ _ (D _ HIn)). Qed.

Section RADIX.
Variables r B : N.
Hypothesis Hr2 : 2 <= r. Hypothesis Hr16 : r <= 16.

(* the fuel of print_radix is one more than log2 n, and a division by the radix at least halves *)
Lemma div_fuel n f : n < 2 ^ N.of_nat (S f) -> n / r < 2 ^ N.of_nat f.
Proof. rewrite Nnat.Nat2N.inj_succ, N.pow_succ_r'. intros H. apply N.div_lt_upper_bound; [lia|].
  apply N.lt_le_trans with (1 := H). now apply N.mul_le_mono_r. Qed.
Lemma parse_digit_step n acc : n < B -> parse_digits r B (hexdigit (n mod r) :: acc) (n / r) = parse_digits r B acc n.
Proof. intros HB. cbn [parse_digits]. rewrite undigit_hexdigit by (try apply N.mod_upper_bound; lia).
  replace (n / r * r + n mod r) with n by (rewrite N.mul_comm; apply N.div_mod'). apply N.ltb_lt in HB. now rewrite HB. Qed.

Lemma log2_fuel n : n < 2 ^ N.of_nat (S (N.to_nat (N.log2 n))).
Proof. rewrite Nnat.Nat2N.inj_succ, Nnat.N2Nat.id. destruct (N.eq_dec n 0) as [->|Hz]; [cbn; lia|].
  apply N.log2_spec. lia. Qed.

(* Induction along the digit loop, whatever its fuel: `P n acc out` reads "started on n with acc, the loop returns out".
   A number below the radix is its own digit; otherwise the last digit goes in front of acc and the loop goes on with n / r. *)
Lemma print_radix_ind (P : N -> bytes -> bytes -> Prop) :
  (forall n acc, n < r -> P n acc (hexdigit n :: acc)) ->
  (forall n acc out, r <= n -> P (n / r) (hexdigit (n mod r) :: acc) out -> P n acc out) ->
  forall n, P n [] (print_radix r n).
Proof. intros Small Big.
  assert (G : forall fuel n acc, n < 2 ^ N.of_nat fuel -> (0 < fuel)%nat -> P n acc (digits r fuel n acc)).
  { induction fuel as [|f IH]; intros n acc Hn Hf; [lia|]. cbn [digits]. destruct (N.eqb_spec (n / r) 0) as [E|E].
    - apply N.div_small_iff in E; [|lia]. rewrite N.mod_small by exact E. now apply Small.
    - assert (r <= n) by (destruct (N.le_gt_cases r n) as [L|L]; [exact L|]; elim E; now apply N.div_small).
      apply Big; [assumption|]. apply div_fuel in Hn. destruct f as [|f']; [now apply N.lt_1_r in Hn|]. apply IH; [exact Hn|lia]. }
  intros n. apply G; [apply log2_fuel|lia]. Qed.

Lemma parse_digits_print n : n < B -> parse_digits r B (print_radix r n) 0 = Ok n.
Proof. revert n. apply (print_radix_ind (fun n acc out => n < B -> parse_digits r B out 0 = parse_digits r B acc n)).
  - intros n acc Hn HB. rewrite <- (parse_digit_step n acc HB). now rewrite N.mod_small, N.div_small.
  - intros n acc out Hn IH HB. rewrite IH; [now apply parse_digit_step|].
    apply N.lt_trans with (2 := HB). apply N.div_lt; lia. Qed.

Lemma print_radix_leading_digit n : exists d l, print_radix r n = hexdigit d :: l /\ d < r /\ (d = 0 -> l = []).
Proof.
  enough (G : exists d l, print_radix r n = hexdigit d :: l /\ d < r /\ (d = 0 -> n = 0 /\ l = [])).
  { destruct G as (d & l & E & Hd & Hz). exists d, l. split; [exact E|split; [exact Hd|]]. intros Z. now apply Hz. }
  revert n. apply (print_radix_ind (fun n acc out => exists d l, out = hexdigit d :: l /\ d < r /\ (d = 0 -> n = 0 /\ l = acc))).
  - intros n acc Hn. exists n, acc. auto.
  - intros n acc out Hn (d & l & E & Hd & Hz). exists d, l. split; [exact E|split; [exact Hd|]].
    intros Z. destruct (Hz Z) as [Z' _]. apply N.div_small_iff in Z'; lia. Qed.

Lemma print_radix_forall (Q : byte -> bool) n : (forall d, d < r -> Q (hexdigit d) = true) -> forallb Q (print_radix r n) = true.
Proof. intros HQ. apply (print_radix_ind (fun n acc out => forallb Q acc = true -> forallb Q out = true)); [| |reflexivity].
  - intros m acc Hm Ha. cbn [forallb]. now rewrite HQ, Ha.
  - intros m acc out Hm IH Ha. apply IH. cbn [forallb]. rewrite HQ, Ha; [reflexivity|]. apply N.mod_upper_bound. lia. Qed.

Lemma print_radix_length n k : n < r ^ N.of_nat k -> (1 <= k)%nat -> (length (print_radix r n) <= k)%nat.
Proof. revert n k. apply (print_radix_ind (fun n acc out => forall k, n < r ^ N.of_nat k -> (1 <= k)%nat -> (length out <= length acc + k)%nat)).
  - intros n acc Hn k _ Hk. cbn [length]. lia.
  - intros n acc out Hn IH k Hk H1. destruct k as [|k]; [lia|]. rewrite Nnat.Nat2N.inj_succ, N.pow_succ_r' in Hk.
    destruct k as [|k]; [cbn in Hk; lia|]. specialize (IH (S k)). cbn [length] in IH.
    assert (n / r < r ^ N.of_nat (S k)) by (apply N.div_lt_upper_bound; lia). lia. Qed.

Lemma parse_print_radix n : n < B -> parse_uint r B (print_radix r n) = Ok n.
Proof. intros HB. destruct (print_radix_leading_digit n) as (d & l & E & Hd & _).
  pose proof (parse_digits_print n HB) as P.
  unfold parse_uint. rewrite E in *. destruct (plain_char_neq _ (hexdigit_plain d ltac:(lia))) as (_ & -> & ->). exact P. Qed.
End RADIX.

Lemma parse_print_u32 n : n < u32_bound -> parse_u32 (print_dec n) = Ok n.
Proof. intros H. unfold parse_u32, print_dec. apply parse_print_radix; lia. Qed.
Lemma print_dec_plain n : forallb plain_char (print_dec n) = true.
Proof. apply (print_radix_forall 10 ltac:(lia) ltac:(lia)). intros d Hd. apply hexdigit_plain. lia. Qed.
Lemma print_dec_length n : n < u32_bound -> (1 <= length (print_dec n) <= 10)%nat.
Proof. intros H. split.
  - destruct (print_radix_leading_digit 10 ltac:(lia) ltac:(lia) n) as (d & l & E & _). unfold print_dec. rewrite E. cbn [length]. lia.
  - apply (print_radix_length 10 ltac:(lia) ltac:(lia)); [|lia]. unfold u32_bound in H. change (10 ^ N.of_nat 10) with 10000000000. lia. Qed.

Lemma threshold_le_u32 : C20_LOCK_TIME_THRESHOLD <= u32_bound. Proof. vm_compute. discriminate. Qed.
Lemma parse_print_locktime l : locktime_wf l = true -> parse_locktime (print_locktime l) = Ok l.
Proof. unfold parse_locktime, print_locktime, locktime_wf, locktime_from_consensus. destruct l as [h|t]; cbn [locktime_to_consensus]; intros W.
  - pose proof threshold_le_u32. rewrite parse_print_u32 by lia. cbn [rbind]. now rewrite W.
  - rewrite parse_print_u32 by lia. cbn [rbind]. destruct (N.ltb_spec t C20_LOCK_TIME_THRESHOLD); [lia|reflexivity]. Qed.
Lemma parse_print_locktime_any l : locktime_to_consensus l < u32_bound ->
  parse_locktime (print_locktime l) = Ok (locktime_from_consensus (locktime_to_consensus l)).
Proof. intros H. unfold parse_locktime, print_locktime. now rewrite parse_print_u32. Qed.
Lemma locktime_from_consensus_wf n : n < u32_bound -> locktime_wf (locktime_from_consensus n) = true.
Proof. intros H. unfold locktime_from_consensus, locktime_wf. destruct (N.ltb_spec n C20_LOCK_TIME_THRESHOLD) as [L|L].
  - now apply N.ltb_lt.
  - apply andb_true_intro. split; [now apply N.leb_le|now apply N.ltb_lt]. Qed.
Lemma parse_print_locktime_iff l : locktime_to_consensus l < u32_bound ->
  (parse_locktime (print_locktime l) = Ok l <-> locktime_wf l = true).
Proof. intros H. split; [|apply parse_print_locktime]. rewrite parse_print_locktime_any by exact H. intros [= E].
  rewrite <- E. now apply locktime_from_consensus_wf. Qed.
Lemma parse_print_height h : h < C20_LOCK_TIME_THRESHOLD -> parse_height (print_height h) = Ok h.
Proof. intros H. unfold parse_height, print_height. pose proof threshold_le_u32.
  rewrite parse_print_u32 by lia. cbn [rbind]. destruct (N.ltb_spec h C20_LOCK_TIME_THRESHOLD); [reflexivity|lia]. Qed.
Lemma parse_print_time t : C20_LOCK_TIME_THRESHOLD <= t -> t < u32_bound -> parse_time (print_time t) = Ok t.
Proof. intros H1 H2. unfold parse_time, print_time. rewrite parse_print_u32 by lia. cbn [rbind].
  destruct (N.leb_spec C20_LOCK_TIME_THRESHOLD t); [reflexivity|lia]. Qed.

Lemma starts_with_app p s : starts_with p (p ++ s) = true.
Proof. induction p as [|a p IH]; [reflexivity|]. cbn. rewrite IH. destruct (byte_eqb_spec a a); [reflexivity|congruence]. Qed.
Lemma skipn_past {A} (a : list A) x b : skipn (S (length a)) (a ++ x :: b) = b.
Proof. induction a; [reflexivity|assumption]. Qed.
Lemma find_colon_none D : forallb plain_char D = true -> find_byte colon D = None /\ rfind_byte colon D = None.
Proof. induction D as [|x D IH]; [split; reflexivity|]. cbn [forallb]. intros H. apply andb_prop in H as [Hx HD].
  destruct (IH HD) as [F R]. destruct (plain_char_neq _ Hx) as (C & _). cbn [find_byte rfind_byte]. rewrite C, F, R. split; reflexivity. Qed.
Lemma find_colon_app H D : forallb plain_char H = true -> find_byte colon (H ++ colon :: D) = Some (length H).
Proof. induction H as [|x H IH]; [reflexivity|]. cbn [forallb]. intros Hp. apply andb_prop in Hp as [Hx HH].
  destruct (plain_char_neq _ Hx) as (C & _). cbn [app find_byte length]. rewrite C, (IH HH). reflexivity. Qed.
Lemma rfind_colon_app H D : forallb plain_char D = true -> rfind_byte colon (H ++ colon :: D) = Some (length H).
Proof. intros HD. induction H as [|x H IH].
  - cbn [app rfind_byte length]. destruct (find_colon_none D HD) as [_ ->]. reflexivity.
  - cbn [app rfind_byte length]. now rewrite IH. Qed.

(* a numeral with neither sign nor leading zero passes the test of parse_vout *)
Lemma parse_vout_canonical d l : d < 16 -> (d = 0 -> l = []) -> parse_vout (hexdigit d :: l) = parse_u32 (hexdigit d :: l).
Proof. intros Hd Hz. unfold parse_vout. destruct l as [|c l]; [reflexivity|].
  destruct (plain_char_neq _ (hexdigit_plain d Hd)) as (_ & -> & _).
  rewrite hexdigit_not_zero; [reflexivity|exact Hd|]. intros Z. now specialize (Hz Z). Qed.
Lemma parse_vout_print v : v < u32_bound -> parse_vout (print_dec v) = Ok v.
Proof. intros Hv. destruct (print_radix_leading_digit 10 ltac:(lia) ltac:(lia) v) as (d & l & E & Hd & Hz).
  rewrite <- (parse_print_u32 v Hv). unfold print_dec. rewrite E. apply parse_vout_canonical; [lia|exact Hz]. Qed.

(* bitcoin::OutPoint::from_str on any two colon-free, non-empty halves: the split at the one colon *)
Lemma parse_btc_outpoint_split H D : forallb plain_char H = true -> forallb plain_char D = true ->
  (0 < length H)%nat -> (0 < length D)%nat -> (length H + length D < 75)%nat ->
  parse_btc_outpoint (H ++ colon :: D) =
  match parse_hash 32 true H with Err _ => Err "txid"%lb | Ok t => rbind (parse_vout D) (fun v => Ok {| o_txid := t; o_vout := v |}) end.
Proof. intros PH PD LH LD L. unfold parse_btc_outpoint. rewrite app_length. cbn [length].
  destruct (Nat.ltb_spec 75 (length H + S (length D))); [lia|].
  rewrite (find_colon_app H D PH), (rfind_colon_app H D PD). cbn [opt_nat_eqb]. rewrite Nat.eqb_refl. cbn [negb].
  destruct (Nat.eqb_spec (length H) 0); [lia|]. destruct (Nat.eqb_spec (length H) (length H + S (length D) - 1)); [lia|]. cbn [orb].
  now rewrite firstn_app_len, skipn_past. Qed.
Lemma parse_print_btc_outpoint txid v : length txid = 32%nat -> v < u32_bound ->
  parse_btc_outpoint (print_hash true txid ++ colon :: print_dec v) = Ok {| o_txid := txid; o_vout := v |}.
Proof. intros Lt Hv. pose proof (print_dec_length v Hv) as LD.
  assert (LH : length (print_hash true txid) = 64%nat) by (unfold print_hash; rewrite hex_of_bytes_length, maybe_rev_length; lia).
  rewrite parse_btc_outpoint_split by (try apply hex_of_bytes_plain; try apply print_dec_plain; lia).
  rewrite parse_print_hash by (now rewrite Lt). now rewrite parse_vout_print. Qed.

Lemma parse_print_outpoint o : length (o_txid o) = 32%nat -> o_vout o < u32_bound -> parse_outpoint (print_outpoint o) = Ok o.
Proof. intros Lt Hv. unfold parse_outpoint, print_outpoint.
  change outpoint_parse_prefix with outpoint_display_prefix. rewrite starts_with_app.
  change (N.to_nat outpoint_parse_skip) with (length outpoint_display_prefix). rewrite skipn_app_len.
  change hash_display_backward_Txid with true. change outpoint_display_sep with [colon]. cbn [app].
  rewrite parse_print_btc_outpoint by assumption. now destruct o. Qed.

Definition resN_eqb (a b : res N) : bool := match a, b with Ok x, Ok y => x =? y | _, _ => false end.
Lemma resN_eqb_ok a v : resN_eqb a (Ok v) = true -> a = Ok v.
Proof. destruct a as [x|e]; cbn; [|discriminate]. intros E. apply N.eqb_eq in E. now subst. Qed.
Lemma is_variant_in variants v : is_variant variants v = true -> In v (map snd variants).
Proof. unfold is_variant. induction variants as [|[k v'] l IH]; cbn; [discriminate|].
  destruct (N.eqb_spec v v'); [left; congruence|]. intros H. right. now apply IH. Qed.
Lemma assocN_in {B} k (l : list (N * B)) x : assocN k l = Some x -> In k (map fst l).
Proof. induction l as [|[k' v] l IH]; cbn; [discriminate|]. destruct (N.eqb_spec k k'); [left; congruence|]. intros H. right. now apply IH. Qed.

Lemma roundtrip_in (f : N -> res N) l v : forallb (fun v => resN_eqb (f v) (Ok v)) l = true -> In v l -> f v = Ok v.
Proof. intros T H. apply resN_eqb_ok. rewrite forallb_forall in T. now apply T. Qed.

Lemma ecdsa_table_roundtrip : forallb (fun v => resN_eqb (parse_ecdsa_sighash (print_ecdsa_sighash v)) (Ok v)) (map snd ecdsa_sighash_variants) = true.
Proof. vm_compute. reflexivity. Qed.
Lemma schnorr_table_roundtrip : forallb (fun v => resN_eqb (parse_schnorr_sighash (print_schnorr_sighash v)) (Ok v)) (map snd schnorr_sighash_variants) = true.
Proof. vm_compute. reflexivity. Qed.
Lemma parse_print_ecdsa v : is_variant ecdsa_sighash_variants v = true -> parse_ecdsa_sighash (print_ecdsa_sighash v) = Ok v.
Proof. intros H. exact (roundtrip_in _ _ v ecdsa_table_roundtrip (is_variant_in _ v H)). Qed.
Lemma parse_print_schnorr v : is_variant schnorr_sighash_variants v = true -> parse_schnorr_sighash (print_schnorr_sighash v) = Ok v.
Proof. intros H. exact (roundtrip_in _ _ v schnorr_table_roundtrip (is_variant_in _ v H)). Qed.

(* PsbtSighashType: named values by the table, everything else through "0x" + minimal lower-case hex *)
Lemma psbt_named_roundtrip : forallb (fun v => resN_eqb (parse_psbt_sighash (print_psbt_sighash v)) (Ok v)) (map fst schnorr_sighash_from_u8) = true.
Proof. vm_compute. reflexivity. Qed.
Lemma schnorr_keys_not_0 : forallb (fun kv => match fst kv with c :: _ => negb (byte_eqb c x30) | [] => true end) schnorr_sighash_fromstr = true.
Proof. vm_compute. reflexivity. Qed.
Lemma assoc_head_none {B} (tbl : list (bytes * B)) s :
  forallb (fun kv => match fst kv with c :: _ => negb (byte_eqb c x30) | [] => true end) tbl = true -> assoc (x30 :: s) tbl = None.
Proof. induction tbl as [|[k v] l IH]; [reflexivity|]. cbn [forallb fst]. intros H. apply andb_prop in H as [Hk Hl].
  cbn [assoc]. destruct k as [|c k]; [cbn; now apply IH|]. cbn [bytes_eqb].
  destruct (byte_eqb_spec x30 c) as [<-|]; [cbn in Hk; discriminate|]. cbn. now apply IH. Qed.

Lemma trim_strip f a p s : trim_start_matches (S f) (a :: p) ((a :: p) ++ s) = trim_start_matches f (a :: p) s.
Proof. cbn [trim_start_matches]. rewrite starts_with_app. now rewrite skipn_app_len. Qed.
Lemma trim_stop f a p s : starts_with (a :: p) s = false -> trim_start_matches (S f) (a :: p) s = s.
Proof. intros H. cbn [trim_start_matches]. now rewrite H. Qed.
Lemma byte_eqb_sym a b : byte_eqb a b = byte_eqb b a.
Proof. destruct (byte_eqb_spec a b), (byte_eqb_spec b a); congruence. Qed.

(* "0x" before a numeral without leading zero: no name of the table begins with '0', and the prefix is stripped exactly once *)
Lemma parse_psbt_hex_split d l : d < 16 -> (d = 0 -> l = []) ->
  parse_psbt_sighash ("0x"%lb ++ hexdigit d :: l) =
  match parse_uint 16 u32_bound (hexdigit d :: l) with Ok v => Ok v | Err _ => Err "unrecognized"%lb end.
Proof. intros Hd Hz. unfold parse_psbt_sighash. change (unlit "0x"%lb) with [x30; x78]. cbn [app].
  rewrite (assoc_head_none _ _ schnorr_keys_not_0).
  change psbt_sighash_prefix with [x30; x78]. change psbt_sighash_radix with 16.
  cbn [length]. change (x30 :: x78 :: hexdigit d :: l) with ([x30; x78] ++ hexdigit d :: l).
  rewrite trim_strip, trim_stop; [reflexivity|]. cbn [starts_with].
  destruct l as [|c l]; [now rewrite andb_false_r|].
  rewrite byte_eqb_sym. fold zero_ch. rewrite hexdigit_not_zero; [reflexivity|exact Hd|]. intros Z. now specialize (Hz Z). Qed.
Lemma parse_print_psbt_hex v : v < u32_bound -> parse_psbt_sighash ("0x"%lb ++ print_radix 16 v) = Ok v.
Proof. intros Hv. destruct (print_radix_leading_digit 16 ltac:(lia) ltac:(lia) v) as (d & l & E & Hd & Hz).
  rewrite E, parse_psbt_hex_split, <- E by assumption. now rewrite parse_print_radix by (try lia; exact Hv). Qed.

Lemma parse_print_psbt v : v < u32_bound -> parse_psbt_sighash (print_psbt_sighash v) = Ok v.
Proof. intros Hv. destruct (psbt_schnorr_name v) as [name|] eqn:E.
  - apply (roundtrip_in _ _ v psbt_named_roundtrip).
    unfold psbt_schnorr_name in E. destruct (psbt_sighash_u8_max <? v); [discriminate|]. now apply assocN_in in E.
  - unfold print_psbt_sighash. rewrite E. now apply parse_print_psbt_hex. Qed.

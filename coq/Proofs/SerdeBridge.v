(* The consensus codecs' canonicity predicates imply the serde invariants of Model/Serde.v (so every C20_serde theorem also holds
   under `wf (c_T ..) x = true`, the hypothesis of C01). *)
From Coq Require Import List NArith ZArith Bool Lia ZifyN ZifyBool ZifyNat.
From Coq.Strings Require Import Byte.
From EV Require Import Base.Bytes Base.Codec Gen.Tables Model.Tx Model.Block Model.Text Model.Serde Proofs.Flags Proofs.Tx Proofs.Ids Proofs.Text Proofs.Serde.
Import ListNotations.
Ltac Zify.zify_post_hook ::= Z.div_mod_to_equations.
Open Scope N_scope.
Set Default Timeout 20.
Local Opaque tweak_ok rangeproof_ok surjproof_ok.

(* the hypothesis that is the goal letter for letter: `assumption` compares the goal with every hypothesis up to conversion, and
   between a codec's `wf` and the `swf` of the same field (br_issuance) that does not come back *)
Ltac hyp := match goal with H : ?A = true |- ?B = true => constr_eq A B; exact H end.
Ltac conj_all := repeat match goal with |- (_ && _ = true) => apply andb_true_intro; split end.

Section BRIDGE.
Variable pt_ok : bytes -> bool.
Variables maxvec ci co cv ct : N.

Lemma br_value v : wf (c_value pt_ok) v = true -> swf_value pt_ok v = true.
Proof. destruct v; cbn [wf c_value value_wf swf_value c_be]; auto. Qed.
Lemma br_asset v : wf (c_asset pt_ok) v = true -> swf_asset pt_ok v = true.
Proof. destruct v; cbn [wf c_asset asset_wf swf_asset]; auto. Qed.
Lemma br_nonce v : wf (c_nonce pt_ok) v = true -> swf_nonce pt_ok v = true.
Proof. destruct v; cbn [wf c_nonce nonce_wf swf_nonce]; auto. Qed.
Lemma u32_of_wf n : wf c_u32 n = true -> u32_ok n = true.
Proof. unfold u32_ok, u32_bound, c_u32, c_le. cbn [wf]. change (256 ^ N.of_nat 4) with 4294967296. auto. Qed.
Lemma br_issuance i : wf (c_issuance pt_ok) i = true -> swf_issuance pt_ok i = true.
Proof. unfold c_issuance, c_tweak, c_hash32. cbn [wf c_conv c_pair c_guard c_fixed]. intros H. split_all. unfold swf_issuance, len_is.
  conj_all; try hyp; now apply br_value. Qed.
Lemma br_optproof ok o : wf (c_optproof maxvec ok) o = true -> swf_optproof ok o = true.
Proof. unfold c_optproof. cbn [wf c_conv]. intros H. split_all. destruct o as [p|]; cbn [swf_optproof]; [|reflexivity].
  split_all. hyp. Qed.
Lemma br_inwit w : wf (c_inwit maxvec cv) w = true -> swf_inwit w = true.
Proof. unfold c_inwit, c_rangeproof. cbn [wf c_conv c_pair]. intros H. split_all. unfold swf_inwit. conj_all; now apply br_optproof. Qed.
Lemma br_outwit w : wf (c_outwit maxvec) w = true -> swf_outwit w = true.
Proof. unfold c_outwit, c_rangeproof, c_surjproof. cbn [wf c_conv c_pair]. intros H. split_all. unfold swf_outwit. conj_all; now apply br_optproof. Qed.
Lemma empty_inwit_swf w : inwit_is_empty w = true -> swf_inwit w = true.
Proof. unfold inwit_is_empty, swf_inwit. destruct (w_amount_rp w), (w_keys_rp w); try discriminate. reflexivity. Qed.
Lemma empty_outwit_swf w : outwit_is_empty w = true -> swf_outwit w = true.
Proof. unfold outwit_is_empty, swf_outwit. destruct (w_surj w), (w_range w); try discriminate. reflexivity. Qed.

Definition swf_txin_core (i : txin) : bool := swf_outpoint (in_prev i) && u32_ok (in_seq i) && swf_issuance pt_ok (in_iss i).
Lemma swf_txin_split i : swf_txin pt_ok i = swf_txin_core i && swf_inwit (in_wit i). Proof. reflexivity. Qed.
Lemma default_issuance_swf i : issuance_is_default i = true -> swf_issuance pt_ok i = true.
Proof. unfold issuance_is_default, issuance_is_null, value_is_null. intros H. split_all.
  destruct (bytes_eqb_spec (i_nonce i) zero32) as [E1|]; [|discriminate]. destruct (bytes_eqb_spec (i_entropy i) zero32) as [E2|]; [|discriminate].
  unfold swf_issuance. rewrite E1, E2. destruct (i_amount i); try discriminate. destruct (i_keys i); try discriminate. vm_compute. reflexivity. Qed.
Lemma index_ok_u32 v pg hi : index_ok v pg hi = true -> u32_ok v = true.
Proof. unfold index_ok, B30, ALL1, u32_ok, u32_bound. intros H. apply N.ltb_lt. apply orb_prop in H as [H|H]; split_all; [lia|apply N.eqb_eq in H; lia]. Qed.
Lemma br_txin_core i : wf (c_txin_nowit pt_ok maxvec) i = true -> swf_txin_core i = true /\ inwit_is_empty (in_wit i) = true.
Proof. intros (B & W)%wf_conv. apply txin_wfB_parts in B as (Bv & _ & Be). split; [|exact Be].
  apply wf_dep in W as [Wh Wi]. apply wf_pair in Wh as ((Wt & _)%wf_pair & (_ & Wq)%wf_pair).
  unfold swf_txin_core, swf_outpoint, len_is. conj_all.
  - exact Wt.
  - exact (index_ok_u32 _ _ _ Bv).
  - now apply u32_of_wf.
  - cbn [fst snd] in Wi. destruct (wire_has_issuance _) in Wi.
    + now apply br_issuance.
    + apply wf_conv in Wi as [Hd _]. now apply default_issuance_swf. Qed.
Lemma br_txin i : wf (c_txin pt_ok maxvec) i = true -> swf_txin pt_ok i = true.
Proof. intros H. destruct (br_txin_core i H) as [C E]. rewrite swf_txin_split, C. now rewrite empty_inwit_swf. Qed.

Definition swf_txout_core (o : txout) : bool := swf_asset pt_ok (out_asset o) && swf_value pt_ok (out_value o) && swf_nonce pt_ok (out_nonce o).
Lemma swf_txout_split o : swf_txout pt_ok o = swf_txout_core o && swf_outwit (out_wit o). Proof. reflexivity. Qed.
Lemma br_txout_core o : wf (c_txout_nowit pt_ok maxvec) o = true -> swf_txout_core o = true /\ outwit_is_empty (out_wit o) = true.
Proof. unfold c_txout_nowit. cbn [wf c_conv c_pair]. intros H. split_all. split; [|hyp]. unfold swf_txout_core. conj_all.
  - now apply br_asset. - now apply br_value. - now apply br_nonce. Qed.
Lemma br_txout o : wf (c_txout pt_ok maxvec) o = true -> swf_txout pt_ok o = true.
Proof. intros H. destruct (br_txout_core o H) as [C E]. rewrite swf_txout_split, C. now rewrite empty_outwit_swf. Qed.

Lemma forallb_impl2 {A} (P Q R : A -> bool) l : (forall x, P x = true -> Q x = true -> R x = true) ->
  forallb P l = true -> forallb Q l = true -> forallb R l = true.
Proof. intros H. induction l as [|a l IH]; [reflexivity|]. cbn. intros E F. apply andb_prop in E as [Ea El]. apply andb_prop in F as [Fa Fl].
  now rewrite (H a Ea Fa), IH. Qed.

Lemma br_ins ins : forallb (wf (c_txin_nowit pt_ok maxvec)) (map (strip_in) ins) = true -> forallb swf_inwit (map in_wit ins) = true ->
  forallb (swf_txin pt_ok) ins = true.
Proof. rewrite !forallb_map. apply forallb_impl2. intros i H1 H2. destruct (br_txin_core _ H1) as [C _]. rewrite swf_txin_split, H2, andb_true_r. exact C. Qed.
Lemma br_outs outs : forallb (wf (c_txout_nowit pt_ok maxvec)) (map (strip_out) outs) = true -> forallb swf_outwit (map out_wit outs) = true ->
  forallb (swf_txout pt_ok) outs = true.
Proof. rewrite !forallb_map. apply forallb_impl2. intros o H1 H2. destruct (br_txout_core _ H1) as [C _]. rewrite swf_txout_split, H2, andb_true_r. exact C. Qed.
Lemma no_inwits ins : existsb (fun i => negb (inwit_is_empty (in_wit i))) ins = false -> forallb swf_inwit (map in_wit ins) = true.
Proof. rewrite (existsb_negb_forallb (fun i => inwit_is_empty (in_wit i))), negb_false_iff, forallb_map. apply forallb_impl. intros i. apply empty_inwit_swf. Qed.
Lemma no_outwits outs : existsb (fun o => negb (outwit_is_empty (out_wit o))) outs = false -> forallb swf_outwit (map out_wit outs) = true.
Proof. rewrite (existsb_negb_forallb (fun o => outwit_is_empty (out_wit o))), negb_false_iff, forallb_map. apply forallb_impl. intros o. apply empty_outwit_swf. Qed.

(* the witnesses of a canonical transaction are well formed, whether they travel (flag 1) or are all empty (flag 0) *)
Lemma br_tx_wits t : wf (c_tx_wits maxvec cv (fst (wire_of_tx t))) (snd (wire_of_tx t)) = true ->
  forallb swf_inwit (map in_wit (tx_in t)) = true /\ forallb swf_outwit (map out_wit (tx_out t)) = true.
Proof. unfold c_tx_wits, wire_of_tx, head_flag, head_ins, head_outs. cbn [fst snd]. destruct (has_witness t) eqn:HW.
  - cbn [N.eqb Pos.eqb wf c_pair c_vecn]. intros H. split_all. split; (eapply forallb_impl; [|eassumption]); intros x; [apply br_inwit|apply br_outwit].
  - intros _. apply orb_false_elim in HW as [HI HO]. split; [now apply no_inwits|now apply no_outwits]. Qed.
Lemma br_tx t : wf (c_tx pt_ok maxvec ci co cv) t = true -> swf_tx pt_ok t = true.
Proof. unfold c_tx. cbn [wf c_conv]. unfold c_tx_wire. cbn [wf c_dep]. intros H. apply andb_prop in H as [_ H]. apply andb_prop in H as [Hh Hw].
  destruct (br_tx_wits t Hw) as [WI WO].
  unfold wire_of_tx, c_tx_head in Hh. cbn [fst wf c_pair c_vec] in Hh. split_all.
  unfold swf_tx. conj_all; [now apply u32_of_wf|now apply u32_of_wf|apply br_ins; [hyp|exact WI]|apply br_outs; [hyp|exact WO]]. Qed.

Lemma br_params p : wf (c_params maxvec cv) p = true -> swf_params p = true.
Proof. unfold c_params. cbn [wf c_conv c_dep]. intros H. apply andb_prop in H as [_ H]. apply andb_prop in H as [_ H].
  destruct p as [|s l e|f]; [reflexivity| |]; unfold c_params_body, params_tag in H; cbn [N.eqb Pos.eqb] in H.
  - unfold c_hash32 in H. cbn [wf c_conv c_pair c_fixed] in H. split_all. unfold swf_params, len_is. conj_all; [now apply u32_of_wf|hyp].
  - cbn [wf c_conv] in H. apply andb_prop in H as [_ H]. unfold c_fullparams in H. cbn [wf c_conv c_pair] in H. split_all. unfold swf_params. now apply u32_of_wf. Qed.
Lemma br_extdata e : (match e with EProof _ _ => wf (c_ext_proof maxvec) e | EDynafed _ _ _ => wf (c_ext_dynafed maxvec cv) e end) = true -> swf_extdata e = true.
Proof. destruct e as [c s|c p w]; [reflexivity|]. unfold c_ext_dynafed. cbn [wf c_conv c_pair]. intros H. split_all.
  unfold swf_extdata. conj_all; now apply br_params. Qed.
Lemma br_header h : wf (c_header maxvec cv) h = true -> swf_header h = true.
Proof. unfold c_header. cbn [wf c_conv]. unfold c_header_wire, wire_of_header. cbn [wf c_dep]. intros H. apply andb_prop in H as [Hv H]. apply andb_prop in H as [Hh He].
  unfold c_header_head, c_hash32 in Hh. cbn [wf c_pair c_fixed] in Hh. split_all. unfold swf_header, len_is. conj_all; try hyp; try (apply u32_of_wf; hyp).
  - unfold u32_ok, u32_bound. apply N.ltb_lt. unfold Block.bit31 in Hv. lia.
  - apply br_extdata. cbn [fst] in He. rewrite is_dyna_wire in He by assumption. now destruct (h_ext h). Qed.
Lemma br_block b : wf (c_block pt_ok maxvec ci co cv ct) b = true -> swf_block pt_ok b = true.
Proof. unfold c_block. cbn [wf c_conv c_pair c_vec]. intros H. split_all. unfold swf_block. conj_all; [now apply br_header|].
  match goal with H : forallb (wf (c_tx _ _ _ _ _)) _ = true |- _ => eapply forallb_impl; [|exact H] end. intros x Hx. now apply br_tx. Qed.
End BRIDGE.

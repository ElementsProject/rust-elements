(* Proofs for C14 (merge).  Statements are generic in the policy table wherever possible; the facts about the table that
   the Rust source currently produces are checked by computation on Gen/Tables.v at the end. *)
From Coq Require Import List NArith Bool Lia Arith.
From Coq.Strings Require Import Byte.
From EV Require Import Base.Bytes Gen.Tables Model.PsetMap Model.PsetMerge Proofs.PsetMap.
Import ListNotations.

Lemma path_eqb_eq a : forall b, path_eqb a b = true <-> a = b.
Proof.
  induction a as [|x a IH]; intros [|y b]; cbn [path_eqb]; try (split; congruence).
  rewrite andb_true_iff, bytes_eqb_eq, IH. split; [intros [-> ->]; reflexivity|intros [= -> ->]; auto].
Qed.
Lemma path_eqb_refl a : path_eqb a a = true. Proof. now apply path_eqb_eq. Qed.
Lemma path_eqb_sym a b : path_eqb a b = path_eqb b a.
Proof. apply eq_true_iff_eq. rewrite !path_eqb_eq. split; congruence. Qed.
Lemma path_eqb_len a b : path_eqb a b = true -> length a = length b.
Proof. intros H. apply path_eqb_eq in H. now subst. Qed.

(* the two classes of key-source pairs on which the code departs from its documentation *)
Definition known_F2 (guarded : bool) (v1 v2 : bytes) : bool :=         (* F2-xpub-underflow *)
  let d1 := ks_path v1 in let d2 := ks_path v2 in
  negb guarded && Nat.ltb (length d1) (length d2) && negb (path_eqb d1 (skipn (length d2 - length d1) d2)).
Definition known_F4 (guarded : bool) (v1 v2 : bytes) : bool :=         (* F4-xpub-fingerprint-replaced *)
  negb guarded && path_eqb (ks_path v1) (ks_path v2) && negb (bytes_eqb (ks_fp v1) (ks_fp v2)).

Lemma reconcile_as_documented guarded v1 v2 :
  known_F2 guarded v1 v2 = false -> known_F4 guarded v1 v2 = false -> reconcile_with guarded v1 v2 = reconcile_doc v1 v2.
Proof.
  unfold known_F2, known_F4, reconcile_with, reconcile_doc.
  set (d1 := ks_path v1). set (d2 := ks_path v2). set (fe := bytes_eqb (ks_fp v1) (ks_fp v2)).
  pose proof (path_eqb_len d1 d2) as PL.
  (* by the order of the two lengths; paths of different length are different, and a path is its own suffix of the same length *)
  destruct (Nat.compare_spec (length d1) (length d2)) as [E|L|L].
  - rewrite E, Nat.ltb_irrefl, Nat.eqb_refl, Nat.sub_diag. cbn [skipn andb]. rewrite (path_eqb_sym d2 d1).
    destruct (path_eqb d1 d2), fe, guarded; cbn; intros; try reflexivity; discriminate.
  - destruct (path_eqb d1 d2); [specialize (PL eq_refl); lia|].
    rewrite (proj2 (Nat.ltb_lt _ _) L), (proj2 (Nat.ltb_ge _ _) (Nat.lt_le_incl _ _ L)), (proj2 (Nat.eqb_neq _ _) (Nat.lt_neq _ _ L)).
    destruct (path_eqb d1 (skipn (length d2 - length d1) d2)), guarded; cbn; intros; try reflexivity; discriminate.
  - destruct (path_eqb d1 d2); [specialize (PL eq_refl); lia|].
    rewrite (proj2 (Nat.ltb_lt _ _) L), (proj2 (Nat.ltb_ge _ _) (Nat.lt_le_incl _ _ L)), (proj2 (Nat.eqb_neq _ _) (not_eq_sym (Nat.lt_neq _ _ L))).
    destruct (path_eqb d2 (skipn (length d1 - length d2) d1)), guarded; reflexivity.
Qed.
Lemma reconcile_doc_no_panic v1 v2 : reconcile_doc v1 v2 <> XPanic.
Proof. unfold reconcile_doc. repeat match goal with |- context [if ?c then _ else _] => destruct c end; discriminate. Qed.
Lemma reconcile_same guarded v : reconcile_with guarded v v = XKeep.
Proof. unfold reconcile_with. now rewrite path_eqb_refl, bytes_eqb_refl. Qed.

Definition apply_unk (p : merge_policy) (a b : option bytes) : option bytes :=
  match p with
  | MP_FirstWins | MP_FirstWinsClearing _ => first_wins a b
  | MP_Max => max_opt a b
  | MP_OrFlags => or_flags a b
  | _ => a
  end.
Definition cleared_of (p : merge_policy) : list field := match p with MP_FirstWinsClearing cl => cl | _ => [] end.
(* the block of a clearing statement runs: self has no value, other has one *)
Definition fires (p : merge_policy) (a b : option bytes) : bool :=
  match p, a, b with MP_FirstWinsClearing _, None, Some _ => true | _, _, _ => false end.
Definition kyd_rel (guarded : bool) (p : merge_policy) (a b c : alist) : Prop :=
  match p with
  | MP_Extend => c = al_extend a b
  | MP_VecOps ops => c = vec_merge ops a b
  | MP_Xpub => xpub_merge_with guarded a b = Val c
  | _ => c = a
  end.
Definition nodup_fields (tbl : list (field * merge_policy)) : bool :=
  (fix go (l : list (field * merge_policy)) := match l with [] => true | s :: r => negb (existsb (fun t => bytes_eqb (fst s) (fst t)) r) && go r end) tbl.
(* no clearing statement fires when `other` is merged into `self` (negation: the utxo-clearing class) *)
Definition quiet (tbl : list (field * merge_policy)) (self other : pmap) : Prop :=
  forall f cl, In (f, MP_FirstWinsClearing cl) tbl -> unk self f = None -> unk other f = None.

Definition memf (f : field) (l : list field) : bool := existsb (bytes_eqb f) l.
Lemma memf_app f l l' : memf f (l ++ l') = memf f l || memf f l'. Proof. apply existsb_app. Qed.

Lemma fold_clear_unk cl : forall m g, unk (fold_left (fun m g => set_unk m g None) cl m) g = if memf g cl then None else unk m g.
Proof.
  induction cl as [|h cl IH]; intros m g; cbn [fold_left memf existsb]; [reflexivity|].
  rewrite IH. cbn [set_unk unk]. fold (memf g cl). destruct (memf g cl); [now rewrite orb_true_r|]. rewrite orb_false_r. reflexivity.
Qed.
Lemma fold_clear_kyd cl : forall m g, kyd (fold_left (fun m g => set_unk m g None) cl m) g = kyd m g.
Proof. induction cl as [|h cl IH]; intros m g; cbn [fold_left]; [reflexivity|]. now rewrite IH. Qed.

Lemma step_spec guarded f p self other c : step_with guarded (f, p) self other = Val c ->
  (forall g, unk c g = if fires p (unk self f) (unk other f) && memf g (cleared_of p) then None
                       else if bytes_eqb g f then apply_unk p (unk self f) (unk other f) else unk self g) /\
  kyd_rel guarded p (kyd self f) (kyd other f) (kyd c f) /\
  (forall g, bytes_eqb g f = false -> kyd c g = kyd self g).
Proof.
  unfold step_with. cbn [fst snd]. intros H.
  destruct p; cbn [fires andb cleared_of apply_unk kyd_rel];
    [| destruct (unk self f) as [x|] eqn:S, (unk other f) as [w|] eqn:O | | | | |
     destruct (xpub_merge_with guarded (kyd self f) (kyd other f)) as [l| |] eqn:X; try discriminate; cbn [obind] in H |];
    injection H as <-; cbn [andb first_wins].
  (* self has no value and other has one: the clearing block runs *)
  4: { repeat split; intros; rewrite ?fold_clear_unk, ?fold_clear_kyd; reflexivity. }
  (* every other result is self, or self with field f set *)
  all: split; [intros g; cbn [set_unk set_kyd unk]; destruct (bytes_eqb_spec g f) as [->|]; auto
              |split; [cbn [set_unk set_kyd kyd]; now rewrite ?bytes_eqb_refl|intros g N; cbn [set_unk set_kyd kyd]; now rewrite ?N]].
Qed.

Lemma policy_of_cons_same f p r : policy_of ((f, p) :: r) f = p.
Proof. unfold policy_of. cbn [find fst snd]. now rewrite bytes_eqb_refl. Qed.
Lemma policy_of_cons_other f p r g : bytes_eqb g f = false -> policy_of ((f, p) :: r) g = policy_of r g.
Proof. unfold policy_of. cbn [find fst snd]. now intros ->. Qed.
Lemma cleared_by_cons f p r : cleared_by ((f, p) :: r) = cleared_of p ++ cleared_by r.
Proof. unfold cleared_by. cbn [flat_map snd]. destruct p; reflexivity. Qed.
Lemma nodup_fields_cons f p r : nodup_fields ((f, p) :: r) = true ->
  (forall p', ~ In (f, p') r) /\ policy_of r f = MP_NotMerged /\ nodup_fields r = true.
Proof.
  cbn [nodup_fields fst]. intros H. apply andb_true_iff in H as [A ND]. apply negb_true_iff in A. repeat split; [| |exact ND].
  - intros p' I. assert (existsb (fun t => bytes_eqb f (fst t)) r = true) as E; [|congruence].
    apply existsb_exists. exists (f, p'). split; [exact I|apply bytes_eqb_refl].
  - clear ND. unfold policy_of. induction r as [|[f' p'] r IH]; [reflexivity|]. cbn [existsb find fst snd] in *.
    apply orb_false_iff in A as [-> A]. auto.
Qed.

Lemma In_policy_of tbl f p : nodup_fields tbl = true -> In (f, p) tbl -> policy_of tbl f = p.
Proof.
  induction tbl as [|[f' p'] r IH]; intros ND I; [contradiction|]. apply nodup_fields_cons in ND as (NI & _ & ND).
  destruct I as [[= -> ->]|I]; [apply policy_of_cons_same|].
  destruct (bytes_eqb f f') eqn:E; [apply bytes_eqb_eq in E; subst f'; now apply NI in I|rewrite (policy_of_cons_other _ _ _ _ E); auto].
Qed.

(* a keyed field holds what its own statement makes of the operands; so does an optional field, provided no statement clears it
   or no clearing statement fires at all *)
Lemma run_steps_field guarded tbl : forall self other c g, nodup_fields tbl = true -> run_steps guarded tbl self other = Val c ->
  kyd_rel guarded (policy_of tbl g) (kyd self g) (kyd other g) (kyd c g) /\
  (memf g (cleared_by tbl) = false \/ quiet tbl self other -> unk c g = apply_unk (policy_of tbl g) (unk self g) (unk other g)).
Proof.
  induction tbl as [|[f p] r IH]; intros self other c g ND H.
  - injection H as <-. split; reflexivity.
  - cbn [run_steps] in H. destruct (step_with guarded (f, p) self other) as [s1| |] eqn:S; try discriminate. cbn [obind] in H.
    apply nodup_fields_cons in ND as (NI & NP & ND). destruct (step_spec _ _ _ _ _ _ S) as (U & K & K').
    destruct (IH s1 other c g ND H) as [IK IU].
    (* the first statement clears nothing at g, and the hypothesis passes to the rest of the table *)
    assert (memf g (cleared_by ((f, p) :: r)) = false \/ quiet ((f, p) :: r) self other ->
            fires p (unk self f) (unk other f) && memf g (cleared_of p) = false /\ (memf g (cleared_by r) = false \/ quiet r s1 other)) as P.
    { intros [C|Q].
      - rewrite cleared_by_cons, memf_app in C. apply orb_false_iff in C as [-> C]. rewrite andb_false_r. auto.
      - assert (fires p (unk self f) (unk other f) = false) as NF.
        { destruct p; try reflexivity. cbn [fires]. destruct (unk self f) eqn:A; [reflexivity|]. now rewrite (Q f cleared (or_introl eq_refl) A). }
        rewrite NF. split; [reflexivity|]. right. intros f' cl' I A. rewrite U, NF in A.
        destruct (bytes_eqb_spec f' f) as [->|]; [now apply NI in I|]. exact (Q f' cl' (or_intror I) A). }
    destruct (bytes_eqb g f) eqn:E.
    + apply bytes_eqb_eq in E. subst g. rewrite policy_of_cons_same. rewrite NP in IK, IU. cbn [kyd_rel apply_unk] in IK, IU. split.
      * now rewrite IK.
      * intros C. destruct (P C) as [NF C']. now rewrite (IU C'), U, NF, bytes_eqb_refl.
    + rewrite (policy_of_cons_other _ _ _ _ E). rewrite (K' g E) in IK. split; [exact IK|].
      intros C. destruct (P C) as [NF C']. now rewrite (IU C'), U, NF, E.
Qed.

Definition keeps_unk (p : merge_policy) : bool := match p with MP_FirstWins | MP_FirstWinsClearing _ | MP_Max | MP_OrFlags => true | _ => false end.
Definition is_extend (o : vec_op) : bool := match o with VO_Extend => true | _ => false end.
Definition keeps_kyd (p : merge_policy) : bool :=
  match p with MP_Extend | MP_Xpub => true | MP_VecOps ops => existsb is_extend ops | _ => false end.

Lemma al_find_app k a b : al_find k (a ++ b) = match al_find k a with Some v => Some v | None => al_find k b end.
Proof. induction a as [|[k' v'] a IH]; cbn [app al_find]; [reflexivity|]. destruct (bytes_eqb k k'); auto. Qed.
Lemma al_find_ins k k1 v1 s : al_find k (al_ins k1 v1 s) = if bytes_eqb k k1 then Some v1 else al_find k s.
Proof.
  induction s as [|[k' v'] r IH]; cbn [al_ins al_find]; [reflexivity|].
  destruct (bytes_cmp k1 k') eqn:C; cbn [al_find]; try reflexivity.
  rewrite IH. destruct (bytes_eqb_spec k k') as [->|N]; [|reflexivity].
  destruct (bytes_eqb_spec k' k1) as [->|N']; [|reflexivity]. rewrite bytes_cmp_refl in C. discriminate.
Qed.
Lemma al_find_sort k l : al_find k (al_sort l) = al_find k l.
Proof. unfold al_sort. induction l as [|[k' v'] l IH]; cbn [fold_right fst snd al_find]; [reflexivity|]. now rewrite al_find_ins, IH. Qed.
Lemma al_find_dd k : forall l p, bytes_eqb k p = false -> al_find k (al_dd p l) = al_find k l.
Proof.
  induction l as [|[k' v'] r IH]; intros p N; cbn [al_dd al_find]; [reflexivity|].
  destruct (bytes_eqb_spec k' p) as [->|N'].
  - rewrite N. apply IH, N.
  - cbn [al_find]. destruct (bytes_eqb k k') eqn:E; [reflexivity|]. apply IH, E.
Qed.
Lemma al_find_dedup k l : al_find k (al_dedup l) = al_find k l.
Proof. destruct l as [|[k' v'] r]; cbn [al_dedup al_find]; [reflexivity|]. destruct (bytes_eqb k k') eqn:E; [reflexivity|]. apply al_find_dd, E. Qed.

Definition cmp_le (a b : bytes) : bool := match bytes_cmp a b with Gt => false | _ => true end.
Lemma cmp_le_trans a b c : cmp_le a b = true -> cmp_le b c = true -> cmp_le a c = true.
Proof.
  unfold cmp_le. destruct (bytes_cmp a b) eqn:AB; try discriminate; destruct (bytes_cmp b c) eqn:BC; try discriminate; intros _ _.
  - apply bytes_cmp_eq in AB, BC. subst. now rewrite bytes_cmp_refl.
  - apply bytes_cmp_eq in AB. subst. now rewrite BC.
  - apply bytes_cmp_eq in BC. subst. now rewrite AB.
  - now rewrite (bytes_cmp_trans_lt _ _ _ AB BC).
Qed.
Fixpoint al_lbe (k : bytes) (l : alist) : bool := match l with [] => true | (k', _) :: r => cmp_le k k' && al_lbe k r end.
Fixpoint al_sle (l : alist) : bool := match l with [] => true | (k, _) :: r => al_lbe k r && al_sle r end.
Lemma al_lbe_trans k k' l : cmp_le k k' = true -> al_lbe k' l = true -> al_lbe k l = true.
Proof.
  induction l as [|[k2 v2] r IH]; cbn [al_lbe]; [reflexivity|]. intros L H. apply andb_true_iff in H as [H1 H2].
  now rewrite (cmp_le_trans _ _ _ L H1), IH.
Qed.
Lemma al_lbe_ins p k v s : cmp_le p k = true -> al_lbe p s = true -> al_lbe p (al_ins k v s) = true.
Proof.
  induction s as [|[k' v'] r IH]; cbn [al_ins al_lbe]; intros L H; [now rewrite L|].
  apply andb_true_iff in H as [H1 H2]. destruct (bytes_cmp k k'); cbn [al_lbe]; rewrite ?L, ?H1, ?H2, ?IH; auto.
Qed.
Lemma al_sle_ins k v s : al_sle s = true -> al_sle (al_ins k v s) = true.
Proof.
  induction s as [|[k' v'] r IH]; cbn [al_ins al_sle]; [reflexivity|]. intros H. apply andb_true_iff in H as [H1 H2].
  destruct (bytes_cmp k k') eqn:C; cbn [al_sle al_lbe].
  1,2: assert (cmp_le k k' = true) as L by (unfold cmp_le; now rewrite C); now rewrite L, H1, H2, (al_lbe_trans _ _ _ L H1).
  rewrite (IH H2), andb_true_r. apply al_lbe_ins; [|assumption]. unfold cmp_le. rewrite bytes_cmp_antisym, C. reflexivity.
Qed.
Lemma al_sle_sort l : al_sle (al_sort l) = true.
Proof. unfold al_sort. induction l as [|[k v] l IH]; cbn [fold_right fst snd]; [reflexivity|]. now apply al_sle_ins. Qed.
Lemma al_dd_sorted : forall l p, al_lbe p l = true -> al_sle l = true -> al_lb p (al_dd p l) = true /\ al_sorted (al_dd p l) = true.
Proof.
  induction l as [|[k v] r IH]; intros p L S; cbn [al_dd]; [split; reflexivity|].
  cbn [al_lbe al_sle] in L, S. apply andb_true_iff in L as [L1 L2]. apply andb_true_iff in S as [S1 S2].
  destruct (bytes_eqb_spec k p) as [->|N].
  - apply IH; assumption.
  - destruct (IH k S1 S2) as [I1 I2]. cbn [al_lb al_sorted].
    assert (bytes_cmp p k = Lt) as LT.
    { unfold cmp_le in L1. destruct (bytes_cmp p k) eqn:C; try discriminate; [|reflexivity]. apply bytes_cmp_eq in C. congruence. }
    rewrite LT, I1, I2. split; [|reflexivity]. eapply al_lb_trans; eauto.
Qed.
Lemma al_sorted_dedup l : al_sle l = true -> al_sorted (al_dedup l) = true.
Proof.
  destruct l as [|[k v] r]; cbn [al_dedup al_sle al_sorted]; [reflexivity|]. intros S. apply andb_true_iff in S as [S1 S2].
  destruct (al_dd_sorted r k S1 S2) as [I1 I2]. now rewrite I1, I2.
Qed.

(* the statement sequence the source has today *)
Definition canonical_vec_ops : list vec_op := [VO_Extend; VO_Sort; VO_Dedup].
Lemma vec_merge_canonical a b : vec_merge canonical_vec_ops a b = al_dedup (al_sort (a ++ b)). Proof. reflexivity. Qed.
Lemma vec_merge_sorted a b : al_sorted (vec_merge canonical_vec_ops a b) = true.
Proof. rewrite vec_merge_canonical. apply al_sorted_dedup, al_sle_sort. Qed.
Lemma vec_merge_find k a b : al_find k (vec_merge canonical_vec_ops a b) = match al_find k a with Some v => Some v | None => al_find k b end.
Proof. now rewrite vec_merge_canonical, al_find_dedup, al_find_sort, al_find_app. Qed.
Lemma al_mem_app k a b : al_mem k (a ++ b) = al_mem k a || al_mem k b.
Proof. unfold al_mem. rewrite al_find_app. destruct (al_find k a), (al_find k b); reflexivity. Qed.
Lemma vec_merge_mem k o : forall ops v, al_mem k (fold_left (vec_step o) ops v) = al_mem k v || (existsb is_extend ops && al_mem k o).
Proof.
  induction ops as [|op ops IH]; intros v; cbn [fold_left existsb]; [now rewrite orb_false_r|].
  rewrite IH. destruct op; cbn [vec_step is_extend orb andb].
  - rewrite al_mem_app. destruct (al_mem k v), (al_mem k o), (existsb is_extend ops); reflexivity.
  - unfold al_mem at 1. rewrite al_find_sort. reflexivity.
  - unfold al_mem at 1. rewrite al_find_dedup. reflexivity.
Qed.

Lemma apply_unk_keeps p a b : keeps_unk p = true -> a <> None \/ b <> None -> apply_unk p a b <> None.
Proof. destruct p, a, b; cbn; intros K H; try discriminate; try (destruct H; congruence); try (destruct (_ <? _); discriminate). Qed.

Lemma al_mem_cons k k1 v1 r : al_mem k ((k1, v1) :: r) = bytes_eqb k k1 || al_mem k r.
Proof. unfold al_mem. cbn [al_find]. now destruct (bytes_eqb k k1). Qed.
Lemma xpub_merge_mem guarded k : forall other self c, xpub_merge_with guarded self other = Val c ->
  al_mem k self || al_mem k other = true -> al_mem k c = true.
Proof.
  induction other as [|[k1 v1] r IH]; intros self c H M; cbn [xpub_merge_with] in H.
  - injection H as <-. now rewrite orb_false_r in M.
  - rewrite al_mem_cons in M.
    (* every arm goes on with self, or with self and the new pair; either has k if self or the rest of other has it, or k is the new key *)
    assert (al_mem k (al_insert k1 v1 self) || al_mem k r = true) as MI.
    { rewrite al_mem_insert. destruct (bytes_eqb k k1), (al_mem k self); auto. }
    destruct (al_find k1 self) as [v2|] eqn:F; [destruct (reconcile_with guarded v1 v2); try discriminate|]; try exact (IH _ _ H MI).
    apply (IH self c H). destruct (bytes_eqb_spec k k1) as [->|]; [|exact M]. unfold al_mem at 1. now rewrite F.
Qed.
Lemma kyd_rel_keeps guarded p a b c k : keeps_kyd p = true -> kyd_rel guarded p a b c -> al_mem k a || al_mem k b = true -> al_mem k c = true.
Proof.
  destruct p; cbn [keeps_kyd kyd_rel]; try discriminate; intros H R M.
  - subst c. now rewrite al_mem_extend.
  - subst c. unfold vec_merge. rewrite vec_merge_mem. rewrite H. cbn [andb]. exact M.
  - eapply xpub_merge_mem; eauto.
Qed.

Definition kept (tbl : list (field * merge_policy)) (a b c : pmap) : Prop :=
  forall f, memf f (cleared_by tbl) = false ->
    (keeps_unk (policy_of tbl f) = true -> unk a f <> None \/ unk b f <> None -> unk c f <> None) /\
    (keeps_kyd (policy_of tbl f) = true -> forall k, al_mem k (kyd a f) || al_mem k (kyd b f) = true -> al_mem k (kyd c f) = true).
Theorem merge_map_keeps guarded tbl a b c : nodup_fields tbl = true -> run_steps guarded tbl a b = Val c -> kept tbl a b c.
Proof.
  intros ND H f CL. destruct (run_steps_field _ _ _ _ _ f ND H) as [K U]. split.
  - intros P. rewrite (U (or_introl CL)). now apply apply_unk_keeps.
  - intros P k. now apply (kyd_rel_keeps _ _ _ _ _ _ P K).
Qed.

Lemma zip_merge_nth mm : forall xs ys cs, zip_merge mm xs ys = Val cs ->
  forall i x y, nth_error xs i = Some x -> nth_error ys i = Some y -> exists c, nth_error cs i = Some c /\ mm x y = Val c.
Proof.
  induction xs as [|x0 xs IH]; intros [|y0 ys] cs H i x y X Y; try (destruct i; discriminate). cbn [zip_merge] in H.
  destruct (mm x0 y0) as [c| |] eqn:M; try discriminate. destruct (zip_merge mm xs ys) as [r| |] eqn:Z; try discriminate.
  injection H as <-. destruct i as [|i]; cbn [nth_error] in *; [injection X as <-; injection Y as <-|]; eauto.
Qed.

Definition tables_ok (T : tables) : bool := nodup_fields (t_global T) && nodup_fields (t_input T) && nodup_fields (t_output T).
Lemma tables_ok_parts T : tables_ok T = true ->
  nodup_fields (t_global T) = true /\ nodup_fields (t_input T) = true /\ nodup_fields (t_output T) = true.
Proof. unfold tables_ok. rewrite !andb_true_iff. tauto. Qed.

Section WithUid.
  Context {id : Type} (id_eqb : id -> id -> bool) (uid : pset -> outcome id).

  Lemma merge_with_val T a b c : merge_with id_eqb uid T a b = Val c ->
    uid_res_eqb id_eqb (uid a) (uid b) = true /\ merge_maps_with T a b = Val c.
  Proof.
    unfold merge_with. destruct (uid a) as [x|e|s] eqn:A, (uid b) as [y|e'|s'] eqn:B; try discriminate;
    destruct (uid_res_eqb id_eqb _ _) eqn:E; try discriminate; auto.
  Qed.

  Lemma gate_refuses T a b x y : uid a = Val x -> uid b = Val y -> id_eqb x y = false -> merge_with id_eqb uid T a b = Fail E_UniqueIdMismatch.
  Proof. unfold merge_with. intros -> -> E. cbn [uid_res_eqb]. now rewrite E. Qed.
  Lemma gate_opens T a b x y : uid a = Val x -> uid b = Val y -> id_eqb x y = true -> merge_with id_eqb uid T a b = merge_maps_with T a b.
  Proof. unfold merge_with. intros -> -> E. cbn [uid_res_eqb]. now rewrite E. Qed.
  Lemma gate_closed T a b : uid_res_eqb id_eqb (uid a) (uid b) = false -> forall c, merge_with id_eqb uid T a b <> Val c.
  Proof. intros E c H. apply merge_with_val in H as [H _]. congruence. Qed.

  Theorem merge_keeps_all T a b c : tables_ok T = true -> merge_with id_eqb uid T a b = Val c ->
    kept (t_global T) (pglobal a) (pglobal b) (pglobal c) /\
    (forall i x y, nth_error (pinputs a) i = Some x -> nth_error (pinputs b) i = Some y ->
        exists z, nth_error (pinputs c) i = Some z /\ kept (t_input T) x y z) /\
    (forall i x y, nth_error (poutputs a) i = Some x -> nth_error (poutputs b) i = Some y ->
        exists z, nth_error (poutputs c) i = Some z /\ kept (t_output T) x y z).
  Proof.
    intros OK H. apply merge_with_val in H as [_ H]. unfold merge_maps_with, merge_map_with in H.
    apply tables_ok_parts in OK as (O1 & O2 & O3).
    destruct (run_steps _ (t_global T) _ _) as [g| |] eqn:G; cbn [obind] in H; try discriminate.
    destruct (zip_merge _ (pinputs a) _) as [ins| |] eqn:I; cbn [obind] in H; try discriminate.
    destruct (zip_merge _ (poutputs a) _) as [outs| |] eqn:O; cbn [obind] in H; try discriminate.
    injection H as <-. cbn [pglobal pinputs poutputs].
    split; [eapply merge_map_keeps; eauto|].
    split; intros i x y X Y; [destruct (zip_merge_nth _ _ _ _ I i x y X Y) as [z [Z M]]|destruct (zip_merge_nth _ _ _ _ O i x y X Y) as [z [Z M]]];
      exists z; (split; [exact Z|eapply merge_map_keeps; eauto]).
  Qed.
End WithUid.

(* which fields of a struct the table keeps, and which it does not (the finding classes), computed from Gen/Tables.v *)
Definition field_kept (tbl : list (field * merge_policy)) (fk : field * field_kind) : bool :=
  negb (memf (fst fk) (cleared_by tbl)) &&
  match snd fk with FK_opt | FK_mand => keeps_unk (policy_of tbl (fst fk)) | FK_map | FK_set => keeps_kyd (policy_of tbl (fst fk)) end.
Definition kept_fields fields tbl : list field := map fst (filter (field_kept tbl) fields).
Definition lost_optional fields tbl : list field :=          (* optional or keyed fields the table does not keep: the F3 class *)
  map fst (filter (fun fk => negb (field_kept tbl fk) && match snd fk with FK_mand => false | _ => true end) fields).
Definition unmerged_mandatory fields tbl : list field :=
  map fst (filter (fun fk => negb (field_kept tbl fk) && match snd fk with FK_mand => true | _ => false end) fields).

(* a field that is not merged is lost when only `other` has it: generic witness, checked by running the model *)
Definition loses (guarded : bool) tbl (f : field) : bool :=
  let b := set_unk empty_map f (Some [x01]) in
  match run_steps guarded tbl empty_map b with Val c => match unk c f with None => true | Some _ => false end | _ => false end.
Lemma loses_witness guarded tbl f : loses guarded tbl f = true ->
  exists a b c, run_steps guarded tbl a b = Val c /\ unk b f <> None /\ unk c f = None.
Proof.
  unfold loses. intros H. exists empty_map, (set_unk empty_map f (Some [x01])).
  destruct (run_steps _ _ _ _) as [c| |]; try discriminate. exists c. split; [reflexivity|]. split.
  - cbn. rewrite bytes_eqb_refl. discriminate.
  - destruct (unk c f); [discriminate|reflexivity].
Qed.
(* a map with one optional field set; what a table run leaves in one field, asked without computing the rest of the result *)
Definition only (f : field) (v : bytes) : pmap := set_unk empty_map f (Some v).
Definition unk_of (r : outcome pmap) (f : field) : option (option bytes) := match r with Val c => Some (unk c f) | _ => None end.
Lemma unk_of_val r f v : unk_of r f = Some v -> exists c, r = Val c /\ unk c f = v.
Proof. destruct r; try discriminate. intros [= <-]. eauto. Qed.

(* f's statement clears g: merged into a map that has only g, a map that has only f deletes g; in the other order both stay *)
Definition clears (guarded : bool) tbl (f g : field) : bool :=
  match unk_of (run_steps guarded tbl (only g [x01]) (only f [x02])) g, unk_of (run_steps guarded tbl (only f [x02]) (only g [x01])) g with
  | Some None, Some (Some _) => true
  | _, _ => false
  end.
Lemma clears_witness guarded tbl f g : clears guarded tbl f g = true ->
  exists c c', run_steps guarded tbl (only g [x01]) (only f [x02]) = Val c /\ run_steps guarded tbl (only f [x02]) (only g [x01]) = Val c' /\
               unk c g = None /\ unk c' g <> None.
Proof.
  unfold clears. intros H.
  destruct (unk_of (run_steps _ _ (only g _) _) g) as [[|]|] eqn:R; try discriminate.
  destruct (unk_of (run_steps _ _ (only f _) _) g) as [[w|]|] eqn:R'; try discriminate.
  apply unk_of_val in R as (c & -> & N), R' as (c' & -> & S). exists c, c'. rewrite S. repeat split; [assumption|discriminate].
Qed.

Definition wf_map (m : pmap) : Prop := forall f, al_sorted (kyd m f) = true.
(* disjoint-or-identical: wherever both carry a value (or a key), it is the same *)
Definition compat (a b : pmap) : Prop :=
  (forall f x y, unk a f = Some x -> unk b f = Some y -> x = y) /\
  (forall f k x y, al_find k (kyd a f) = Some x -> al_find k (kyd b f) = Some y -> x = y).
(* the part of a field that its statement does not merge is the same in both (negation: the F3 class) *)
Definition agree_unmerged (tbl : list (field * merge_policy)) (a b : pmap) : Prop :=
  forall f, (keeps_unk (policy_of tbl f) = false -> unk a f = unk b f) /\ (keeps_kyd (policy_of tbl f) = false -> kyd a f = kyd b f).

(* two maps holding one optional field each, the two fields different and both merged by a keeping statement, meet every
   hypothesis of order independence except `quiet` *)
Lemma only_pair tbl f g x y : f <> g -> keeps_unk (policy_of tbl f) = true -> keeps_unk (policy_of tbl g) = true ->
  wf_map (only g x) /\ wf_map (only f y) /\ compat (only g x) (only f y) /\ agree_unmerged tbl (only g x) (only f y).
Proof.
  intros N Kf Kg. split; [intros h; reflexivity|]. split; [intros h; reflexivity|]. split.
  - split; [|discriminate]. intros h x' y'. cbn [only set_unk empty_map unk].
    destruct (bytes_eqb_spec h g) as [->|]; [|discriminate]. destruct (bytes_eqb_spec g f) as [->|]; [contradiction|discriminate].
  - intros h. split; [|reflexivity]. intros K. cbn [only set_unk empty_map unk].
    destruct (bytes_eqb_spec h g) as [->|]; [congruence|]. destruct (bytes_eqb_spec h f) as [->|]; [congruence|reflexivity].
Qed.

Lemma apply_unk_comm p a b : (forall x y, a = Some x -> b = Some y -> x = y) -> (keeps_unk p = false -> a = b) ->
  apply_unk p a b = apply_unk p b a.
Proof.
  intros C A. destruct p; cbn [apply_unk keeps_unk] in *; try (now apply A).
  1-3: destruct a as [x|], b as [y|]; cbn [first_wins max_opt]; try reflexivity; now rewrite (C x y eq_refl eq_refl).
  unfold or_flags. now rewrite N.lor_comm.
Qed.

Definition al_agree (a b : alist) : Prop := forall k x y, al_find k a = Some x -> al_find k b = Some y -> x = y.
Lemma compat_sym a b : compat a b -> compat b a.
Proof. intros [U K]. split; intros; symmetry; eauto. Qed.

Lemma xpub_merge_extend guarded : forall other self, al_sorted self = true -> al_sorted other = true -> al_agree self other ->
  xpub_merge_with guarded self other = Val (al_extend self other).
Proof.
  induction other as [|[k v] r IH]; intros self SS S C; [reflexivity|]. cbn [xpub_merge_with]. unfold al_extend. cbn [fold_left fst snd].
  fold (al_extend (al_insert k v self) r). cbn [al_sorted] in S. apply andb_true_iff in S as [L S]. pose proof (al_lb_find _ _ L) as NF.
  assert (al_agree (al_insert k v self) r) as C'.
  { intros q x y A B. rewrite al_find_insert in A. destruct (bytes_eqb_spec q k) as [->|N]; [congruence|].
    apply (C q x y A). cbn [al_find]. now destruct (bytes_eqb_spec q k). }
  destruct (al_find k self) as [v2|] eqn:F; [|apply IH; auto using al_sorted_insert].
  assert (v2 = v) as -> by (apply (C k); [assumption|apply al_find_head]).
  rewrite reconcile_same. rewrite (al_insert_same k v self SS F) in *. now apply IH.
Qed.

Lemma run_steps_total guarded tbl : forall self other, nodup_fields tbl = true ->
  (forall f, policy_of tbl f = MP_Xpub -> al_sorted (kyd self f) = true /\ al_sorted (kyd other f) = true /\ al_agree (kyd self f) (kyd other f)) ->
  exists c, run_steps guarded tbl self other = Val c.
Proof.
  induction tbl as [|[f p] r IH]; intros self other ND X; cbn [run_steps]; [eauto|].
  apply nodup_fields_cons in ND as (_ & NP & ND).
  assert (exists s1, step_with guarded (f, p) self other = Val s1) as [s1 S].
  { unfold step_with. cbn [fst snd]. destruct p; eauto.
    - destruct (unk self f), (unk other f); eauto.
    - destruct (X f (policy_of_cons_same _ _ _)) as (SS & SO & A). rewrite (xpub_merge_extend _ _ _ SS SO A). cbn. eauto. }
  rewrite S. cbn [obind]. apply IH; [assumption|]. intros f' P.
  destruct (bytes_eqb f' f) eqn:E; [apply bytes_eqb_eq in E; subst; congruence|].
  destruct (step_spec _ _ _ _ _ _ S) as (_ & _ & K). rewrite (K f' E). apply X. now rewrite policy_of_cons_other.
Qed.

Record pair_ok (tbl : list (field * merge_policy)) (a b : pmap) : Prop := {
  po_wf_a : wf_map a; po_wf_b : wf_map b; po_compat : compat a b; po_agree : agree_unmerged tbl a b;
  po_quiet_ab : quiet tbl a b; po_quiet_ba : quiet tbl b a }.
Definition map_equiv (c c' : pmap) : Prop := forall f, unk c f = unk c' f /\ kyd c f = kyd c' f.
Lemma pair_ok_refl tbl m : wf_map m -> pair_ok tbl m m.
Proof.
  intros W. constructor; auto.
  - split; intros; congruence.
  - intros f. split; reflexivity.
  - intros f cl _ H. exact H.
  - intros f cl _ H. exact H.
Qed.
(* two descendants of the empty map: one added an optional field that no statement clears around, the other a key-value field *)
Lemma pair_ok_unk_kyd tbl f v g l : nodup_fields tbl = true -> keeps_unk (policy_of tbl f) = true -> keeps_kyd (policy_of tbl g) = true ->
  al_sorted l = true -> (forall cl, policy_of tbl f <> MP_FirstWinsClearing cl) ->
  pair_ok tbl (set_unk empty_map f (Some v)) (set_kyd empty_map g l).
Proof.
  intros ND KU KK S NC. constructor.
  - intros h. reflexivity.
  - intros h. cbn. destruct (bytes_eqb h g); [exact S|reflexivity].
  - split; cbn; intros; discriminate.
  - intros h. split; intros K; cbn.
    + destruct (bytes_eqb_spec h f) as [->|]; [congruence|reflexivity].
    + destruct (bytes_eqb_spec h g) as [->|]; [congruence|reflexivity].
  - intros h cl I _. reflexivity.
  - intros h cl I _. cbn. destruct (bytes_eqb_spec h f) as [->|]; [|reflexivity]. exfalso. exact (NC cl (In_policy_of _ _ _ ND I)).
Qed.
(* two descendants that each added one key-value field to a base without key-value content; whether two concrete key lists
   agree is decided by `al_agreeb` *)
Definition al_agreeb (a b : alist) : bool :=
  forallb (fun kv => match al_find (fst kv) b with Some y => bytes_eqb (snd kv) y | None => true end) a.
Lemma al_agreeb_ok a b : al_agreeb a b = true -> al_agree a b.
Proof.
  intros H k x y A B. induction a as [|[k' v'] a IH]; [discriminate|]. cbn [al_agreeb forallb fst snd al_find] in H, A.
  apply andb_true_iff in H as [H1 H2]. destruct (bytes_eqb_spec k k') as [->|]; [|auto].
  injection A as ->. rewrite B in H1. now apply bytes_eqb_eq.
Qed.
Lemma pair_ok_kyd tbl base f1 l1 f2 l2 : (forall f, kyd base f = []) ->
  keeps_kyd (policy_of tbl f1) = true -> keeps_kyd (policy_of tbl f2) = true -> al_sorted l1 = true -> al_sorted l2 = true ->
  (if bytes_eqb f1 f2 then al_agreeb l1 l2 else true) = true ->
  pair_ok tbl (set_kyd base f1 l1) (set_kyd base f2 l2).
Proof.
  intros B K1 K2 S1 S2 C. constructor.
  - intros f. cbn. destruct (bytes_eqb f f1); [exact S1|now rewrite B].
  - intros f. cbn. destruct (bytes_eqb f f2); [exact S2|now rewrite B].
  - split.
    + intros f x y A A'. cbn in A, A'. congruence.
    + intros f k x y. cbn. destruct (bytes_eqb_spec f f1) as [->|N1]; [|rewrite B; discriminate].
      revert C. destruct (bytes_eqb_spec f1 f2) as [<-|N2]; [intros C; exact (al_agreeb_ok _ _ C k x y)|rewrite B; discriminate].
  - intros f. split; [reflexivity|]. intros K. cbn.
    destruct (bytes_eqb_spec f f1) as [->|N1]; [congruence|]. destruct (bytes_eqb_spec f f2) as [->|N2]; [congruence|reflexivity].
  - intros f cl _ H. exact H.
  - intros f cl _ H. exact H.
Qed.

Fixpoint vec_ops_eqb (x y : list vec_op) : bool :=
  match x, y with
  | [], [] => true
  | VO_Extend :: x', VO_Extend :: y' | VO_Sort :: x', VO_Sort :: y' | VO_Dedup :: x', VO_Dedup :: y' => vec_ops_eqb x' y'
  | _, _ => false end.
Lemma vec_ops_eqb_eq x : forall y, vec_ops_eqb x y = true -> x = y.
Proof. induction x as [|[] x IH]; intros [|[] y]; cbn; try discriminate; auto; intros H; f_equal; auto. Qed.
Definition vecops_canonical (tbl : list (field * merge_policy)) : bool :=
  forallb (fun s => match snd s with MP_VecOps ops => vec_ops_eqb ops canonical_vec_ops | _ => true end) tbl.
Definition canonical_policy (p : merge_policy) : bool := match p with MP_VecOps ops => vec_ops_eqb ops canonical_vec_ops | _ => true end.
Lemma vecops_canonical_policy tbl f : vecops_canonical tbl = true -> canonical_policy (policy_of tbl f) = true.
Proof.
  induction tbl as [|[f' p'] r IH]; [reflexivity|]. cbn [vecops_canonical forallb snd]. intros H. apply andb_true_iff in H as [H1 H2].
  destruct (bytes_eqb f f') eqn:E; [apply bytes_eqb_eq in E; subst f'; now rewrite policy_of_cons_same|rewrite (policy_of_cons_other _ _ _ _ E); auto].
Qed.

Lemma kyd_rel_join guarded p a b c : canonical_policy p = true -> keeps_kyd p = true -> al_sorted a = true -> al_sorted b = true -> al_agree a b ->
  kyd_rel guarded p a b c -> al_sorted c = true /\ forall q, al_find q c = first_wins (al_find q a) (al_find q b).
Proof.
  intros CP K SA SB AG R.
  assert (forall q, match al_find q b with Some v => Some v | None => al_find q a end = first_wins (al_find q a) (al_find q b)) as SYM.
  { intros q. destruct (al_find q a) eqn:A, (al_find q b) eqn:B; try reflexivity. cbn. f_equal. symmetry. eapply AG; eauto. }
  destruct p; cbn [keeps_kyd kyd_rel canonical_policy] in *; try discriminate.
  - subst c. split; [now apply al_sorted_extend|]. intros q. now rewrite al_find_extend_sorted, SYM.
  - apply vec_ops_eqb_eq in CP. subst ops c. split; [apply vec_merge_sorted|]. intros q. rewrite vec_merge_find. now destruct (al_find q a).
  - rewrite (xpub_merge_extend _ _ _ SA SB AG) in R. injection R as <-. split; [now apply al_sorted_extend|].
    intros q. now rewrite al_find_extend_sorted, SYM.
Qed.
Lemma kyd_rel_unmerged guarded p a b c : canonical_policy p = true -> keeps_kyd p = false -> kyd_rel guarded p a b c -> c = a.
Proof. destruct p; cbn; try discriminate; auto. intros CP K. apply vec_ops_eqb_eq in CP. subst. discriminate. Qed.

(* one run of the table on key-sorted operands whose kept key lists agree and between which no clearing statement fires: it
   succeeds, and every field of the result is key-sorted and is what its own statement makes of that field of the two operands *)
Lemma run_steps_result guarded tbl a b : nodup_fields tbl = true -> vecops_canonical tbl = true -> wf_map a -> wf_map b ->
  (forall f, keeps_kyd (policy_of tbl f) = true -> al_agree (kyd a f) (kyd b f)) -> quiet tbl a b ->
  exists c, run_steps guarded tbl a b = Val c /\ forall f,
    al_sorted (kyd c f) = true /\ unk c f = apply_unk (policy_of tbl f) (unk a f) (unk b f) /\
    if keeps_kyd (policy_of tbl f) then forall q, al_find q (kyd c f) = first_wins (al_find q (kyd a f)) (al_find q (kyd b f))
    else kyd c f = kyd a f.
Proof.
  intros ND VC WA WB AG Q. destruct (run_steps_total guarded tbl a b ND) as [c H].
  { intros f P. split; [apply WA|]. split; [apply WB|]. apply AG. now rewrite P. }
  exists c. split; [exact H|]. intros f. destruct (run_steps_field _ _ _ _ _ f ND H) as [R U].
  rewrite (U (or_intror Q)). pose proof (vecops_canonical_policy _ f VC) as CP. destruct (keeps_kyd (policy_of tbl f)) eqn:K.
  - destruct (kyd_rel_join _ _ _ _ _ CP K (WA f) (WB f) (AG f K) R) as [S E]. auto.
  - rewrite (kyd_rel_unmerged _ _ _ _ _ CP K R). auto.
Qed.

Theorem merge_map_commutes guarded tbl a b : nodup_fields tbl = true -> vecops_canonical tbl = true -> pair_ok tbl a b ->
  exists c c', run_steps guarded tbl a b = Val c /\ run_steps guarded tbl b a = Val c' /\ map_equiv c c'.
Proof.
  intros ND VC [WA WB C AG QA QB]. pose proof (compat_sym _ _ C) as C'. destruct C as [CU CK], C' as [_ CK'].
  destruct (run_steps_result guarded tbl a b ND VC WA WB (fun f _ => CK f) QA) as [c [HC E]].
  destruct (run_steps_result guarded tbl b a ND VC WB WA (fun f _ => CK' f) QB) as [c' [HC' E']].
  exists c, c'. split; [assumption|]. split; [assumption|]. intros f. destruct (E f) as (S & -> & K), (E' f) as (S' & -> & K'). split.
  - apply apply_unk_comm; [apply CU|apply AG].
  - revert K K'. destruct (keeps_kyd (policy_of tbl f)) eqn:KK.
    + intros F F'. apply al_sorted_ext; auto. intros q. rewrite F, F'.
      destruct (al_find q (kyd a f)) eqn:A, (al_find q (kyd b f)) eqn:B; try reflexivity. cbn. f_equal. eapply CK; eauto.
    + intros -> ->. now apply AG.
Qed.

Definition tables_canonical (T : tables) : bool := vecops_canonical (t_global T) && vecops_canonical (t_input T) && vecops_canonical (t_output T).
Lemma tables_canonical_parts T : tables_canonical T = true ->
  vecops_canonical (t_global T) = true /\ vecops_canonical (t_input T) = true /\ vecops_canonical (t_output T) = true.
Proof. unfold tables_canonical. rewrite !andb_true_iff. tauto. Qed.
Definition pset_equiv (c c' : pset) : Prop :=
  map_equiv (pglobal c) (pglobal c') /\ Forall2 map_equiv (pinputs c) (pinputs c') /\ Forall2 map_equiv (poutputs c) (poutputs c').
Record pset_pair_ok (T : tables) (a b : pset) : Prop := {
  ppo_global : pair_ok (t_global T) (pglobal a) (pglobal b);
  ppo_inputs : Forall2 (pair_ok (t_input T)) (pinputs a) (pinputs b);
  ppo_outputs : Forall2 (pair_ok (t_output T)) (poutputs a) (poutputs b) }.

Lemma zip_merge_commutes (mm : pmap -> pmap -> outcome pmap) (P : pmap -> pmap -> Prop) :
  (forall x y, P x y -> exists c c', mm x y = Val c /\ mm y x = Val c' /\ map_equiv c c') ->
  forall xs ys, Forall2 P xs ys -> exists cs cs', zip_merge mm xs ys = Val cs /\ zip_merge mm ys xs = Val cs' /\ Forall2 map_equiv cs cs'.
Proof.
  intros HP xs ys F. induction F as [|x y xs ys Pxy F IH].
  - exists [], []. cbn. auto.
  - destruct (HP _ _ Pxy) as [c [c' [M [M' E]]]]. destruct IH as [cs [cs' [Z [Z' E']]]].
    exists (c :: cs), (c' :: cs'). cbn [zip_merge]. rewrite M, M', Z, Z'. cbn. auto.
Qed.

Section CommutesWithUid.
  Context {id : Type} (id_eqb : id -> id -> bool) (uid : pset -> outcome id).
  Theorem merge_commutes T a b x y : tables_ok T = true -> tables_canonical T = true ->
    uid a = Val x -> uid b = Val y -> id_eqb x y = true -> id_eqb y x = true -> pset_pair_ok T a b ->
    exists c c', merge_with id_eqb uid T a b = Val c /\ merge_with id_eqb uid T b a = Val c' /\ pset_equiv c c'.
  Proof.
    intros OK CA A B E E' [G I O]. apply tables_ok_parts in OK as (O1 & O2 & O3). apply tables_canonical_parts in CA as (C1 & C2 & C3).
    destruct (merge_map_commutes (t_guarded T) _ _ _ O1 C1 G) as [g [g' [Hg [Hg' Eg]]]].
    destruct (zip_merge_commutes (merge_map_with (t_guarded T) (t_input T)) _ (fun x y => merge_map_commutes (t_guarded T) _ x y O2 C2) _ _ I) as [ci [ci' [Hi [Hi' Ei]]]].
    destruct (zip_merge_commutes (merge_map_with (t_guarded T) (t_output T)) _ (fun x y => merge_map_commutes (t_guarded T) _ x y O3 C3) _ _ O) as [co [co' [Ho [Ho' Eo]]]].
    exists (mkpset g ci co), (mkpset g' ci' co'). rewrite (gate_opens _ _ T a b x y A B E), (gate_opens _ _ T b a y x B A E').
    unfold merge_maps_with, merge_map_with in *. rewrite Hg, Hg', Hi, Hi', Ho, Ho'. cbn [obind].
    split; [reflexivity|]. split; [reflexivity|]. exact (conj Eg (conj Ei Eo)).
  Qed.
End CommutesWithUid.

(* descendants of a common ancestor by disjoint-or-identical additions are compatible *)
Definition extends (o a : pmap) : Prop :=
  (forall f x, unk o f = Some x -> unk a f = Some x) /\ (forall f k x, al_find k (kyd o f) = Some x -> al_find k (kyd a f) = Some x).
Definition additions_agree (o a b : pmap) : Prop :=
  (forall f x y, unk o f = None -> unk a f = Some x -> unk b f = Some y -> x = y) /\
  (forall f k x y, al_find k (kyd o f) = None -> al_find k (kyd a f) = Some x -> al_find k (kyd b f) = Some y -> x = y).
Lemma descendants_compat o a b : extends o a -> extends o b -> additions_agree o a b -> compat a b.
Proof.
  intros [EA EA'] [EB EB'] [AU AK]. split.
  - intros f x y A B. destruct (unk o f) as [z|] eqn:O; [|eauto]. rewrite (EA _ _ O) in A. rewrite (EB _ _ O) in B. congruence.
  - intros f k x y A B. destruct (al_find k (kyd o f)) as [z|] eqn:O; [|eauto]. rewrite (EA' _ _ _ O) in A. rewrite (EB' _ _ _ O) in B. congruence.
Qed.

(* Global::scalars, a Vec<Tweak> *)
Definition vals_nil (l : alist) : Prop := forall k v, al_find k l = Some v -> v = [].       (* a list of bare keys *)
Theorem scalars_merge ops a b : vec_ops_eqb ops canonical_vec_ops = true -> vals_nil a -> vals_nil b ->
  let r := vec_merge ops a b in
  al_sorted r = true /\
  (forall k, al_mem k r = al_mem k a || al_mem k b) /\
  r = vec_merge ops b a.
Proof.
  intros E NA NB. apply vec_ops_eqb_eq in E. subst ops. cbn zeta. split; [apply vec_merge_sorted|]. split.
  - intros k. unfold vec_merge. rewrite vec_merge_mem. reflexivity.
  - apply al_sorted_ext; try apply vec_merge_sorted. intros q. rewrite !vec_merge_find.
    destruct (al_find q a) as [x|] eqn:A, (al_find q b) as [y|] eqn:B; try reflexivity.
    now rewrite (NA _ _ A), (NB _ _ B).
Qed.

Lemma cur_tables_ok : tables_ok cur_tables = true. Proof. vm_compute. reflexivity. Qed.
Lemma cur_tables_canonical : tables_canonical cur_tables = true. Proof. vm_compute. reflexivity. Qed.
(* the statement of witness_utxo clears non_witness_utxo (finding F3-witness-utxo-clears-non-witness-utxo) *)
Lemma utxo_clears : clears xpub_take_arm_guarded pset_input_merge (fld "witness_utxo") (fld "non_witness_utxo") = true.
Proof. vm_compute. reflexivity. Qed.

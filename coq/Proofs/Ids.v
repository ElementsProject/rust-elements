(* What the ids of Model/Ids.v hash, and what equal ids imply: txid, wtxid and block hash (C02), the dynafed roots (C19), the
   issuance ids as TxIn, pset::Input and the extracted transaction compute them (C11).  H and cmp are abstract. *)
From Coq Require Import List NArith ZArith Lia Bool ZifyN ZifyBool ZifyNat.
From Coq.Strings Require Import Byte.
From EV Require Import Base.Bytes Base.Codec Model.Tx Model.Block Model.FastMerkle Model.Sizes Model.Ids Proofs.Flags Proofs.Tx Proofs.Block Proofs.Sizes.
Import ListNotations.
Open Scope N_scope.
Set Default Timeout 30.

Section IDS.
Variable H : bytes -> bytes.
Variable cmp : bytes -> bytes -> bytes.
Variable pt_ok : bytes -> bool.
Variables maxvec cap_txin cap_txout cap_vecu8 cap_tx : N.
Notation TX := (c_tx pt_ok maxvec cap_txin cap_txout cap_vecu8).
Notation HD := (c_header maxvec cap_vecu8).
Definition Collision : Prop := exists a b : bytes, a <> b /\ H a = H b.

Lemma H_inj_or a b : H a = H b -> a = b \/ Collision.
Proof. intros E. destruct (bytes_eq_dec a b) as [->|N]; [now left|right]. now exists a, b. Qed.

Lemma hash_enc_commits {A} (c : codec A) : Lawful c -> forall v v', wf c v = true -> wf c v' = true -> H (enc c v) = H (enc c v') -> v = v' \/ Collision.
Proof. intros L v v' W W' E. destruct (H_inj_or _ _ E) as [E'|C]; [left|now right]. now apply (enc_inj c L). Qed.

Lemma strip_tx_idem t : strip_tx (strip_tx t) = strip_tx t.
Proof. unfold strip_tx. cbn [tx_in tx_out tx_version tx_lock]. rewrite !map_map. f_equal; apply map_ext; reflexivity. Qed.
Lemma enc_nowitness t : has_witness t = false ->
  enc TX t = enc c_u32 (tx_version t) ++ [x00] ++ enc (c_vec (c_txin_nowit pt_ok maxvec) cap_txin) (map strip_in (tx_in t))
             ++ enc (c_vec (c_txout_nowit pt_ok maxvec) cap_txout) (map strip_out (tx_out t)) ++ enc c_u32 (tx_lock t).
Proof. intros HW. cbn [c_tx c_conv enc]. unfold wire_of_tx. rewrite HW. cbn [c_tx_wire c_dep enc].
  unfold c_tx_wits, head_flag. cbn [fst snd N.eqb]. cbn [c_conv enc c_unit]. rewrite app_nil_r.
  cbn [c_tx_head c_pair enc c_u8]. rewrite <- ?app_assoc. reflexivity. Qed.
Theorem txid_is_stripped t : txid_preimage pt_ok maxvec cap_txin cap_txout t = enc TX (strip_tx t).
Proof. rewrite (enc_nowitness (strip_tx t) (has_witness_strip t)). unfold txid_preimage, strip_tx. cbn [tx_in tx_out tx_version tx_lock].
  rewrite !map_map. reflexivity. Qed.
Theorem witness_irrelevant t t' : strip_tx t = strip_tx t' -> txid H pt_ok maxvec cap_txin cap_txout t = txid H pt_ok maxvec cap_txin cap_txout t'.
Proof. intros E. unfold txid. now rewrite !txid_is_stripped, E. Qed.
Theorem nonwitness_commits t t' : wf TX t = true -> wf TX t' = true ->
  txid H pt_ok maxvec cap_txin cap_txout t = txid H pt_ok maxvec cap_txin cap_txout t' -> strip_tx t = strip_tx t' \/ Collision.
Proof. intros W W' E. unfold txid in E. rewrite !txid_is_stripped in E.
  apply (hash_enc_commits TX (c_tx_lawful pt_ok maxvec cap_txin cap_txout cap_vecu8)) in E; auto using wf_strip. Qed.
Theorem wtxid_eq_txid t : wf TX t = true ->
  (has_witness t = false -> wtxid H pt_ok maxvec cap_txin cap_txout cap_vecu8 t = txid H pt_ok maxvec cap_txin cap_txout t) /\
  (wtxid H pt_ok maxvec cap_txin cap_txout cap_vecu8 t = txid H pt_ok maxvec cap_txin cap_txout t -> has_witness t = false \/ Collision).
Proof. intros W. unfold wtxid, txid. rewrite txid_is_stripped. split.
  - intros HW. now rewrite (no_witness_strip_id t HW).
  - intros E. apply (hash_enc_commits TX (c_tx_lawful pt_ok maxvec cap_txin cap_txout cap_vecu8)) in E as [E|C]; auto using wf_strip.
    left. rewrite E. apply has_witness_strip. Qed.

Lemma clear_witness_idem h : clear_witness (clear_witness h) = clear_witness h.
Proof. destruct h as [v p m t ht [c s|c pr w]]; reflexivity. Qed.
Lemma preimage_clear h : block_hash_preimage maxvec cap_vecu8 (clear_witness h) = block_hash_preimage maxvec cap_vecu8 h.
Proof. destruct h as [v p m t ht [c s|c pr w]]; reflexivity. Qed.
Lemma is_dyna_wire h : h_version h < Block.bit31 -> wire_is_dyna (wire_version h) = ext_is_dynafed (h_ext h).
Proof. intros Hv. apply (version_write _ (ext_is_dynafed (h_ext h)) Hv). Qed.
Lemma enc_header h : h_version h < Block.bit31 ->
  enc HD h = enc c_header_head (fst (wire_of_header h)) ++ (if ext_is_dynafed (h_ext h) then enc (c_ext_dynafed maxvec cap_vecu8) (h_ext h) else enc (c_ext_proof maxvec) (h_ext h)).
Proof. intros Hv. cbn [c_header c_conv enc c_header_wire c_dep]. unfold wire_of_header. cbn [fst snd]. rewrite (is_dyna_wire h Hv).
  now destruct (ext_is_dynafed (h_ext h)). Qed.
Lemma wf_header h : wf HD h = true <-> h_version h < Block.bit31 /\ wf c_header_head (fst (wire_of_header h)) = true /\
  (if ext_is_dynafed (h_ext h) then wf (c_ext_dynafed maxvec cap_vecu8) (h_ext h) else wf (c_ext_proof maxvec) (h_ext h)) = true.
Proof. unfold c_header, c_header_wire, wire_of_header. rewrite wf_conv, wf_dep, N.ltb_lt. cbn [fst].
  split; intros (Hv & W); (split; [exact Hv|]); rewrite (is_dyna_wire h Hv) in *; now destruct (ext_is_dynafed (h_ext h)). Qed.
(* the header serialization with the solution / signblock witness emptied is the hash pre-image followed by the one byte of an
   empty script / empty stack *)
Theorem header_enc_clear h : h_version h < Block.bit31 -> enc HD (clear_witness h) = block_hash_preimage maxvec cap_vecu8 h ++ [x00].
Proof. intros Hv. rewrite enc_header by exact Hv. unfold block_hash_preimage.
  destruct h as [v p m t ht [c s|c pr w]]; cbn [clear_witness wire_of_header fst h_version h_prev h_merkle h_time h_height h_ext ext_is_dynafed];
    cbn [c_header_head c_pair enc c_hash32 c_fixed c_ext_proof c_ext_dynafed c_conv]; now rewrite <- ?app_assoc. Qed.
Theorem block_hash_clear h : block_hash H maxvec cap_vecu8 (clear_witness h) = block_hash H maxvec cap_vecu8 h.
Proof. unfold block_hash. now rewrite preimage_clear. Qed.
Lemma wf_clear h : wf HD h = true -> wf HD (clear_witness h) = true.
Proof. rewrite !wf_header. intros (Hv & Wh & We). split; [exact Hv|].
  destruct h as [v p m t ht [c s|c pr w]]; cbn [clear_witness wire_of_header fst h_ext ext_is_dynafed] in *; (split; [exact Wh|]);
    apply wf_conv in We as [_ We]; apply wf_conv; (split; [reflexivity|]).
  - apply wf_pair in We as [Wc _]. apply wf_pair. split; [exact Wc|]. now destruct maxvec.
  - apply wf_pair in We as (Wc & (Wp & _)%wf_pair). apply wf_pair. split; [exact Wc|]. apply wf_pair. split; [exact Wp|]. now destruct cap_vecu8. Qed.
Theorem block_hash_commits h h' : wf HD h = true -> wf HD h' = true ->
  block_hash H maxvec cap_vecu8 h = block_hash H maxvec cap_vecu8 h' -> clear_witness h = clear_witness h' \/ Collision.
Proof. intros W W' E. unfold block_hash in E. destruct (H_inj_or _ _ E) as [E'|C]; [left|now right].
  apply (enc_inj HD (c_header_lawful maxvec cap_vecu8)); auto using wf_clear. rewrite !header_enc_clear, E'; [reflexivity|now apply wf_header..]. Qed.
(* the dynafed marker: the first field of the pre-image is the version with bit 31 set exactly for dynafed headers *)
Theorem preimage_version h : exists rest, block_hash_preimage maxvec cap_vecu8 h =
  enc c_u32 (if ext_is_dynafed (h_ext h) then N.lor (h_version h) 2147483648 else h_version h) ++ rest.
Proof. unfold block_hash_preimage, wire_version, Block.bit31. eexists. reflexivity. Qed.
Notation fmr := (fmr_ctr zero32 cmp).
Lemma fmr2 a b : fmr [a; b] = cmp a b. Proof. reflexivity. Qed.
Lemma fmr3 a b c : fmr [a; b; c] = cmp (cmp a b) c. Proof. reflexivity. Qed.
Notation ROOT := (params_calculate_root H cmp maxvec cap_vecu8).
Notation EXTRA := (full_extra_root H cmp maxvec cap_vecu8).
Theorem root_null : ROOT PNull = zero32. Proof. reflexivity. Qed.
Theorem compact_keeps_signblock f : full_into_compact H cmp maxvec cap_vecu8 f = PCompact (fp_sbs f) (fp_limit f) (EXTRA f).
Proof. reflexivity. Qed.

Notation IDS := (txin_issuance_ids H cmp).
Notation PIDS := (psetin_issuance_ids H cmp).
Definition ids_of_entropy (e : bytes) (conf : bool) : bytes * bytes := (asset_from_entropy cmp e, token_from_entropy cmp e conf).
Theorem ids_formula i : IDS i =
  ids_of_entropy (if bytes_eqb (i_nonce (in_iss i)) zero32 then cmp (H (enc c_outpoint (in_prev i))) (i_entropy (in_iss i)) else i_entropy (in_iss i))
                 (value_is_confidential (i_amount (in_iss i))).
Proof. reflexivity. Qed.
Theorem asset_token_formula e conf : ids_of_entropy e conf = (cmp e zero32, cmp e (if conf then two32 else one32)).
Proof. reflexivity. Qed.

Lemma psetin_issuance_back i : txin_wfB i = true -> psetin_asset_issuance (psetin_from_txin i) = in_iss i.
Proof. intros W. apply txin_wfB_parts in W as (_ & Wd & _).
  unfold psetin_from_txin, psetin_asset_issuance. cbn [pi_nonce pi_entropy pi_amount pi_amount_comm pi_keys pi_keys_comm].
  destruct (has_issuance i) eqn:HI.
  - cbn [opt_default]. destruct (in_iss i) as [n e a k]. cbn [i_nonce i_entropy i_amount i_keys]. destruct a, k; reflexivity.
  - cbn [orb] in Wd. apply issuance_default_eq in Wd. rewrite Wd. reflexivity. Qed.
(* the PSET input built from a transaction input carries the outpoint index WITH the pegin / issuance flag bits ... *)
Theorem pset_view_index i : pi_index (psetin_from_txin i) = wire_vout i. Proof. reflexivity. Qed.
(* ... which pset::Input::issuance_ids strips again before hashing the outpoint *)
Lemma plain_index_back i : txin_wfB i = true ->
  (if wire_vout i =? u32max then wire_vout i else N.land (wire_vout i) 1073741823) = o_vout (in_prev i).
Proof. intros W. apply (wire_vout_read i W). Qed.
(* pset::Input::issuance_ids computes what TxIn::issuance_ids computes on the input that extract_tx builds, for every PSET input *)
Theorem pset_ids_extract p : PIDS p = IDS (psetin_extract p).
Proof. unfold psetin_issuance_ids, txin_issuance_ids, psetin_extract, psetin_asset_issuance. cbn [in_prev in_iss i_nonce i_entropy i_amount].
  now destruct (pi_amount p), (pi_amount_comm p). Qed.
Lemma extract_prev i : txin_wfB i = true -> in_prev (psetin_extract (psetin_from_txin i)) = in_prev i.
Proof. intros W. unfold psetin_extract. cbn [in_prev]. rewrite pset_view_index, (plain_index_back i W).
  change (pi_txid (psetin_from_txin i)) with (o_txid (in_prev i)). destruct (in_prev i); reflexivity. Qed.
Theorem three_views_extract i : txin_wfB i = true -> IDS (psetin_extract (psetin_from_txin i)) = IDS i.
Proof. intros W. unfold txin_issuance_ids. rewrite (extract_prev i W).
  change (in_iss (psetin_extract (psetin_from_txin i))) with (psetin_asset_issuance (psetin_from_txin i)).
  now rewrite (psetin_issuance_back i W). Qed.
Theorem three_views_pset i : txin_wfB i = true -> PIDS (psetin_from_txin i) = IDS i.
Proof. rewrite pset_ids_extract. apply three_views_extract. Qed.
End IDS.

(* C13 / C03 — on the implementation model every query's result (digest, pre-image, error, panic) and every cache content is
   independent of script_sig, script witness and pegin witness of the inputs: the simulation of Proofs/SighashCache.v between two cache
   objects whose transactions differ at most in those fields. *)
From Coq Require Import List Arith NArith Bool Lia.
From Coq.Strings Require Import Byte.
From EV Require Import Base.Bytes Base.Codec Gen.Tables Model.Tx Model.SighashImpl Model.SighashCache Model.SighashSpec Model.SighashQuery
  Proofs.SighashCache.
Import ListNotations.
Open Scope N_scope.
Set Default Timeout 120.

Section WIT.
Variable pt_ok : bytes -> bool.
Variable maxvec : N.
Variable H : bytes -> bytes.
Variable Htag : bytes -> bytes.
Notation common_cache_get := (common_cache_get pt_ok maxvec H).
Notation segwit_cache_get := (segwit_cache_get pt_ok maxvec H).
Notation taproot_cache_get := (taproot_cache_get pt_ok maxvec H).

Definition Rel (s s' : state) : Prop :=
  tx_sig_eq (st_tx s) (st_tx s') /\ st_common s = st_common s' /\ st_segwit s = st_segwit s' /\ st_taproot s = st_taproot s'.
Notation Sim := (Sim Rel).

Lemma Rel_state t t' c c' g g' p p' : tx_sig_eq t t' -> c = c' -> g = g' -> p = p' ->
  Rel {| st_tx := t; st_common := c; st_segwit := g; st_taproot := p |} {| st_tx := t'; st_common := c'; st_segwit := g'; st_taproot := p' |}.
Proof. unfold Rel. cbn. auto. Qed.
Lemma Sim_common : Sim common_cache_get common_cache_get.
Proof. intros s s' (T & C & S & P). unfold SighashImpl.common_cache_get. rewrite <- C. destruct (st_common s) eqn:Ec; cbn [fst snd].
  - split; [reflexivity|]. unfold Rel. split; [exact T|]. repeat split; congruence.
  - rewrite (compute_common_sig pt_ok maxvec H _ _ T). split; [reflexivity|]. now apply Rel_state. Qed.
Lemma Sim_taproot ps : Sim (taproot_cache_get ps) (taproot_cache_get ps).
Proof. intros s s' (T & C & S & P). unfold SighashImpl.taproot_cache_get. rewrite <- P. destruct (st_taproot s) eqn:Ec; cbn [fst snd].
  - split; [reflexivity|]. unfold Rel. split; [exact T|]. repeat split; congruence.
  - rewrite (compute_taproot_sig pt_ok maxvec H _ _ ps T). split; [reflexivity|]. now apply Rel_state. Qed.
Lemma Sim_segwit : Sim segwit_cache_get segwit_cache_get.
Proof. intros s s' R. pose proof R as (T & C & S & P). unfold SighashImpl.segwit_cache_get. rewrite <- S. destruct (st_segwit s) eqn:Ec; cbn [fst snd].
  - split; [reflexivity|exact R].
  - destruct (Sim_common s s' R) as [E R1]. destruct (common_cache_get s) as [s1 r], (common_cache_get s') as [s1' r']. cbn [fst snd] in *. subst r'.
    destruct r as [cc|e|]; cbn [fst snd]; try (split; [reflexivity|exact R1]). destruct R1 as (T1 & C1 & S1 & P1). split; [reflexivity|]. now apply Rel_state. Qed.

Theorem query_sig_indep o : Sim (query pt_ok maxvec H Htag o) (query pt_ok maxvec H Htag o).
Proof. apply (query_sim pt_ok maxvec H Htag Rel (fun _ => True) (fun s s' R => proj1 R) Sim_common Sim_segwit (fun ps _ => Sim_taproot ps)).
  unfold op_okps. now destruct (op_prevouts o). Qed.
Theorem preimage_sig_indep o : Sim (preimage pt_ok maxvec H o) (preimage pt_ok maxvec H o).
Proof. apply (preimage_sim pt_ok maxvec H Rel (fun _ => True) (fun s s' R => proj1 R) Sim_common Sim_segwit (fun ps _ => Sim_taproot ps)).
  unfold op_okps. now destruct (op_prevouts o). Qed.

Definition op_sim (o o' : op) : Prop := o = o' \/ exists i w w', o = OWitnessMut i w /\ o' = OWitnessMut i w'.
Lemma Rel_init t t' : tx_sig_eq t t' -> Rel (init t) (init t').
Proof. intros E. unfold Rel, init; cbn. auto. Qed.
Lemma sig_set_witness a b w w' : in_sig_eq a b -> in_sig_eq (set_script_witness_in a w) (set_script_witness_in b w').
Proof. unfold in_sig_eq, set_script_witness_in, set_inwit. cbn. tauto. Qed.
Lemma F2_update_nth {A} (R : A -> A -> Prop) (f f' : A -> A) : (forall a b, R a b -> R (f a) (f' b)) ->
  forall l l', Forall2 R l l' -> forall n, Forall2 R (update_nth n f l) (update_nth n f' l').
Proof. intros E l l' F. induction F; intros [|n]; cbn; constructor; auto. Qed.
Lemma witness_mut_sim i w w' s s' : Rel s s' ->
  snd (witness_mut i w s) = snd (witness_mut i w' s') /\ Rel (fst (witness_mut i w s)) (fst (witness_mut i w' s')).
Proof. intros ((V & L & I & O) & C & S & P). unfold witness_mut; cbn [fst snd]. split; [now rewrite (Forall2_length _ _ _ I)|].
  apply Rel_state; auto. unfold tx_sig_eq, set_script_witness; cbn. repeat split; auto. apply F2_update_nth; [|exact I]. intros. now apply sig_set_witness. Qed.
Lemma step_sim s s' o o' : Rel s s' -> op_sim o o' ->
  snd (step pt_ok maxvec H Htag s o) = snd (step pt_ok maxvec H Htag s' o') /\ Rel (fst (step pt_ok maxvec H Htag s o)) (fst (step pt_ok maxvec H Htag s' o')).
Proof. intros R [<-|(i & w & w' & -> & ->)].
  - pose proof (query_sig_indep o s s' R) as [E R1]. destruct o as [? ? ?|? ? ? ?|? ? ? ? ? ?|? ? ? ?|? ? ? ? ?|i w]; unfold step;
      try (destruct (query _ _ _ _ _ s), (query _ _ _ _ _ s'); cbn [fst snd] in *; now subst).
    destruct (witness_mut_sim i w w s s' R) as [E' R']. destruct (witness_mut i w s), (witness_mut i w s'). cbn [fst snd] in *. now subst.
  - unfold step. destruct (witness_mut_sim i w w' s s' R) as [E R1]. destruct (witness_mut i w s), (witness_mut i w' s'). cbn [fst snd] in *. now subst. Qed.
Theorem run_sim : forall ops ops' s s', Rel s s' -> Forall2 op_sim ops ops' -> run pt_ok maxvec H Htag s ops = run pt_ok maxvec H Htag s' ops'.
Proof. induction ops as [|o ops IH]; intros ops' s s' R F; inversion F as [|? o' ? ops'' Ho Hr]; subst; cbn [run]; [reflexivity|].
  destruct (step_sim s s' o o' R Ho) as [E R1]. destruct (step pt_ok maxvec H Htag s o) as [s1 x], (step pt_ok maxvec H Htag s' o') as [s1' x']. cbn [fst snd] in *. subst.
  f_equal. now apply IH. Qed.
Lemma op_sim_refl ops : Forall2 op_sim ops ops.
Proof. induction ops; constructor; auto. now left. Qed.
End WIT.

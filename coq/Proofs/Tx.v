(* Lawfulness (exactness, canonical outputs, completeness, reported length) of every codec of Model/Tx.v. *)
From Coq Require Import List NArith ZArith Lia Bool ZifyN ZifyBool ZifyNat.
From Coq.Strings Require Import Byte.
From EV Require Import Base.Bytes Base.Codec Model.Tx Proofs.Flags.
Import ListNotations.
Open Scope N_scope.
Set Default Timeout 10.

Lemma b2n_lit n b : b2n b = n -> n < 256 -> b = n2b n. Proof. intros <- _. now rewrite n2b_b2n. Qed.
Lemma b2n_x00 : b2n x00 = 0. Proof. reflexivity. Qed.
Lemma b2n_x01 : b2n x01 = 1. Proof. reflexivity. Qed.
Lemma b2n_eq_0 b : b2n b = 0 -> b = x00. Proof. intros H. apply b2n_inj. now rewrite H. Qed.
Lemma b2n_eq_1 b : b2n b = 1 -> b = x01. Proof. intros H. apply b2n_inj. now rewrite H. Qed.

Lemma c_const_lawful {B} (x : B) (is_x : B -> bool) : is_x x = true -> (forall b, is_x b = true -> b = x) ->
  Lawful (c_conv c_unit (fun _ => Some x) (fun _ => tt) is_x).
Proof. intros Hx Hb. apply c_conv_lawful; [apply c_unit_lawful| |].
  - intros [] b _ [= <-]. now split.
  - intros b H _. now rewrite (Hb b H). Qed.

(* Value, Asset and Nonce share one wire shape: a prefix byte 0 (null), 1 (an explicit payload with a codec of its own) or
   lo / hi (a 33-byte commitment, the prefix being its first byte).  One proof for a type with these three constructors. *)
Section PREFIXED.
Variable pt_ok : bytes -> bool.
Context {A E : Type} (ce : codec E) (lo hi : N) (null : A) (expl : E -> A) (conf : bytes -> A) (c : codec A).
Hypothesis cases : forall P : A -> Prop, P null -> (forall e, P (expl e)) -> (forall k, P (conf k)) -> forall a, P a.
Hypotheses (Lce : Lawful ce) (Hlo : 1 < lo) (Hhi : 1 < hi).
Hypothesis dec_eq : forall bs, dec c bs = match bs with [] => None | b :: r =>
    let p := b2n b in
    if p =? 0 then Some (null, r)
    else if p =? 1 then match dec ce r with Some (e, r') => Some (expl e, r') | None => None end
    else if (p =? lo) || (p =? hi) then match take 32 r with Some (x, r') => if pt_ok (b :: x) then Some (conf (b :: x), r') else None | None => None end
    else None end.
Hypotheses (enc_null : enc c null = [x00]) (enc_expl : forall e, enc c (expl e) = x01 :: enc ce e) (enc_conf : forall k, enc c (conf k) = k).
Hypotheses (wf_null : wf c null = true) (wf_expl : forall e, wf c (expl e) = wf ce e) (wf_conf : forall k, wf c (conf k) = conf_wf pt_ok lo hi k).
Hypotheses (len_null : elen c null = 1) (len_expl : forall e, wf ce e = true -> elen c (expl e) = 1 + elen ce e) (len_conf : forall k, elen c (conf k) = 33).

Lemma conf_wf_inv k rest : conf_wf pt_ok lo hi k = true ->
  exists b x, k = b :: x /\ ((b2n b =? lo) || (b2n b =? hi)) = true /\ take 32 (x ++ rest) = Some (x, rest) /\ pt_ok k = true /\ length k = 33%nat.
Proof. destruct k as [|b x]; [discriminate|]. cbn [conf_wf]. intros H. apply andb_true_iff in H as [H K]. apply andb_true_iff in H as [P L].
  apply Nat.eqb_eq in L. exists b, x. repeat split; auto. rewrite <- L. apply take_app. cbn. now rewrite L. Qed.

Theorem prefixed_lawful : Lawful c.
Proof. apply lawful_intro.
  - intros bs v rest. rewrite dec_eq. destruct bs as [|b r]; [discriminate|]. cbv zeta.
    destruct (N.eqb_spec (b2n b) 0) as [E0|_]. { intros [= <- <-]. rewrite enc_null, wf_null, (b2n_eq_0 _ E0). split; reflexivity. }
    destruct (N.eqb_spec (b2n b) 1) as [E1|_].
    { destruct (dec ce r) as [[e r']|] eqn:D; [|discriminate]. intros [= <- <-]. rewrite enc_expl, wf_expl, (b2n_eq_1 _ E1).
      apply (l_dec Lce) in D as [-> W]. now split. }
    destruct (_ || _) eqn:P; [|discriminate]. destruct (take 32 r) as [[x r']|] eqn:T; [|discriminate]. destruct (pt_ok (b :: x)) eqn:K; [|discriminate].
    intros [= <- <-]. rewrite enc_conf, wf_conf. apply take_spec in T as [-> L]. split; [reflexivity|]. cbn [conf_wf]. now rewrite P, L, K.
  - intros v rest. rewrite dec_eq. induction v as [|e|k] using cases.
    + now rewrite enc_null.
    + rewrite enc_expl, wf_expl. intros W. cbn [app]. cbv zeta. rewrite b2n_x01. cbn [N.eqb Pos.eqb]. now rewrite (l_complete Lce e rest W).
    + rewrite enc_conf, wf_conf. intros W. destruct (conf_wf_inv k rest W) as (b & x & -> & P & T & K & _). cbn [app]. cbv zeta.
      destruct (N.eqb_spec (b2n b) 0); [lia|]. destruct (N.eqb_spec (b2n b) 1); [lia|]. now rewrite P, T, K.
  - intros v. induction v as [|e|k] using cases.
    + now rewrite len_null, enc_null.
    + rewrite wf_expl, enc_expl. intros W. rewrite (len_expl e W), (l_len Lce e W). cbn [length]. lia.
    + rewrite wf_conf, len_conf, enc_conf. intros W. now destruct (conf_wf_inv k [] W) as (_ & _ & _ & _ & _ & _ & ->). Qed.
End PREFIXED.

Section TX.
Variable pt_ok : bytes -> bool.
Variable maxvec : N.
Variables cap_txin cap_txout cap_vecu8 cap_tx : N.

Lemma c_value_lawful : Lawful (c_value pt_ok).
Proof. apply (prefixed_lawful pt_ok (c_be 8) 8 9 VNull VExplicit VConf); try reflexivity; [exact cvalue_ind|apply c_be_lawful]. Qed.
Lemma fixed32_len b : wf (c_fixed 32) b = true -> N.of_nat (length b) = 32.
Proof. cbn [c_fixed wf]. intros H. apply Nat.eqb_eq in H. now rewrite H. Qed.
(* an explicit asset or nonce is 32 raw bytes, reported as 33 with the prefix *)
Lemma explicit32_len b : wf (c_fixed 32) b = true -> 33 = 1 + elen (c_fixed 32) b.
Proof. intros W. cbn [c_fixed elen]. now rewrite (fixed32_len b W). Qed.
Lemma c_asset_lawful : Lawful (c_asset pt_ok).
Proof. apply (prefixed_lawful pt_ok (c_fixed 32) 10 11 ANull AExplicit AConf); try reflexivity; [exact casset_ind|apply c_fixed_lawful|exact explicit32_len]. Qed.
Lemma c_nonce_lawful : Lawful (c_nonce pt_ok).
Proof. apply (prefixed_lawful pt_ok (c_fixed 32) 2 3 NNull NExplicit NConf); try reflexivity; [exact cnonce_ind|apply c_fixed_lawful|exact explicit32_len]. Qed.

Lemma c_optproof_lawful ok : Lawful (c_optproof maxvec ok).
Proof. apply c_conv_lawful; [apply c_varbytes_lawful| |].
  - intros [|x a] b _ T.
    + inversion T; subst. split; reflexivity.
    + destruct (ok (x :: a)) eqn:K; [|discriminate]. inversion T; subst. split; [reflexivity|]. cbn [length Nat.eqb negb andb]. exact K.
  - intros [b|] H _; [|reflexivity]. apply andb_true_iff in H as [H K]. destruct b as [|x a]; [discriminate|]. now rewrite K. Qed.

Lemma c_issuance_lawful : Lawful (c_issuance pt_ok).
Proof. apply c_conv_lawful.
  - apply c_pair_lawful; [apply c_guard_lawful, c_fixed_lawful|]. apply c_pair_lawful; [apply c_fixed_lawful|]. apply c_pair_lawful; apply c_value_lawful.
  - intros [n [e [a k]]] b _ T. inversion T; subst. split; reflexivity.
  - intros [n e a k] _ _. reflexivity. Qed.
Lemma c_outpoint_lawful : Lawful c_outpoint.
Proof. apply c_conv_lawful.
  - apply c_pair_lawful; [apply c_fixed_lawful|apply c_le_lawful].
  - intros [t v] b _ T. inversion T; subst. split; reflexivity.
  - intros [t v] _ _. reflexivity. Qed.
Lemma c_script_lawful : Lawful (c_script maxvec). Proof. apply c_varbytes_lawful. Qed.
Lemma c_stack_lawful : Lawful (c_stack maxvec cap_vecu8). Proof. apply c_vec_lawful, c_script_lawful. Qed.
Lemma c_inwit_lawful : Lawful (c_inwit maxvec cap_vecu8).
Proof. apply c_conv_lawful.
  - repeat apply c_pair_lawful; try apply c_optproof_lawful; apply c_stack_lawful.
  - intros [a [k [s p]]] b _ T. inversion T; subst. split; reflexivity.
  - intros [a k s p] _ _. reflexivity. Qed.
Lemma c_outwit_lawful : Lawful (c_outwit maxvec).
Proof. apply c_conv_lawful.
  - apply c_pair_lawful; apply c_optproof_lawful.
  - intros [s r] b _ T. inversion T; subst. split; reflexivity.
  - intros [s r] _ _. reflexivity. Qed.
Lemma inwit_empty_eq w : inwit_is_empty w = true -> w = empty_inwit.
Proof. destruct w as [a k s p]. unfold inwit_is_empty. cbn. destruct a, k, s, p; try discriminate. reflexivity. Qed.
Lemma outwit_empty_eq w : outwit_is_empty w = true -> w = empty_outwit.
Proof. destruct w as [s r]. unfold outwit_is_empty. cbn. destruct s, r; try discriminate. reflexivity. Qed.
Lemma issuance_default_eq i : issuance_is_default i = true -> i = null_issuance.
Proof. destruct i as [n e a k]. unfold issuance_is_default, issuance_is_null. cbn [i_nonce i_entropy i_amount i_keys]. intros H.
  apply andb_true_iff in H as [H H3]. apply andb_true_iff in H as [H1 H2]. apply andb_true_iff in H3 as [Ha Hk].
  destruct (bytes_eqb_spec n zero32); [|discriminate]. destruct (bytes_eqb_spec e zero32); [|discriminate].
  destruct a, k; try discriminate. subst. reflexivity. Qed.
Lemma null_issuance_default : issuance_is_default null_issuance = true. Proof. reflexivity. Qed.

Definition c_noiss : codec issuance := c_conv c_unit (fun _ => Some null_issuance) (fun _ => tt) issuance_is_default.
Lemma c_noiss_lawful : Lawful c_noiss.
Proof. apply c_const_lawful; [reflexivity|exact issuance_default_eq]. Qed.
Lemma c_txin_wire_lawful : Lawful (c_txin_wire pt_ok maxvec).
Proof. apply c_dep_lawful.
  - apply c_pair_lawful; apply c_pair_lawful; try apply c_fixed_lawful; try apply c_le_lawful; apply c_script_lawful.
  - intros h. destruct (wire_has_issuance (snd (fst h))); [apply c_issuance_lawful|apply c_noiss_lawful]. Qed.

Lemma u32_wf_lt v : wf c_u32 v = true -> v < 2 ^ 32.
Proof. intros H. now apply N.ltb_lt in H. Qed.
Lemma u32_lt_wf v : v < 2 ^ 32 -> wf c_u32 v = true.
Proof. intros H. now apply N.ltb_lt. Qed.

(* The serialized output index carries the triple (index, pegin, issuance).  The canonical triples are those with the index
   below 2^30, except 0x3fffffff with both flags, and the coinbase index without flags; they are in bijection with
   the 32-bit words. *)
Definition index_ok (v : N) (pg hi : bool) : bool :=
  ((v <? B30) && negb ((v =? MASK) && pg && hi)) || ((v =? ALL1) && negb pg && negb hi).
Lemma wire_vout_join i : wire_vout i = join (o_vout (in_prev i)) (in_pegin i) (has_issuance i).
Proof. reflexivity. Qed.
Lemma txin_wfB_eq i : txin_wfB i =
  index_ok (o_vout (in_prev i)) (in_pegin i) (has_issuance i) && (has_issuance i || issuance_is_default (in_iss i)) && inwit_is_empty (in_wit i).
Proof. unfold txin_wfB, index_ok, B30, MASK, ALL1. reflexivity. Qed.
Lemma txin_wfB_parts i : txin_wfB i = true ->
  index_ok (o_vout (in_prev i)) (in_pegin i) (has_issuance i) = true /\ (has_issuance i || issuance_is_default (in_iss i)) = true /\ inwit_is_empty (in_wit i) = true.
Proof. rewrite txin_wfB_eq, !andb_true_iff. tauto. Qed.
Lemma index_ok_read v pg hi : index_ok v pg hi = true ->
  let w := join v pg hi in w < 2 ^ 32 /\ wire_has_issuance w = hi /\ wire_is_pegin w = pg /\ wire_plain_vout w = v.
Proof. unfold index_ok. intros H. apply orb_true_iff in H as [H|H].
  - apply andb_true_iff in H as [Hlt Hn]. apply N.ltb_lt in Hlt.
    destruct (join_read v pg hi Hlt) as (Hne & Hw & H31 & H30 & Hm). { intros (-> & -> & ->). discriminate. }
    unfold wire_has_issuance, wire_is_pegin, wire_plain_vout. now destruct (N.eqb_spec (join v pg hi) u32max).
  - apply andb_true_iff in H as [H Hi]. apply andb_true_iff in H as [Hv Hp]. apply N.eqb_eq in Hv. subst v.
    destruct pg, hi; try discriminate. now vm_compute. Qed.
Lemma read_index_ok w : w < 2 ^ 32 ->
  join (wire_plain_vout w) (wire_is_pegin w) (wire_has_issuance w) = w /\ index_ok (wire_plain_vout w) (wire_is_pegin w) (wire_has_issuance w) = true.
Proof. intros Hw. unfold wire_plain_vout, wire_is_pegin, wire_has_issuance. fold MASK. destruct (N.eqb_spec w u32max) as [->|NE]; [now split|].
  destruct (read_join w Hw NE) as [J Hlt]. split; [exact J|]. unfold index_ok. apply N.ltb_lt in Hlt. rewrite Hlt.
  (* the excluded triple would have come from the coinbase word *)
  destruct (N.eqb_spec (N.land w MASK) MASK) as [E|]; [|reflexivity]. rewrite E in J.
  destruct (N.testbit w 30), (N.testbit w 31); try reflexivity. now contradiction NE. Qed.

Lemma wire_vout_read i : txin_wfB i = true ->
  wire_vout i < 2 ^ 32 /\ wire_has_issuance (wire_vout i) = has_issuance i /\ wire_is_pegin (wire_vout i) = in_pegin i /\ wire_plain_vout (wire_vout i) = o_vout (in_prev i).
Proof. rewrite wire_vout_join. intros W. apply txin_wfB_parts in W as (W & _). now apply index_ok_read. Qed.

Lemma c_txin_nowit_lawful : Lawful (c_txin_nowit pt_ok maxvec).
Proof. apply c_conv_lawful; [apply c_txin_wire_lawful| |].
  - intros [[[t v] [s q]] iss] b W T. unfold txin_of_wire in T.
    apply wf_dep in W as [Wh Wi]. apply wf_pair in Wh as [Wtv _]. apply wf_pair in Wtv as [_ Wv]. cbn [fst snd] in Wi.
    destruct (read_index_ok v (u32_wf_lt v Wv)) as [J K].
    (* the issuance read is the one kept in memory, and it is null exactly when the flag is clear *)
    assert (Hi : b = {| in_prev := {| o_txid := t; o_vout := wire_plain_vout v |}; in_pegin := wire_is_pegin v; in_script := s; in_seq := q; in_iss := iss; in_wit := empty_inwit |}
                 /\ issuance_is_null iss = negb (wire_has_issuance v)).
    { destruct (wire_has_issuance v).
      - destruct (issuance_is_null iss) eqn:Z; [discriminate|]. injection T as <-. now split.
      - apply wf_conv in Wi as [Wi _]. apply issuance_default_eq in Wi. subst iss. injection T as <-. now split. }
    destruct Hi as (-> & Z). unfold wire_of_txin. rewrite wire_vout_join, txin_wfB_eq. unfold has_issuance.
    cbn [in_prev o_txid o_vout in_pegin in_iss in_script in_seq in_wit]. rewrite Z, negb_involutive, J, K. split; [reflexivity|].
    destruct (wire_has_issuance v); [reflexivity|]. now apply wf_conv in Wi as [-> _].
  - intros i Wb _. destruct (wire_vout_read i Wb) as (_ & H31 & H30 & Hv).
    apply txin_wfB_parts in Wb as (_ & Wd & We). apply inwit_empty_eq in We.
    unfold wire_of_txin, txin_of_wire. rewrite H31, H30, Hv. destruct i as [[t v] pg s q iss w]. cbn [in_prev o_txid o_vout in_pegin in_iss in_script in_seq in_wit] in *. subst w.
    unfold has_issuance in *. cbn [in_iss] in *. destruct (issuance_is_null iss); [|reflexivity]. cbn [negb orb andb] in *. now rewrite (issuance_default_eq iss Wd). Qed.

Lemma c_txout_nowit_lawful : Lawful (c_txout_nowit pt_ok maxvec).
Proof. apply c_conv_lawful.
  - apply c_pair_lawful; [apply c_asset_lawful|]. apply c_pair_lawful; [apply c_value_lawful|]. apply c_pair_lawful; [apply c_nonce_lawful|apply c_script_lawful].
  - intros [a [v [n s]]] b _ T. inversion T; subst. split; reflexivity.
  - intros [a v n s w] H _. cbn [out_wit] in H. apply outwit_empty_eq in H. subst w. reflexivity. Qed.
Lemma strip_in_id i : inwit_is_empty (in_wit i) = true -> strip_in i = i.
Proof. destruct i as [p g s q iss w]. cbn [in_wit]. intros H. apply inwit_empty_eq in H. subst. reflexivity. Qed.
Lemma strip_out_id o : outwit_is_empty (out_wit o) = true -> strip_out o = o.
Proof. destruct o as [a v n s w]. cbn [out_wit]. intros H. apply outwit_empty_eq in H. subst. reflexivity. Qed.
(* inputs and outputs are handled alike: a witness is taken off (strip, wit) and put back (set) elementwise *)
Lemma zip_unzip {A W} (set : A -> W -> A) (strip : A -> A) (wit : A -> W) l :
  (forall x, set (strip x) (wit x) = x) -> zip_with set (map strip l) (map wit l) = l.
Proof. intros E. induction l as [|x l IH]; cbn [map zip_with]; [reflexivity|]. now rewrite E, IH. Qed.
Lemma unzip_zip {A W} (set : A -> W -> A) (strip : A -> A) (wit : A -> W) :
  (forall x w, strip (set x w) = strip x) -> (forall x w, wit (set x w) = w) ->
  forall l ws, length ws = length l -> map strip l = l -> map strip (zip_with set l ws) = l /\ map wit (zip_with set l ws) = ws.
Proof. intros Es Ew. induction l as [|x l IH]; intros [|w ws] L F; try discriminate; cbn [zip_with map] in *; [now split|].
  injection L as L. injection F as Fx Fl. destruct (IH ws L Fl) as [-> ->]. now rewrite Es, Ew, Fx. Qed.
Lemma map_strip_in_id l : forallb (fun i => inwit_is_empty (in_wit i)) l = true -> map strip_in l = l.
Proof. apply map_fix, strip_in_id. Qed.
Lemma map_strip_out_id l : forallb (fun o => outwit_is_empty (out_wit o)) l = true -> map strip_out l = l.
Proof. apply map_fix, strip_out_id. Qed.
Lemma has_witness_alt t : has_witness t = negb (forallb inwit_is_empty (map in_wit (tx_in t)) && forallb outwit_is_empty (map out_wit (tx_out t))).
Proof. unfold has_witness. rewrite !forallb_map, !existsb_negb_forallb, negb_andb. reflexivity. Qed.
Lemma no_witness_parts t : has_witness t = false ->
  forallb (fun i => inwit_is_empty (in_wit i)) (tx_in t) = true /\ forallb (fun o => outwit_is_empty (out_wit o)) (tx_out t) = true.
Proof. rewrite has_witness_alt, negb_false_iff, andb_true_iff, !forallb_map. exact (fun H => H). Qed.
Lemma has_witness_strip t : has_witness (strip_tx t) = false.
Proof. rewrite has_witness_alt. unfold strip_tx. cbn [tx_in tx_out]. rewrite !map_map. cbn [strip_in strip_out in_wit out_wit].
  apply negb_false_iff, andb_true_iff. split; apply forallb_forall; intros w Hw; apply in_map_iff in Hw as (? & <- & _); reflexivity. Qed.
Lemma no_witness_strip_id t : has_witness t = false -> strip_tx t = t.
Proof. intros HW. apply no_witness_parts in HW as [H1 H2]. destruct t as [v l i o]. unfold strip_tx. cbn [tx_in tx_out tx_version tx_lock] in *.
  now rewrite map_strip_in_id, map_strip_out_id. Qed.
Lemma txin_vec_nowit l : forallb (wf (c_txin_nowit pt_ok maxvec)) l = true -> forallb (fun i => inwit_is_empty (in_wit i)) l = true.
Proof. apply forallb_impl. intros i W. apply wf_conv in W as [W _]. now apply txin_wfB_parts in W. Qed.
Lemma txout_vec_nowit l : forallb (wf (c_txout_nowit pt_ok maxvec)) l = true -> forallb (fun o => outwit_is_empty (out_wit o)) l = true.
Proof. apply forallb_impl. intros o W. now apply wf_conv in W. Qed.

Definition c_nowits : codec (list inwit * list outwit) :=
  c_conv c_unit (fun _ => Some ([], [])) (fun _ => tt) (fun p => match p with ([], []) => true | _ => false end).
Lemma c_nowits_lawful : Lawful c_nowits.
Proof. apply c_const_lawful; [reflexivity|]. now intros [[|? ?] [|? ?]]. Qed.
Lemma c_tx_head_lawful : Lawful (c_tx_head pt_ok maxvec cap_txin cap_txout).
Proof. unfold c_tx_head. apply c_pair_lawful; [apply c_le_lawful|]. apply c_pair_lawful; [apply c_u8_lawful|].
  apply c_pair_lawful; [apply c_vec_lawful, c_txin_nowit_lawful|]. apply c_pair_lawful; [apply c_vec_lawful, c_txout_nowit_lawful|apply c_le_lawful]. Qed.
Lemma wf_tx_head_parts ver flag ins outs lock : wf (c_tx_head pt_ok maxvec cap_txin cap_txout) (ver, (flag, (ins, (outs, lock)))) = true ->
  forallb (wf (c_txin_nowit pt_ok maxvec)) ins = true /\ forallb (wf (c_txout_nowit pt_ok maxvec)) outs = true.
Proof. cbn [c_tx_head c_pair c_vec wf]. rewrite !andb_true_iff. intros (_ & _ & (_ & Wi) & (_ & Wo) & _). now split. Qed.
Lemma c_tx_wire_lawful : Lawful (c_tx_wire pt_ok maxvec cap_txin cap_txout cap_vecu8).
Proof. apply c_dep_lawful; [apply c_tx_head_lawful|]. intros h. unfold c_tx_wits. destruct (head_flag h =? 1).
  - apply c_pair_lawful; apply c_vecn_lawful; [apply c_inwit_lawful|apply c_outwit_lawful].
  - apply c_nowits_lawful. Qed.

Theorem c_tx_lawful : Lawful (c_tx pt_ok maxvec cap_txin cap_txout cap_vecu8).
Proof. apply c_conv_lawful; [apply c_tx_wire_lawful| |].
  - intros [[ver [flag [ins [outs lock]]]] [iw ow]] t W T. split; [|reflexivity].
    apply wf_dep in W as [Wh Ww].
    apply wf_tx_head_parts in Wh as [Wi Wo]. apply txin_vec_nowit in Wi. apply txout_vec_nowit in Wo.
    unfold tx_of_wire in T. unfold c_tx_wits, head_flag, head_ins, head_outs in Ww. cbn [fst snd] in Ww.
    destruct (N.eqb_spec flag 0) as [->|N0].
    + inversion T; subst t. clear T. cbn [N.eqb] in Ww. apply wf_conv in Ww as [Ww _].
      destruct iw, ow; try discriminate. unfold wire_of_tx. rewrite has_witness_alt. cbn [tx_in tx_out tx_version tx_lock].
      rewrite !forallb_map, Wi, Wo. cbn [andb negb]. rewrite map_strip_in_id, map_strip_out_id by assumption. reflexivity.
    + destruct (N.eqb_spec flag 1) as [->|N1]; [|discriminate].
      destruct (forallb inwit_is_empty iw && forallb outwit_is_empty ow) eqn:E; [discriminate|]. inversion T; subst t. clear T.
      apply wf_pair in Ww as [Wiw Wow]. apply wf_vecn in Wiw as [Li _]. apply wf_vecn in Wow as [Lo _].
      destruct (unzip_zip set_inwit strip_in in_wit (fun _ _ => eq_refl) (fun _ _ => eq_refl) ins iw Li (map_strip_in_id ins Wi)) as [S1 S2].
      destruct (unzip_zip set_outwit strip_out out_wit (fun _ _ => eq_refl) (fun _ _ => eq_refl) outs ow Lo (map_strip_out_id outs Wo)) as [S3 S4].
      unfold wire_of_tx. rewrite has_witness_alt. cbn [tx_in tx_out tx_version tx_lock]. rewrite S1, S2, S3, S4, E. reflexivity.
  - intros [ver lock ins outs] _ W. unfold wire_of_tx, tx_of_wire. cbn [tx_in tx_out tx_version tx_lock].
    destruct (has_witness {| tx_version := ver; tx_lock := lock; tx_in := ins; tx_out := outs |}) eqn:HW.
    + cbn [N.eqb Pos.eqb]. rewrite has_witness_alt in HW. cbn [tx_in tx_out] in HW. apply negb_true_iff in HW. rewrite HW.
      now rewrite !zip_unzip by now intros [].
    + cbn [N.eqb]. f_equal. exact (no_witness_strip_id _ HW). Qed.
End TX.

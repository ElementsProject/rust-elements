From Coq Require Import List NArith ZArith Bool Lia ZifyN ZifyBool ZifyNat.
From Coq.Strings Require Import Byte.
From EV Require Import Base.Bytes Gen.Tables Model.Script.
Import ListNotations.
Ltac Zify.zify_post_hook ::= Z.div_mod_to_equations.
Open Scope N_scope.

(* by enumeration of the 256 opcodes: 0x00..0x4b push that many bytes, what is Ordinary lies above them (PUSHDATA1/2/4 are 0x4c..0x4e), every other
   class lies above 0x4e, and Ordinary::try_from_all(..).unwrap() never fails in the Legacy context *)
Lemma classify_cases b :
  match classify_legacy (b2n b) with
  | CPushBytes n => n = b2n b /\ n <= 75
  | COrdinary c => c = b2n b /\ 76 <= c
  | CUnwrapNone => False
  | _ => 78 < b2n b end.
Proof. destruct b; vm_compute; first [reflexivity | split; [reflexivity|discriminate]]. Qed.
Lemma classify_push b : b2n b <= 75 -> classify_legacy (b2n b) = CPushBytes (b2n b).
Proof. pose proof (classify_cases b) as C. destruct (classify_legacy (b2n b)); try lia. destruct C as [-> _]. reflexivity. Qed.
Lemma classify_total b : classify_legacy (b2n b) <> CUnwrapNone.
Proof. pose proof (classify_cases b) as C. destruct (classify_legacy (b2n b)); try discriminate. contradiction. Qed.

Lemma n2b_76 : n2b OP_PUSHDATA1 = x4c. Proof. reflexivity. Qed.
Lemma n2b_77 : n2b OP_PUSHDATA2 = x4d. Proof. reflexivity. Qed.
Lemma n2b_78 : n2b OP_PUSHDATA4 = x4e. Proof. reflexivity. Qed.

Lemma lenN_cons x s : lenN (x :: s) = 1 + lenN s. Proof. unfold lenN. cbn [length]. lia. Qed.
Lemma lenN_app a b : lenN (a ++ b) = lenN a + lenN b. Proof. unfold lenN. rewrite app_length. lia. Qed.
Lemma lenN_nil : lenN [] = 0. Proof. reflexivity. Qed.
Lemma to_nat_lenN d : N.to_nat (lenN d) = length d. Proof. unfold lenN. lia. Qed.

Definition hdr_minimal (h : bytes) (n : N) : bool :=
  match h with [_] => true | [_; _] => 76 <=? n | [_; _; _] => 0x100 <=? n | _ => 0x10000 <=? n end.

Lemma n2b_mod n : n2b (n mod 256) = n2b n.
Proof. unfold n2b. now rewrite N.mod_mod. Qed.
Lemma push_header_valid n h : push_header n = Val h -> valid_header h n /\ hdr_minimal h n = true.
Proof. unfold push_header, valid_header, OP_PUSHDATA1, OP_PUSHDATA2, OP_PUSHDATA4.
  destruct (N.ltb_spec n 76). { intros [= <-]. split; [left; split; [reflexivity|lia]|reflexivity]. }
  destruct (N.ltb_spec n 256). { intros [= <-]. split; [right; left; split; [reflexivity|lia]|cbn; lia]. }
  destruct (N.ltb_spec n 65536). { intros [= <-]. split; [right; right; left; split; [|lia]|cbn; lia]. cbn [le_enc]. now rewrite n2b_mod. }
  destruct (N.ltb_spec n 4294967296); [|discriminate].
  intros [= <-]. split; [right; right; right; split; [|lia]|cbn; lia]. cbn [le_enc]. now rewrite !n2b_mod, !N.div_div. Qed.

Lemma valid_header_length h n : valid_header h n ->
  (length h = 1%nat /\ n <= 75) \/ (length h = 2%nat /\ n < 256) \/ (length h = 3%nat /\ n < 65536) \/ (length h = 5%nat /\ n < 4294967296).
Proof. intros [[-> H]|[[-> H]|[[-> H]|[-> H]]]]; cbn [length]; rewrite ?le_enc_length; auto 10. Qed.
Theorem push_header_shortest n h : push_header n = Val h ->
  valid_header h n /\ forall h', valid_header h' n -> (length h <= length h')%nat.
Proof. intros E. destruct (push_header_valid n h E) as [V M]. split; [exact V|]. intros h' V'.
  apply valid_header_length in V'. destruct V as [[-> H]|[[-> H]|[[-> H]|[-> H]]]]; cbn [hdr_minimal le_enc length] in *; lia. Qed.
Lemma push_header_panic_iff n : (exists w, push_header n = Panic w) <-> 0x100000000 <= n.
Proof. unfold push_header, OP_PUSHDATA1. destruct (N.ltb_spec n 4294967296) as [L|G].
  - split; [|lia]. intros [w X]. destruct (n <? 76), (n <? 256), (n <? 65536); discriminate X.
  - rewrite !(proj2 (N.ltb_ge n _)) by lia. split; [lia|eexists; reflexivity]. Qed.

Lemma next_op m c tl : 78 < b2n c -> next m (c :: tl) = Some (IOp c, tl).
Proof. intros H. pose proof (classify_cases c) as P. unfold next, OP_PUSHDATA1, OP_PUSHDATA2, OP_PUSHDATA4.
  destruct (classify_legacy (b2n c)) as [| | | |n|o|]; try reflexivity; [lia| |contradiction]. destruct P as [-> _].
  destruct (N.eqb_spec (b2n c) 76); [lia|]. destruct (N.eqb_spec (b2n c) 77); [lia|]. destruct (N.eqb_spec (b2n c) 78); [lia|]. reflexivity. Qed.

Lemma bad_single_len d : bad_single d = true -> lenN d = 1.
Proof. destruct d as [|x [|y r]]; cbn; try discriminate. reflexivity. Qed.

Lemma le_val_le_enc2 n : n < 0x10000 -> le_val (le_enc 2 n) = n.
Proof. intros. apply le_val_enc. exact H. Qed.
Lemma le_val_le_enc4 n : n < 0x100000000 -> le_val (le_enc 4 n) = n.
Proof. intros. apply le_val_enc. exact H. Qed.

(* a PUSHDATAk opcode `c` (its arm of `next` given as a hypothesis, discharged by computation for 0x4c, 0x4d, 0x4e) followed by a
   k-byte length and the data: non-minimal below `min_n`, which covers the one-byte slices BIP62 wants pushed by an opcode *)
Lemma next_pushdata m k (c : byte) (min_n : N) (mf : bool) d rest :
  (forall tl, next m (c :: tl) = Some (pushdata_arm m (c :: tl) tl k min_n mf)) -> 2 <= min_n -> lenN d < 256 ^ N.of_nat k ->
  next m (c :: le_enc k (lenN d) ++ d ++ rest)
  = Some (if m && (negb (min_n <=? lenN d) || bad_single d) then (IErr NonMinimalPush, []) else (IPush d, rest)).
Proof. intros Arm Hm Hn. rewrite Arm. unfold pushdata_arm.
  assert (L : lenN (c :: le_enc k (lenN d) ++ d ++ rest) = 1 + N.of_nat k + lenN d + lenN rest).
  { rewrite lenN_cons, !lenN_app. unfold lenN at 1. rewrite le_enc_length. lia. }
  rewrite L. destruct (N.ltb_spec (1 + N.of_nat k + lenN d + lenN rest) (N.of_nat k + 1)); [lia|].
  unfold read_uint. rewrite app_length, le_enc_length.
  destruct (Nat.ltb_spec (k + length (d ++ rest)) k); [lia|].
  assert (F : forall x, firstn k (le_enc k (lenN d) ++ x) = le_enc k (lenN d)).
  { intros x. rewrite <- (le_enc_length k (lenN d)) at 1. apply firstn_app_len. }
  assert (S : forall x, skipn k (le_enc k (lenN d) ++ x) = x).
  { intros x. rewrite <- (le_enc_length k (lenN d)) at 1. apply skipn_app_len. }
  rewrite !F, !S, le_val_enc by exact Hn.
  destruct (N.ltb_spec (1 + N.of_nat k + lenN d + lenN rest) (lenN d + N.of_nat k + 1)); [lia|].
  rewrite to_nat_lenN, firstn_app_len, skipn_app_len.
  assert (B : (lenN d <? min_n) = negb (min_n <=? lenN d) || bad_single d).
  { destruct (bad_single d) eqn:Bd; [apply bad_single_len in Bd|]; lia. }
  rewrite <- B. destruct mf; destruct (m && (lenN d <? min_n)); reflexivity. Qed.

(* a direct push: the test instructions_minimal makes on the byte after a PUSHBYTES_1 is `bad_single` of the pushed slice *)
Lemma next_pushbytes m d rest : lenN d <= 75 ->
  next m (n2b (lenN d) :: d ++ rest) = Some (if m && bad_single d then (IErr NonMinimalPush, []) else (IPush d, rest)).
Proof. intros Hn. unfold next. assert (B : b2n (n2b (lenN d)) = lenN d) by (apply b2n_n2b_small; lia).
  rewrite (classify_push (n2b (lenN d))) by (rewrite B; lia). rewrite B.
  rewrite lenN_cons, lenN_app. destruct (N.ltb_spec (1 + (lenN d + lenN rest)) (lenN d + 1)); [lia|].
  assert (C : ((lenN d =? 1) && (let d1 := b2n (nth 1 (n2b (lenN d) :: d ++ rest) x00) in (d1 =? 0x81) || ((0 <? d1) && (d1 <=? 16)))) = bad_single d).
  { destruct d as [|x [|y r]]; cbn [nth app bad_single]; try reflexivity.
    - cbn. destruct (b2n x =? 129); [reflexivity|]. cbn [orb]. destruct (N.ltb_spec 0 (b2n x)), (N.leb_spec 1 (b2n x)); try lia; reflexivity.
    - assert (lenN (x :: y :: r) =? 1 = false) as -> by (rewrite !lenN_cons; lia). reflexivity. }
  cbv zeta in C. rewrite <- andb_assoc, C. rewrite to_nat_lenN, firstn_app_len, skipn_app_len. destruct (m && bad_single d); reflexivity. Qed.

Lemma next_valid m h d rest : valid_header h (lenN d) ->
  next m (h ++ d ++ rest) = Some (if m && (negb (hdr_minimal h (lenN d)) || bad_single d)
                                  then (IErr NonMinimalPush, []) else (IPush d, rest)).
Proof. intros [[-> Hn] | [[-> Hn] | [[-> Hn] | [-> Hn]]]]; cbn [app hdr_minimal le_enc].
  - exact (next_pushbytes m d rest Hn).
  - exact (next_pushdata m 1 x4c 76 false d rest (fun _ => eq_refl) ltac:(lia) Hn).
  - exact (next_pushdata m 2 x4d 0x100 true d rest (fun _ => eq_refl) ltac:(lia) Hn).
  - exact (next_pushdata m 4 x4e 0x10000 true d rest (fun _ => eq_refl) ltac:(lia) Hn).
Qed.

(* neither the model's fuel bound nor classify's unwrap panic *)
Definition clean (i : item) : Prop := match i with IPanic _ | IFuel => False | _ => True end.
Ltac break_ifs := repeat match goal with |- context [if ?c then _ else _] => destruct c end.

Lemma pushdata_arm_ok m data tl k mn mf it rest :
  pushdata_arm m data tl k mn mf = (it, rest) -> clean it /\ (length rest <= length tl)%nat.
Proof. unfold pushdata_arm. destruct (read_uint tl k); break_ifs; intros [= <- <-]; cbn [length clean]; rewrite ?skipn_length; split; (exact I || lia). Qed.
Lemma next_ok m data it rest : next m data = Some (it, rest) -> clean it /\ (length rest < length data)%nat.
Proof. unfold next. destruct data as [|op tl]; [discriminate|]. pose proof (classify_total op) as T.
  assert (P : forall k mn mf, Some (pushdata_arm m (op :: tl) tl k mn mf) = Some (it, rest) -> clean it /\ (length rest < length (op :: tl))%nat).
  { intros k mn mf [= E]. apply pushdata_arm_ok in E. cbn [length]. split; [tauto|lia]. }
  destruct (classify_legacy (b2n op)); [..|contradiction]; break_ifs; try apply P; intros [= <- <-]; cbn [length clean]; rewrite ?skipn_length; split; (exact I || lia). Qed.

Lemma instrs_fuel m : forall f1 f2 s, (length s < f1)%nat -> (length s < f2)%nat -> instrs f1 m s = instrs f2 m s.
Proof. induction f1 as [|f1 IH]; intros f2 s H1 H2; [lia|]. destruct f2 as [|f2]; [lia|]. cbn [instrs].
  destruct (next m s) as [[it rest]|] eqn:E; [|reflexivity]. f_equal. apply next_ok in E. apply IH; lia. Qed.
Lemma instrs_step f m s it rest : next m s = Some (it, rest) -> instrs (S f) m s = it :: instrs f m rest.
Proof. intros E. cbn [instrs]. now rewrite E. Qed.
Lemma instructions_nil m : instructions m [] = [].
Proof. reflexivity. Qed.
Lemma instructions_cons m s it rest : next m s = Some (it, rest) -> instructions m s = it :: instructions m rest.
Proof. intros E. unfold instructions. rewrite (instrs_step _ _ _ _ _ E). f_equal. apply next_ok in E. apply instrs_fuel; lia. Qed.
Lemma instrs_clean m : forall f s, (length s < f)%nat -> forall i, In i (instrs f m s) -> clean i.
Proof. induction f as [|f IH]; intros s H i Hi; [lia|]. cbn [instrs] in Hi.
  destruct (next m s) as [[it rest]|] eqn:E; [|contradiction]. apply next_ok in E as [C L]. destruct Hi as [<-|Hi]; [exact C|].
  apply (IH rest); [lia|exact Hi]. Qed.
Lemma instructions_clean m s i : In i (instructions m s) -> clean i.
Proof. apply instrs_clean. lia. Qed.

Inductive Built : bytes -> list item -> Prop :=
| Built_nil : Built [] []
| Built_op c s its : 78 < b2n c -> Built s its -> Built (c :: s) (IOp c :: its)
| Built_push h d s its : push_header (lenN d) = Val h -> Built s its -> Built (h ++ d ++ s) (IPush d :: its).

Lemma Built_app s its : Built s its -> forall s' its', Built s' its' -> Built (s ++ s') (its ++ its').
Proof. induction 1; intros s' its' B'; cbn [app]; [assumption| |].
  - constructor; auto.
  - rewrite <- !app_assoc. constructor; auto. Qed.

Lemma Built_instructions m s its : Built s its -> instructions m s = if m then cut_nonminimal its else its.
Proof. induction 1 as [|c s its H B IH|h d s its H B IH].
  - destruct m; reflexivity.
  - rewrite (instructions_cons m _ _ _ (next_op m c s H)), IH. destruct m; reflexivity.
  - apply push_header_valid in H as [V M]. pose proof (next_valid m h d s V) as E. rewrite M in E. cbn [negb orb] in E.
    destruct m; cbn [andb cut_nonminimal] in *; [destruct (bad_single d)|]; rewrite (instructions_cons _ _ _ _ E); [reflexivity|now rewrite IH..]. Qed.

Lemma Built_items s its : Built s its -> forall i, In i its -> is_err i = false.
Proof. induction 1; intros i Hi; [contradiction| |]; destruct Hi as [<-|Hi]; auto. Qed.

(* the tail of build_scriptint once abs <= 0xFF *)
Definition si_tail (abs : N) (neg : bool) : bytes :=
  if negb (N.land abs 0x80 =? 0) then [n2b abs; if neg then x80 else x00] else [n2b (N.lor abs (if neg then 0x80 else 0))].
Lemma sign_bit b : negb (N.land (b2n b) 128 =? 0) = (128 <=? b2n b).
Proof. destruct b; reflexivity. Qed.

Lemma sm_dec_cons b e : e <> [] -> sm_dec (b :: e) = (fst (sm_dec e), b2n b + 256 * snd (sm_dec e)).
Proof. destruct e as [|y r]; [congruence|]. intros _. cbn [sm_dec]. destruct r; [reflexivity|]. destruct (sm_dec (b0 :: r)). reflexivity. Qed.

Lemma si_tail_spec abs neg : 0 < abs -> abs < 256 ->
  sm_dec (si_tail abs neg) = (neg, abs) /\ length (si_tail abs neg) = (if (abs <? 128)%N then 1%nat else 2%nat).
Proof. intros H L. unfold si_tail. pose proof (sign_bit (n2b abs)) as SB. rewrite (b2n_n2b_small abs L) in SB. rewrite SB.
  destruct (N.leb_spec 128 abs) as [G|S].
  - (* bit 7 is taken: the sign gets a byte of its own *)
    destruct (N.ltb_spec abs 128); [lia|]. split; [|reflexivity].
    rewrite sm_dec_cons, (b2n_n2b_small abs L) by discriminate. destruct neg; cbn; f_equal; lia.
  - (* bit 7 is free: or-ing the sign in adds 128 *)
    destruct (N.ltb_spec abs 128); [|lia]. split; [|reflexivity].
    assert (Z : N.land abs 128 = 0) by (destruct (N.eqb_spec (N.land abs 128) 0); [assumption|discriminate SB]).
    assert (LO : N.lor abs (if neg then 128 else 0) = abs + (if neg then 128 else 0)).
    { destruct neg; [|rewrite N.lor_0_r; lia]. now rewrite <- N.lxor_lor, <- N.add_nocarry_lxor. }
    rewrite LO. cbn [sm_dec]. rewrite b2n_n2b_small by (destruct neg; lia). destruct neg; f_equal; lia. Qed.

Lemma pow256 j : 1 <= 256 ^ N.of_nat j /\ 256 ^ N.of_nat (S j) = 256 * 256 ^ N.of_nat j.
Proof. split; [|now rewrite Nnat.Nat2N.inj_succ, N.pow_succ_r']. pose proof (N.pow_nonzero 256 (N.of_nat j)). lia. Qed.

(* e is the shortest script number of sign `neg` and magnitude `abs`: j + 1 bytes are enough exactly for a magnitude below 128 * 256^j *)
Definition sm_enc (e : bytes) (neg : bool) (abs : N) : Prop :=
  sm_dec e = (neg, abs) /\ e <> [] /\ forall j, (length e <= S j)%nat <-> abs < 128 * 256 ^ N.of_nat j.

Lemma si_loop_spec : forall fuel abs neg, 0 < abs -> abs < 256 ^ N.of_nat fuel ->
  exists e, si_loop fuel abs neg = Val e /\ sm_enc e neg abs.
Proof. induction fuel as [|f IH]; intros abs neg H0 HL.
  - cbn in HL. lia.
  - cbn [si_loop]. destruct (N.ltb_spec 255 abs) as [Big|Small].
    + destruct (pow256 f) as [_ PS]. rewrite PS in HL.
      rewrite N.shiftr_div_pow2. change 255 with (N.ones 8). rewrite N.land_ones. change (2 ^ 8) with 256.
      destruct (IH (abs / 256) neg) as (e & E & D & NE & LEN); [lia|lia|].
      rewrite E. cbn [obind]. eexists; split; [reflexivity|]. split; [|split; [discriminate|]].
      * rewrite sm_dec_cons by exact NE. rewrite D. cbn [fst snd]. f_equal. rewrite b2n_n2b_small by lia. lia.
      * intros [|j]; cbn [length].
        { destruct e; [congruence|]. cbn [length]. change (256 ^ N.of_nat 0) with 1. lia. }
        destruct (pow256 j) as [_ ->]. specialize (LEN j). lia.
    + destruct (si_tail_spec abs neg H0) as [D LEN]; [lia|].
      exists (si_tail abs neg); split; [unfold si_tail; destruct (negb (N.land abs 128 =? 0)); reflexivity|]. split; [exact D|].
      split. { intros X. rewrite X in LEN. destruct (abs <? 128); discriminate. }
      intros j. rewrite LEN. destruct (pow256 j) as [P1 _]. destruct (N.ltb_spec abs 128); [lia|].
      destruct j as [|j]; [change (256 ^ N.of_nat 0) with 1; lia|]. destruct (pow256 j) as [P2 ->]. lia. Qed.

Ltac i64c := unfold in_i64, i64_min, i64_max, wrap_i64, as_usize in *;
  change (2 ^ 63)%Z with 9223372036854775808%Z in *; change (2 ^ 64)%Z with 18446744073709551616%Z in *.

(* -n overflows on i64::MIN alone, and panics there when overflow checks are on; everything else is encoded *)
Lemma build_scriptint_cases p n : in_i64 n = true -> n <> 0%Z ->
  match build_scriptint p n with
  | Val e => sm_enc e (n <? 0)%Z (Z.to_N (Z.abs n))
  | Panic _ => p = Debug /\ n = i64_min end.
Proof. intros R NZ. unfold build_scriptint. destruct (Z.eqb_spec n 0); [contradiction|].
  assert (A : match (if (n <? 0)%Z then neg_i64 p n else Val n) with
              | Val a => as_usize a = Z.to_N (Z.abs n) | Panic _ => p = Debug /\ n = i64_min end).
  { destruct (Z.ltb_spec n 0).
    - unfold neg_i64. destruct (in_i64 (- n)) eqn:I.
      + i64c. rewrite Z.mod_small by lia. f_equal. lia.
      + assert (n = i64_min) as -> by (i64c; lia). destruct p; [split; reflexivity|reflexivity].
    - i64c. rewrite Z.mod_small by lia. f_equal. lia. }
  destruct (if (n <? 0)%Z then neg_i64 p n else Val n) as [a|w]; cbn [obind]; [|exact A]. rewrite A.
  destruct (si_loop_spec 9 (Z.to_N (Z.abs n)) (n <? 0)%Z) as (e & -> & S); [lia| |exact S].
  i64c. change (256 ^ N.of_nat 9) with 4722366482869645213696. lia. Qed.

Lemma build_scriptint_zero p : build_scriptint p 0 = Val [].
Proof. reflexivity. Qed.
Lemma build_scriptint_min_debug : build_scriptint Debug i64_min = Panic PNegOverflow.
Proof. reflexivity. Qed.
Lemma build_scriptint_panic_iff p n : in_i64 n = true -> ((exists w, build_scriptint p n = Panic w) <-> (p = Debug /\ n = i64_min)).
Proof. intros R. split.
  - intros [w H]. destruct (Z.eq_dec n 0) as [->|NZ]; [discriminate|]. pose proof (build_scriptint_cases p n R NZ) as C. rewrite H in C. exact C.
  - intros [-> ->]. eexists. reflexivity. Qed.

Lemma read_fold v : forall acc sh, (0 <= sh)%Z ->
  fold_left (fun (st : Z * Z) (n : byte) => let '(acc, sh) := st in ((acc + Z.shiftl (Z.of_N (b2n n)) sh)%Z, (sh + 8)%Z)) v (acc, sh)
  = ((acc + 2 ^ sh * Z.of_N (le_val v))%Z, (sh + 8 * Z.of_nat (length v))%Z).
Proof. induction v as [|b r IH]; intros acc sh H; cbn [fold_left le_val length].
  - f_equal; lia.
  - rewrite IH by lia. rewrite Z.shiftl_mul_pow2 by lia. rewrite Z.pow_add_r by lia. change (2 ^ 8)%Z with 256%Z. f_equal; lia. Qed.

Definition sign_weight (v : bytes) : N := 128 * 256 ^ N.of_nat (length v - 1).
Lemma sm_dec_le v : v <> [] ->
  fst (sm_dec v) = (128 <=? b2n (last v x00)) /\ le_val v = snd (sm_dec v) + (if fst (sm_dec v) then sign_weight v else 0) /\ snd (sm_dec v) < sign_weight v.
Proof. induction v as [|b r IH]; [congruence|]. intros _. destruct r as [|y r].
  - unfold sign_weight. cbn [sm_dec fst snd last le_val length Nat.sub]. change (128 * 256 ^ N.of_nat 0) with 128. pose proof (b2n_lt b).
    split; [reflexivity|]. destruct (N.leb_spec 128 (b2n b)); lia.
  - destruct IH as (I1 & I2 & I3); [discriminate|]. rewrite sm_dec_cons by discriminate. cbn [fst snd].
    assert (T : sign_weight (b :: y :: r) = 256 * sign_weight (y :: r)).
    { unfold sign_weight. cbn [length Nat.sub]. rewrite Nat.sub_0_r. destruct (pow256 (length r)) as [_ ->]. lia. }
    rewrite T. split; [exact I1|]. pose proof (b2n_lt b). split.
    + change (le_val (b :: y :: r)) with (b2n b + 256 * le_val (y :: r)). rewrite I2. destruct (fst (sm_dec (y :: r))); lia.
    + lia. Qed.

Lemma sign_weight_Z v : v <> [] -> (2 ^ (8 * Z.of_nat (length v) - 1))%Z = Z.of_N (sign_weight v).
Proof. destruct v as [|b r]; [congruence|]. intros _. unfold sign_weight. cbn [length Nat.sub]. rewrite Nat.sub_0_r.
  induction (length r) as [|k IH].
  - reflexivity.
  - replace (8 * Z.of_nat (S (S k)) - 1)%Z with ((8 * Z.of_nat (S k) - 1) + 8)%Z by lia. rewrite Z.pow_add_r by lia. rewrite IH.
    destruct (pow256 k) as [_ ->]. change (2 ^ 8)%Z with 256%Z. lia. Qed.

Lemma read_scriptint_spec v :
  read_scriptint v = if Nat.ltb 4 (length v) then SErr NumericOverflow else SOk (sm_val v).
Proof. destruct v as [|b r]; [reflexivity|]. unfold read_scriptint. cbn [length]. change (S (length r)) with (length (b :: r)).
  assert (NE : b :: r <> []) by discriminate. remember (b :: r) as v eqn:V. clear V b r.
  destruct (Nat.ltb 4 (length v)); [reflexivity|].
  rewrite read_fold by lia. rewrite Z.pow_0_r, Z.mul_1_l, !Z.add_0_l.
  destruct (sm_dec_le v NE) as (S1 & S2 & S3). rewrite sign_bit, <- S1. unfold sm_val. destruct (sm_dec v) as [s m]. cbn [fst snd] in *.
  destruct s; [|f_equal; lia].
  change (Z.shiftl 1 (8 * Z.of_nat (length v) - 1) - 1)%Z with (Z.ones (8 * Z.of_nat (length v) - 1)).
  assert (0 < length v)%nat by (destruct v; [congruence|cbn; lia]).
  rewrite Z.land_ones by lia. rewrite sign_weight_Z by exact NE. rewrite S2, N2Z.inj_add.
  rewrite <- (Z.mul_1_l (Z.of_N (sign_weight v))) at 1. rewrite Z_mod_plus_full. rewrite Z.mod_small by lia. reflexivity. Qed.

(* what read_scriptint makes of the encoding of any i64 the builder accepts: the number itself up to four bytes, i.e. below 2^31 in
   absolute value, and NumericOverflow beyond *)
Theorem scriptint_read p n : in_i64 n = true -> (p = Release \/ n <> i64_min) ->
  exists e, build_scriptint p n = Val e /\ read_scriptint e = if (Z.abs n <? 2 ^ 31)%Z then SOk n else SErr NumericOverflow.
Proof. intros R PM. destruct (Z.eq_dec n 0) as [->|NZ]. { exists []. split; reflexivity. }
  pose proof (build_scriptint_cases p n R NZ) as C. destruct (build_scriptint p n) as [e|w]; [|destruct C as [-> ->], PM; [discriminate|contradiction]].
  destruct C as (D & NE & LEN). exists e. split; [reflexivity|]. rewrite read_scriptint_spec.
  specialize (LEN 3%nat). change (128 * 256 ^ N.of_nat 3) with 2147483648 in LEN. change (2 ^ 31)%Z with 2147483648%Z.
  destruct (Nat.ltb_spec 4 (length e)), (Z.ltb_spec (Z.abs n) 2147483648); try lia; [reflexivity|].
  f_equal. unfold sm_val. rewrite D. destruct (Z.ltb_spec n 0); lia. Qed.
Theorem scriptint_roundtrip p n : (- 2 ^ 31 < n < 2 ^ 31)%Z -> exists e, build_scriptint p n = Val e /\ read_scriptint e = SOk n.
Proof. intros R. change (2 ^ 31)%Z with 2147483648%Z in R. destruct (scriptint_read p n) as (e & E & Rd); [i64c; lia|right; i64c; lia|].
  exists e. split; [exact E|]. rewrite Rd. change (2 ^ 31)%Z with 2147483648%Z. destruct (Z.ltb_spec (Z.abs n) 2147483648); [reflexivity|lia]. Qed.
Theorem scriptint_overflow p n : in_i64 n = true -> (2 ^ 31 <= Z.abs n)%Z -> (p = Release \/ n <> i64_min) ->
  exists e, build_scriptint p n = Val e /\ read_scriptint e = SErr NumericOverflow.
Proof. intros R B PM. destruct (scriptint_read p n R PM) as (e & E & Rd). exists e. split; [exact E|]. rewrite Rd.
  destruct (Z.ltb_spec (Z.abs n) (2 ^ 31)); [lia|reflexivity]. Qed.

Definition special_small (n : Z) : bool := ((n =? -1) || ((1 <=? n) && (n <=? 16)))%Z.

(* the encoding of n is one byte exactly below 128 in absolute value, and that byte is |n| with the sign bit: it is one of
   0x81, 1..16 exactly for -1, 1..16 *)
Lemma scriptint_bad p n : in_i64 n = true -> bad_single (scriptint_bytes p n) = special_small n.
Proof. intros R. unfold scriptint_bytes. destruct (Z.eq_dec n 0) as [->|NZ]; [reflexivity|]. pose proof (build_scriptint_cases p n R NZ) as C.
  destruct (build_scriptint p n) as [e|w]; [destruct C as (D & NE & LEN)|destruct C as [_ ->]; reflexivity].
  destruct e as [|x [|y r]]; [congruence| |specialize (LEN 0%nat); change (128 * 256 ^ N.of_nat 0) with 128 in LEN; cbn [length] in LEN; unfold special_small; cbn [bad_single]; lia].
  cbn [sm_dec] in D. inversion D. pose proof (b2n_lt x). unfold bad_single, special_small. lia. Qed.

Lemma scriptint_short p n e : in_i64 n = true -> build_scriptint p n = Val e -> lenN e < 0x100000000.
Proof. intros R E. destruct (Z.eq_dec n 0) as [->|NZ]. { inversion E; subst. reflexivity. }
  pose proof (build_scriptint_cases p n R NZ) as C. rewrite E in C. destruct C as (_ & _ & LEN).
  assert (length e <= 9)%nat. { apply (LEN 8%nat). change (128 * 256 ^ N.of_nat 8) with 2361183241434822606848. i64c. lia. }
  unfold lenN. lia. Qed.

Lemma fold_agree c : fold_item c = option_map n2b (verify_fold (b2n c)).
Proof. destruct c; reflexivity. Qed.
Lemma item_of_opcode_spec c : item_of_opcode c = if b2n c =? 0 then IPush [] else IOp c.
Proof. destruct c; reflexivity. Qed.
Lemma verify_fold_plain n v : verify_fold n = Some v -> 78 < b2n (n2b v).
Proof. unfold verify_fold. break_ifs; intros [= <-]; reflexivity. Qed.

Lemma item_of_plain c : 78 < b2n c -> item_of_opcode c = IOp c.
Proof. intros H. rewrite item_of_opcode_spec. destruct (N.eqb_spec (b2n c) 0); [lia|reflexivity]. Qed.

Definition plain_opcode (c : byte) : Prop := b2n c = 0 \/ 78 < b2n c.
Lemma Built_single c : plain_opcode c -> Built [c] [item_of_opcode c].
Proof. intros [Z | H].
  - assert (c = x00) as -> by (apply b2n_inj; exact Z). change (Built ([x00] ++ [] ++ []) [IPush []]). constructor; [reflexivity|constructor].
  - rewrite (item_of_plain c H). constructor; [exact H|constructor]. Qed.

Definition builder_inv (b : builder) (racc : list item) : Prop :=
  Built (rev (rbytes b)) (rev racc) /\
  match last_op b with
  | Some c => exists rb' racc', rbytes b = c :: rb' /\ racc = item_of_opcode c :: racc' /\ Built (rev rb') (rev racc') /\ plain_opcode c
  | None => match racc with IOp _ :: _ => False | _ => True end end.

Lemma builder_inv_new : builder_inv b_new [].
Proof. split; [constructor|exact I]. Qed.

Lemma inv_push_opcode b racc c : Built (rev (rbytes b)) (rev racc) -> plain_opcode c -> builder_inv (push_opcode b c) (item_of_opcode c :: racc).
Proof. intros B P. split; cbn [push_opcode rbytes last_op rev].
  - apply Built_app; [exact B|apply Built_single; exact P].
  - exists (rbytes b), racc. auto. Qed.

Lemma inv_push_slice b racc d b' : Built (rev (rbytes b)) (rev racc) -> push_slice b d = Val b' -> builder_inv b' (IPush d :: racc).
Proof. intros B. unfold push_slice. destruct (push_header (lenN d)) as [h|] eqn:E; [|discriminate]. cbn [obind]. intros V; inversion V; subst; clear V.
  split; cbn [rbytes last_op rev]; [|exact I].
  rewrite !rev_append_rev, !rev_app_distr, !rev_involutive, <- app_assoc. apply Built_app; [exact B|].
  rewrite <- (app_nil_r d) at 1. constructor; [exact E|constructor]. Qed.

Lemma inv_verify p b racc : builder_inv b racc -> builder_inv (push_verify b) (expected_step p racc BVerify).
Proof. intros [B L]. unfold push_verify. destruct (last_op b) as [c|] eqn:LO.
  - destruct L as (rb' & racc' & R & -> & B' & P).
    assert (E : expected_step p (item_of_opcode c :: racc') BVerify
                = match fold_item c with Some v => IOp v :: racc' | None => item_of_opcode x69 :: item_of_opcode c :: racc' end).
    { cbn [expected_step]. rewrite item_of_opcode_spec. destruct (N.eqb_spec (b2n c) 0) as [Z|Z].
      - assert (c = x00) as -> by (apply b2n_inj; exact Z). reflexivity.
      - destruct (fold_item c); reflexivity. }
    rewrite E. pose proof (fold_agree c) as FA. destruct (verify_fold (b2n c)) as [v|] eqn:VF; cbn [option_map] in FA; rewrite FA.
    + pose proof (verify_fold_plain _ _ VF) as V. rewrite <- (item_of_plain _ V), R. cbn [tl].
      apply (inv_push_opcode (mkB rb' (Some c)) racc' (n2b v)); [exact B'|right; exact V].
    + apply (inv_push_opcode b (item_of_opcode c :: racc') x69); [exact B|right; reflexivity].
  - assert (X : expected_step p racc BVerify = item_of_opcode x69 :: racc).
    { cbn [expected_step]. destruct racc as [|[] ?]; try reflexivity. contradiction. }
    rewrite X. apply (inv_push_opcode b racc x69); [exact B|right; reflexivity]. Qed.

(* push_int: a dedicated opcode for -1 and 1..16, OP_0 for 0, the script-number push otherwise — and `int_item` says the same *)
Lemma push_int_cases p n :
  (special_small n = true /\ exists c, 78 < b2n c /\ int_item p n = IOp c /\ forall b, push_int p b n = Val (push_opcode b c))
  \/ n = 0%Z
  \/ (special_small n = false /\ n <> 0%Z /\ int_item p n = IPush (scriptint_bytes p n) /\ forall b, push_int p b n = push_scriptint p b n).
Proof. unfold special_small, push_int, int_item. destruct (Z.eqb_spec n (-1)) as [->|N1]. { left. split; [reflexivity|]. exists x4f. repeat split; reflexivity. }
  destruct ((1 <=? n) && (n <=? 16))%Z eqn:S; cbn [orb].
  - left. split; [reflexivity|]. exists (n2b (Z.to_N (0x50 + n))). rewrite b2n_n2b_small by lia. split; [lia|]. split; [reflexivity|].
    intros b. do 3 f_equal. unfold OP_TRUE. rewrite Z.mod_small by lia. lia.
  - destruct (Z.eqb_spec n 0); [right; left; assumption|right; right; auto]. Qed.

Theorem int_item_reads_back p n : (- 2 ^ 31 < n < 2 ^ 31)%Z ->
  match int_item p n with
  | IPush e => read_scriptint e = SOk n /\ special_small n = false
  | IOp c => (n = -1 /\ c = x4f)%Z \/ ((1 <= n <= 16)%Z /\ b2n c = Z.to_N (0x50 + n))
  | _ => False end.
Proof. intros R. unfold int_item, special_small. destruct (Z.eqb_spec n (-1)) as [->|N1]; [left; split; reflexivity|].
  destruct ((1 <=? n) && (n <=? 16))%Z eqn:S.
  - right. split; [lia|]. apply b2n_n2b_small. lia.
  - destruct (Z.eqb_spec n 0) as [->|NZ]; [split; reflexivity|]. cbn [orb]. split; [|reflexivity].
    destruct (scriptint_roundtrip p n R) as (e & E & Rd). unfold scriptint_bytes. rewrite E. exact Rd. Qed.

Lemma inv_step p b racc op b' : builder_inv b racc -> op_ok op = true -> step p b op = Val b' -> builder_inv b' (expected_step p racc op).
Proof. intros I OK S. pose proof I as [B _].
  assert (SI : forall n, push_scriptint p b n = Val b' -> builder_inv b' (IPush (scriptint_bytes p n) :: racc)).
  { intros n. unfold push_scriptint, scriptint_bytes. destruct (build_scriptint p n) as [e|]; [|discriminate]. apply inv_push_slice, B. }
  destruct op as [n|n|d|c|]; cbn [step expected_step] in *.
  - destruct (push_int_cases p n) as [(_ & c & C & -> & E)|[->|(_ & _ & -> & E)]]; rewrite ?E in S.
    + inversion S; subst. rewrite <- (item_of_plain c C). apply inv_push_opcode; [exact B|right; exact C].
    + inversion S; subst. apply (inv_push_opcode b racc x00); [exact B|left; reflexivity].
    + exact (SI n S).
  - exact (SI n S).
  - eapply inv_push_slice; eauto.
  - inversion S; subst. apply inv_push_opcode; [exact B|]. unfold plain_opcode. cbn [op_ok] in OK. lia.
  - inversion S; subst. apply (inv_verify p). exact I. Qed.

Lemma inv_run p : forall ops b racc b', builder_inv b racc -> forallb op_ok ops = true -> run p ops b = Val b' ->
  builder_inv b' (fold_left (expected_step p) ops racc).
Proof. induction ops as [|op ops IH]; intros b racc b' I OK R; cbn [run fold_left] in *.
  - inversion R; subst. exact I.
  - apply andb_true_iff in OK as [O1 O2]. destruct (step p b op) as [b1|] eqn:S; [|discriminate]. cbn [obind] in R.
    eapply IH; [|exact O2|exact R]. eapply inv_step; eauto. Qed.

Lemma build_Built p ops s : forallb op_ok ops = true -> build p ops = Val s -> Built s (expected p ops).
Proof. intros OK H. unfold build in H. destruct (run p ops b_new) as [b|] eqn:R; [|discriminate]. cbn [obind] in H. inversion H; subst.
  destruct (inv_run p ops b_new [] b builder_inv_new OK R) as [B _]. unfold into_script, rev', expected. rewrite <- rev_alt. exact B. Qed.

Theorem readback p ops s : forallb op_ok ops = true -> build p ops = Val s -> instructions false s = expected p ops.
Proof. intros OK H. exact (Built_instructions false s _ (build_Built p ops s OK H)). Qed.
Theorem readback_minimal p ops s : forallb op_ok ops = true -> build p ops = Val s -> instructions true s = cut_nonminimal (expected p ops).
Proof. intros OK H. exact (Built_instructions true s _ (build_Built p ops s OK H)). Qed.

(* the operation pushes a one-byte slice that BIP62 wants pushed by an opcode *)
Definition bad_op (op : bop) : bool :=
  match op with BSlice d => bad_single d | BScriptInt n => special_small n | _ => false end.
Lemma pushed_bad p op : op_ok op = true -> match pushed p op with Some d => bad_single d | None => false end = bad_op op.
Proof. intros OK. destruct op as [n|n|d|c|]; cbn [pushed bad_op op_ok] in *; try reflexivity.
  - destruct (push_int_cases p n) as [(_ & c & _ & -> & _)|[->|(SP & _ & -> & _)]]; [reflexivity..|]. now rewrite (scriptint_bad p n OK).
  - exact (scriptint_bad p n OK).
  - rewrite item_of_opcode_spec. destruct (b2n c =? 0); reflexivity. Qed.

Definition push_bad (i : item) : bool := match i with IPush d => bad_single d | _ => false end.
Lemma expected_step_bad p racc op :
  existsb push_bad (expected_step p racc op) = match pushed p op with Some d => bad_single d | None => false end || existsb push_bad racc.
Proof. destruct op as [n|n|d|c|]; cbn [expected_step pushed existsb]; try reflexivity.
  - destruct (int_item p n); reflexivity.
  - destruct (item_of_opcode c); reflexivity.
  - destruct racc as [|[d|c|e|w|] r]; try reflexivity. destruct (fold_item c); reflexivity. Qed.
Lemma expected_bad p : forall ops racc, forallb op_ok ops = true ->
  existsb push_bad (fold_left (expected_step p) ops racc) = existsb bad_op ops || existsb push_bad racc.
Proof. induction ops as [|op ops IH]; intros racc OK; cbn [fold_left existsb forallb] in *; [reflexivity|].
  apply andb_true_iff in OK as [O1 O2]. rewrite (IH _ O2), expected_step_bad, (pushed_bad p op O1).
  destruct (bad_op op), (existsb bad_op ops); reflexivity. Qed.

Lemma cut_spec its : (forall i, In i its -> is_err i = false) ->
  if existsb push_bad its then exists i, In i (cut_nonminimal its) /\ is_err i = true else cut_nonminimal its = its.
Proof. induction its as [|i r IH]; intros NE; [reflexivity|]. specialize (IH (fun j H => NE j (or_intror H))).
  assert (T : if existsb push_bad r then exists j, In j (i :: cut_nonminimal r) /\ is_err j = true else i :: cut_nonminimal r = i :: r).
  { destruct (existsb push_bad r); [destruct IH as (j & Hj & Ej); exists j; split; [right; exact Hj|exact Ej]|now rewrite IH]. }
  specialize (NE i (or_introl eq_refl)). destruct i as [d| | | |]; try discriminate NE; cbn [existsb push_bad cut_nonminimal orb]; [|exact T].
  destruct (bad_single d); [|exact T]. exists (IErr NonMinimalPush). split; [left|]; reflexivity. Qed.

Theorem minimal_iter p ops s : forallb op_ok ops = true -> build p ops = Val s ->
  instructions true s = cut_nonminimal (expected p ops) /\
  ((forall i, In i (instructions true s) -> is_err i = false) <-> (forall op, In op ops -> bad_op op = false)) /\
  ((forall op, In op ops -> bad_op op = false) -> instructions true s = instructions false s).
Proof. intros OK H. pose proof (build_Built p ops s OK H) as B. pose proof (Built_items _ _ B) as NE.
  rewrite (readback_minimal p ops s OK H), (readback p ops s OK H), <- (existsb_false bad_op ops).
  assert (X : existsb push_bad (expected p ops) = existsb bad_op ops).
  { unfold expected. rewrite existsb_rev, (expected_bad p ops [] OK). apply orb_false_r. }
  pose proof (cut_spec _ NE) as C. rewrite X in C. split; [reflexivity|]. destruct (existsb bad_op ops).
  - destruct C as (i & Hi & Ei). split; [|intros [=]]. split; [intros A; rewrite (A i Hi) in Ei; discriminate Ei|intros [=]].
  - rewrite C. split; [split|]; auto. Qed.

Lemma push_slice_panic_iff b d : (exists w, push_slice b d = Panic w) <-> 0x100000000 <= lenN d.
Proof. unfold push_slice. rewrite <- push_header_panic_iff. destruct (push_header (lenN d)); cbn [obind]; split; intros [w H]; try discriminate H; eauto. Qed.
Lemma push_scriptint_panic_iff p b n : in_i64 n = true -> ((exists w, push_scriptint p b n = Panic w) <-> p = Debug /\ n = i64_min).
Proof. intros R. rewrite <- (build_scriptint_panic_iff p n R). unfold push_scriptint. destruct (build_scriptint p n) as [e|w] eqn:E; cbn [obind].
  - split; [|intros [w H]; discriminate H]. intros H. apply push_slice_panic_iff in H. pose proof (scriptint_short p n e R E). lia.
  - split; intros _; eauto. Qed.
Lemma step_panic_iff p b op : op_ok op = true -> ((exists w, step p b op = Panic w) <-> op_panics p op).
Proof. intros OK. destruct op as [n|n|d|c|]; cbn [step op_panics op_ok] in *.
  - destruct (push_int_cases p n) as [(SP & c & _ & _ & E)|[->|(_ & _ & _ & E)]]; rewrite ?E; [| |now apply push_scriptint_panic_iff].
    + split; [intros [w H]; discriminate H|intros [_ ->]; discriminate SP].
    + split; [intros [w H]; discriminate H|intros [_ [=]]].
  - now apply push_scriptint_panic_iff.
  - apply push_slice_panic_iff.
  - split; [intros [w H]; discriminate H|contradiction].
  - split; [intros [w H]; discriminate H|contradiction]. Qed.
Lemma run_panic_iff p : forall ops b, forallb op_ok ops = true ->
  ((exists w, run p ops b = Panic w) <-> exists op, In op ops /\ op_panics p op).
Proof. induction ops as [|op ops IH]; intros b OK; cbn [run].
  - split; [intros [w H]; discriminate H|intros (op & [] & _)].
  - cbn [forallb] in OK. apply andb_true_iff in OK as [O1 O2]. destruct (step p b op) as [b1|w] eqn:S; cbn [obind].
    + rewrite (IH b1 O2). split; intros (op' & I & P).
      * exists op'. split; [right; exact I|exact P].
      * destruct I as [<-|I]; [|exists op'; auto]. exfalso. apply (step_panic_iff p b op O1) in P as [w P]. congruence.
    + split; [intros _|intros _; eauto]. exists op. split; [left; reflexivity|]. apply (step_panic_iff p b op O1). eauto. Qed.
Theorem build_panic_iff p ops : forallb op_ok ops = true -> ((exists w, build p ops = Panic w) <-> exists op, In op ops /\ op_panics p op).
Proof. intros OK. rewrite <- (run_panic_iff p ops b_new OK). unfold build. destruct (run p ops b_new); cbn [obind]; split; intros [w H]; try discriminate H; eauto. Qed.


(* Proofs for C09: multi-party PSET blinding (Model/PsetBlind.v) balances for every split and order. *)
From Coq Require Import List NArith ZArith Bool Lia Setoid Morphisms Permutation.
From Coq.Strings Require Import Byte.
From EV Require Import Base.Bytes Base.Zn Base.FreeMod Gen.Tables Model.Script Model.Ideal Model.Verify Model.Blind Model.PsetBlind
  Proofs.ScriptTemplates Proofs.Ideal Proofs.Verify Proofs.Blind.
Import ListNotations.
Open Scope Z_scope.

Definition tgens (tg : list sdom) : list gel := map (fun e => fst (fst e)) tg.
Definition holds_tg (tg : list sdom) (a : N) : Prop := exists g bf, In (g, Some a, bf) tg.

Section Keys.
  Variable pubk : Z -> Z.
  Variable ecdh : Z -> Z -> Z.

  Definition wts_out_g spk rk esk (s : secrets) (gens : list gel) (i : nat) (bf : Z) : txout :=
    mkOut (AConf (sgen s)) (VConf (scommit s)) (NConf (pubk esk)) spk
      (Some (mkRP (scommit s) spk (sgen s) (s_value s) (s_vbf s) (s_asset s, s_abf s) (ecdh rk esk) true))
      (Some (mkSP (sgen s) gens i (zsub (s_abf s) bf) true)).

  Lemma wts_ok_g spk rk esk s spent tg : surjection_targets spent 0 = OVal tg ->
    (N.of_nat (length tg) <= CT_SURJECTIONPROOF_MAX_N_INPUTS)%N -> holds_tg tg (s_asset s) ->
    1 <= s_value s <= I64_MAX ->
    exists i bf, find_tag (s_asset s) tg 0 = Some (i, bf)
      /\ with_txout_secrets pubk ecdh spk rk esk s spent = OVal (wts_out_g spk rk esk s (tgens tg) i bf).
  Proof.
    intros ST SM H V. destruct (find_tag_some (s_asset s) tg H 0%nat) as (i & bf & F). exists i, bf. split; [exact F|].
    rewrite (wts_made pubk ecdh spk rk esk s spent tg ST SM V). unfold sp_new. now rewrite F.
  Qed.
  Lemma verify_output_wts_g domain k spk rk esk s tg i bf :
    tg_ok tg -> Forall2 geq domain (tgens tg) -> find_tag (s_asset s) tg 0 = Some (i, bf) -> 1 <= s_value s <= I64_MAX ->
    verify_output domain k (wts_out_g spk rk esk s (tgens tg) i bf) = OVal (scommit s).
  Proof.
    intros TO D F V. apply (verify_output_made domain k s _ spk (ecdh rk esk) tg); [now apply rp_new_some| |exact TO|exact D].
    unfold sp_new. now rewrite F.
  Qed.
End Keys.

Definition same_static (o o' : pout) : Prop :=
  po_asset o' = po_asset o /\ po_amount o' = po_amount o /\ po_script o' = po_script o
  /\ po_blinding_key o' = po_blinding_key o /\ po_blinder_index o' = po_blinder_index o.
Lemma same_static_refl o : same_static o o. Proof. repeat split. Qed.
Lemma same_static_trans a b c : same_static a b -> same_static b c -> same_static a c.
Proof. unfold same_static. intros (A1 & A2 & A3 & A4 & A5) (B1 & B2 & B3 & B4 & B5). repeat split; congruence. Qed.
Lemma Forall_static (Q : pout -> Prop) outs outs' : (forall o o', same_static o o' -> Q o -> Q o') ->
  Forall2 same_static outs outs' -> Forall Q outs -> Forall Q outs'.
Proof. intros H F. induction F as [|o o' r r' S F IH]; intro A; inversion A; subst; constructor; eauto. Qed.
Lemma amounts_static outs outs' : Forall2 same_static outs outs' ->
  Forall (fun o => po_blinding_key o = None -> po_amount o <> None) outs -> Forall (fun o => po_blinding_key o = None -> po_amount o <> None) outs'.
Proof. apply Forall_static. intros o o' (_ & AS & _ & K & _). now rewrite K, AS. Qed.
(* the secrets a blinded output carries (read off its ideal range proof) *)
Definition osec_of (o : pout) : secrets :=
  match po_rp o with
  | Some rp => mkSec (fst (rp_msg rp)) (snd (rp_msg rp)) (rp_value rp) (rp_vbf rp)
  | None => mkSec 0 0 0 0 end.
(* the explicit proofs a blinded output carries beside its commitments (BlindAssetProofs, BlindValueProofs) *)
Lemma blind_asset_proof_made a abf : blind_asset_proof a abf = Some (mkSP (asset_gen a abf) [gH a] 0 (zsub abf 0) true).
Proof. unfold blind_asset_proof, sp_new. cbn [find_tag]. now rewrite N.eqb_refl. Qed.
Lemma blind_asset_proof_verifies a abf sp : blind_asset_proof a abf = Some sp -> blind_asset_proof_verify sp a (asset_gen a abf) = true.
Proof.
  intro E. apply (sp_verify_new a abf [(gH a, Some a, 0)] sp [gH a] E); [repeat constructor; reflexivity|].
  intros i bf F. cbn [find_tag] in F. rewrite N.eqb_refl in F. injection F as <- <-.
  exists (gH a). split; [reflexivity|]. symmetry. apply asset_gen_0.
Qed.
Lemma blind_value_proof_verifies v g vbf rp : 0 <= v < 2 ^ 64 -> blind_value_proof v (commit v g vbf) g vbf = Some rp ->
  blind_value_proof_verify rp v g (commit v g vbf) = true.
Proof.
  intros V [= <-]. unfold blind_value_proof_verify, rp_verify. cbn [rp_intact rp_commit rp_script rp_gen rp_value rp_vbf].
  rewrite !geqb_refl, Z.eqb_refl. cbn [bytes_eqb andb]. rewrite andb_true_r. apply andb_true_iff. split; [apply Z.leb_le|apply Z.ltb_lt]; apply V.
Qed.

Section Step.
  Variable pubk : Z -> Z.
  Variable ecdh : Z -> Z -> Z.
  Variable p : profile.
  Variable tg : list sdom.            (* this party's surjection targets *)
  (* ... no more of them than Asset::blind accepts (a premise of the lemmas below in which an output is blinded) *)
  Hypothesis tg_small : within_limit (length tg).

  (* an explicit, not yet blinded output this party can blind *)
  Definition pgood (o : pout) : Prop :=
    exists a v rk, po_asset o = Some a /\ po_amount o = Some v /\ po_blinding_key o = Some rk /\ 1 <= v <= I64_MAX
      /\ (exists ad, from_script (po_script o) = Script.Val (Some ad)) /\ holds_tg tg a
      /\ po_asset_comm o = None /\ po_amount_comm o = None.
  Definition blinded_as (o : pout) (s : secrets) (esk : Z) (j : nat) (bf : Z) : pout :=
    match po_blinding_key o with
    | Some rk => set_blinded o (wts_out_g pubk ecdh (po_script o) rk esk s (tgens tg) j bf)
                   (blind_value_proof (s_value s) (scommit s) (sgen s) (s_vbf s)) (blind_asset_proof (s_asset s) (s_abf s))
    | None => o end.
  Definition blinded_form (o o' : pout) : Prop :=
    exists s esk j bf, po_asset o = Some (s_asset s) /\ po_amount o = Some (s_value s) /\ in_zn (s_abf s)
      /\ 1 <= s_value s <= I64_MAX /\ find_tag (s_asset s) tg 0 = Some (j, bf) /\ po_blinding_key o <> None
      /\ o' = blinded_as o s esk j bf.

  Lemma pgood_key o : pgood o -> po_blinding_key o <> None.
  Proof. intros (a & v & rk & _ & _ & K & _). rewrite K. discriminate. Qed.
  Lemma blinded_as_static o s esk j bf : same_static o (blinded_as o s esk j bf).
  Proof. unfold blinded_as. destruct (po_blinding_key o); [|apply same_static_refl]. repeat split. Qed.
  Lemma blinded_form_static o o' : blinded_form o o' -> same_static o o'.
  Proof. intros (s & esk & j & bf & _ & _ & _ & _ & _ & _ & ->). apply blinded_as_static. Qed.
  Lemma osec_of_blinded o s esk j bf : po_blinding_key o <> None -> osec_of (blinded_as o s esk j bf) = s.
  Proof. intro K. unfold blinded_as. destruct (po_blinding_key o); [|congruence]. unfold osec_of. cbn. apply secrets_eta. Qed.
  Lemma blinded_form_osec o o' : blinded_form o o' -> exists s, osec_of o' = s /\ po_asset o = Some (s_asset s) /\ po_amount o = Some (s_value s).
  Proof. intros (s & esk & j & bf & A & V & _ & _ & _ & K & ->). exists s. split; [now apply osec_of_blinded|auto]. Qed.

  Lemma blinded_form_sound o0 o rsk : blinded_form o0 o -> po_blinding_key o0 = Some (pubk rsk) ->
    (forall a b, ecdh (pubk a) b = ecdh (pubk b) a) ->
    is_fully_blinded o = true
    /\ (exists t s, extract_outputs [o] = OVal [t] /\ unblind ecdh t rsk = OVal s /\ po_asset o0 = Some (s_asset s) /\ po_amount o0 = Some (s_value s)
                   /\ o_asset t = AConf (sgen s) /\ o_value t = VConf (scommit s))
    /\ (exists a v g c bvp bap, po_asset o = Some a /\ po_amount o = Some v /\ po_asset_comm o = Some g /\ po_amount_comm o = Some c
          /\ po_bvp o = Some bvp /\ po_bap o = Some bap /\ blind_value_proof_verify bvp v g c = true /\ blind_asset_proof_verify bap a g = true).
  Proof.
    intros (s & esk & j & bf & A & V & Zabf & RV & FT & KN & ->) K SYM. unfold blinded_as. rewrite K. split; [unfold is_fully_blinded, set_blinded, wts_out_g; cbn; rewrite K; reflexivity|]. split.
    - exists (wts_out_g pubk ecdh (po_script o0) (pubk rsk) esk s (tgens tg) j bf), s. split; [reflexivity|].
      split; [apply (unblind_made pubk ecdh); [exact SYM|now apply rp_new_some|exact Zabf]|]. repeat split; assumption.
    - eexists _, _, _, _, _, _. cbn [set_blinded po_asset po_amount po_asset_comm po_amount_comm po_bvp po_bap wts_out_g o_asset o_value].
      split; [exact A|]. split; [exact V|]. split; [reflexivity|]. split; [reflexivity|]. split; [reflexivity|].
      split; [apply blind_asset_proof_made|]. split.
      + apply (blind_value_proof_verifies _ _ (s_vbf s)); [unfold I64_MAX in RV; lia|reflexivity].
      + exact (blind_asset_proof_verifies _ _ _ (blind_asset_proof_made _ _)).
  Qed.

  Definition blinded_at (idx : list nat) (outs outs' : list pout) : Prop :=
    length outs' = length outs /\ (forall j, ~ In j idx -> nth_error outs' j = nth_error outs j)
    /\ (forall i, In i idx -> exists o o', nth_error outs i = Some o /\ nth_error outs' i = Some o' /\ blinded_form o o').
  Lemma blinded_at_nil outs : blinded_at [] outs outs.
  Proof. split; [reflexivity|]. split; [reflexivity|intros ? []]. Qed.
  Lemma blinded_at_one outs i o o' : nth_error outs i = Some o -> blinded_form o o' -> blinded_at [i] outs (set_nth outs i o').
  Proof.
    intros N BF. split; [apply set_nth_length|]. split.
    - intros j NJ. apply nth_set_neq. intros ->. apply NJ. now left.
    - intros k [<-|[]]. exists o, o'. split; [exact N|]. split; [exact (nth_set_eq _ _ _ _ N)|exact BF].
  Qed.
  Lemma blinded_at_app a b X Y Z : blinded_at a X Y -> blinded_at b Y Z -> (forall i, In i a -> ~ In i b) ->
    blinded_at (a ++ b) X Z.
  Proof.
    intros (L1 & U1 & F1) (L2 & U2 & F2) D. split; [congruence|]. split.
    - intros j NJ. rewrite U2, U1; [reflexivity| |]; intro I; apply NJ, in_or_app; [now left|now right].
    - intros i I. apply in_app_or in I as [I|I].
      + destruct (F1 i I) as (o & o' & N & N' & BF). exists o, o'. rewrite (U2 i (D i I)). auto.
      + destruct (F2 i I) as (o & o' & N & N' & BF). exists o, o'. rewrite <- (U1 i (fun Ia => D i Ia I)). auto.
  Qed.
  (* what is blinded while position k holds something else is blinded just the same with k's content put back *)
  Lemma blinded_at_aside idx X Y k x a : blinded_at idx (set_nth X k a) Y -> ~ In k idx -> nth_error X k = Some x ->
    blinded_at idx X (set_nth Y k x).
  Proof.
    intros (L & U & F) NK N. rewrite set_nth_length in L. split; [now rewrite set_nth_length|]. split.
    - intros j NJ. destruct (Nat.eq_dec k j) as [<-|NE].
      + rewrite N. apply (nth_set_eq _ _ a). rewrite (U k NK). exact (nth_set_eq _ _ _ _ N).
      + rewrite nth_set_neq, (U j NJ) by exact NE. now apply nth_set_neq.
    - intros i I. assert (NE : k <> i) by (intros ->; contradiction). destruct (F i I) as (o & o' & NO & NO' & BF).
      exists o, o'. rewrite nth_set_neq in NO by exact NE. rewrite nth_set_neq by exact NE. auto.
  Qed.
  Lemma blinded_at_static idx outs outs' : blinded_at idx outs outs' -> Forall2 same_static outs outs'.
  Proof.
    intros (L & U & F). apply pointwise_Forall2; [exact L|]. intros j o N. destruct (in_dec Nat.eq_dec j idx) as [I|NI].
    - destruct (F j I) as (o1 & o' & N1 & N' & BF). rewrite N in N1. injection N1 as <-. exists o'. split; [exact N'|exact (blinded_form_static _ _ BF)].
    - exists o. rewrite (U j NI). split; [exact N|apply same_static_refl].
  Qed.

  Lemma blind_one_ok sis outs i o abf vbf esk rnd' :
    surjection_targets sis 0 = OVal tg -> nth_error outs i = Some o -> pgood o -> in_zn abf ->
    exists s j bf, blinded_form o (blinded_as o s esk j bf) /\
      blind_one pubk ecdh p sis outs (abf :: vbf :: esk :: rnd') i =
        OVal (set_nth outs i (blinded_as o s esk j bf), (s_value s, s_abf s, s_vbf s), (s_abf s, s_vbf s, esk), rnd').
  Proof.
    intros ST NE PG Zabf. pose proof (pgood_key o PG) as KN. destruct PG as (a & v & rk & A & V & K & R & (ad & AD) & H & AC & VC).
    destruct (wts_ok_g pubk ecdh (po_script o) rk esk (mkSec a abf v vbf) sis tg ST tg_small H R) as (j & bf & F & W). cbn [s_asset] in F.
    exists (mkSec a abf v vbf), j, bf. split; [exists (mkSec a abf v vbf), esk, j, bf; auto 10|].
    unfold blind_one. rewrite NE, K. cbn [opt_err obind].
    unfold to_non_last_confidential, to_txout. rewrite AC, VC, A, V. cbn [o_value o_asset o_script].
    rewrite (address_spk_ok p _ ad AD). cbn [obind]. unfold new_not_last_confidential. cbn [draw obind]. rewrite W. cbn [lift_blind map_err obind opt_err].
    unfold blinded_as. rewrite K, !blind_asset_proof_made. cbn [opt_err obind wts_out_g o_asset o_value blind_value_proof]. reflexivity.
  Qed.

  Definition Osum (outs : list pout) (l : list nat) : Z :=
    zsum (map (fun i => match nth_error outs i with Some o => svb (osec_of o) | None => 0 end) l).
  Lemma Osum_app outs a b : Osum outs (a ++ b) = zadd (Osum outs a) (Osum outs b).
  Proof. unfold Osum. now rewrite map_app, zsum_app. Qed.
  Lemma Osum_ext outs outs' l : (forall i, In i l -> nth_error outs' i = nth_error outs i) -> Osum outs' l = Osum outs l.
  Proof. intro H. unfold Osum. f_equal. apply map_ext_in. intros i I. now rewrite (H i I). Qed.

  Lemma blind_each_ok sis : surjection_targets sis 0 = OVal tg -> forall idx outs rnd, NoDup idx ->
    (forall i, In i idx -> exists o, nth_error outs i = Some o /\ pgood o) ->
    (3 * length idx <= length rnd)%nat -> Forall in_zn rnd ->
    exists outs' osecs reps rnd',
      blind_each pubk ecdh p sis outs rnd idx = OVal (outs', osecs, reps, rnd')
      /\ length outs' = length outs /\ (forall j, ~ In j idx -> nth_error outs' j = nth_error outs j)
      /\ (forall i, In i idx -> exists o o', nth_error outs i = Some o /\ nth_error outs' i = Some o' /\ blinded_form o o')
      /\ zsum (map vb osecs) = Osum outs' idx /\ length osecs = length idx
      /\ Forall2 (fun i r => fst r = i /\ exists o', nth_error outs' i = Some o' /\ fst (fst (snd r)) = s_abf (osec_of o') /\ snd (fst (snd r)) = s_vbf (osec_of o')) idx reps
      /\ (length rnd' + 3 * length idx = length rnd)%nat /\ Forall in_zn rnd'.
  Proof.
    intro ST. induction idx as [|i idx IH]; intros outs rnd ND G RL RZ.
    - exists outs, [], [], rnd. cbn [blind_each length]. repeat split; try constructor; try assumption; try lia. intros ? [].
    - inversion ND as [|? ? NI ND']; subst. cbn [length] in RL.
      destruct rnd as [|abf [|vbf [|esk rnd']]]; cbn [length] in RL; try lia.
      inversion RZ as [|? ? Z1 RZ1]; subst. inversion RZ1 as [|? ? Z2 RZ2]; subst. inversion RZ2 as [|? ? Z3 RZ3]; subst.
      destruct (G i (or_introl eq_refl)) as (o & NE & PG).
      destruct (blind_one_ok sis outs i o abf vbf esk rnd' ST NE PG Z1) as (s & j & bf & BF & B1).
      set (o1 := blinded_as o s esk j bf) in *.
      destruct (IH (set_nth outs i o1) rnd' ND') as (outs' & osecs & reps & rnd'' & B2 & L2 & U2 & F2 & S2 & LO & R2 & LR & RZ'); try assumption; try lia.
      { intros k I. destruct (G k (or_intror I)) as (ok & NEk & PGk). exists ok. split; [|exact PGk]. rewrite nth_set_neq; [exact NEk|]. intros ->. contradiction. }
      destruct (blinded_at_app [i] idx outs (set_nth outs i o1) outs' (blinded_at_one outs i o o1 NE BF) (conj L2 (conj U2 F2))) as (L & U & F).
      { intros k [<-|[]]. exact NI. }
      assert (Ei : nth_error outs' i = Some o1) by (rewrite (U2 i NI); exact (nth_set_eq _ _ _ _ NE)).
      assert (OS : osec_of o1 = s) by apply osec_of_blinded, (pgood_key o PG).
      exists outs', ((s_value s, s_abf s, s_vbf s) :: osecs), ((i, (s_abf s, s_vbf s, esk)) :: reps), rnd''.
      cbn [blind_each]. rewrite B1. cbn [obind]. rewrite B2. cbn [obind].
      split; [reflexivity|]. split; [exact L|]. split; [exact U|]. split; [exact F|]. split; [|split; [|split; [|split]]].
      + cbn [map zsum fold_right]. fold (zsum (map vb osecs)). rewrite S2. unfold Osum. cbn [map zsum fold_right]. rewrite Ei, OS. reflexivity.
      + cbn [length]. congruence.
      + constructor; [|exact R2]. cbn [fst snd]. split; [reflexivity|]. exists o1. rewrite OS. auto.
      + cbn [length]. lia.
      + exact RZ'.
  Qed.
End Step.

(* this party blinds the output: blinding key, blinder index among the party's inputs *)
Definition owned_by (sec : list (nat * secrets)) (o : pout) : bool :=
  match po_blinding_key o, po_blinder_index o with
  | Some _, Some b => match lookup sec b with Some _ => true | None => false end
  | _, _ => false end.
Fixpoint owned_idx (sec : list (nat * secrets)) (outs : list pout) (k : nat) : list nat :=
  match outs with
  | [] => []
  | o :: r => if owned_by sec o then k :: owned_idx sec r (S k) else owned_idx sec r (S k)
  end.
Lemma owned_idx_spec sec : forall outs k i, In i (owned_idx sec outs k) <->
  exists j o, i = (k + j)%nat /\ nth_error outs j = Some o /\ owned_by sec o = true.
Proof.
  induction outs as [|o r IH]; intros k i; cbn [owned_idx].
  - split; [intros []|intros ([|j] & o & _ & N & _); discriminate N].
  - transitivity ((i = k /\ owned_by sec o = true) \/ In i (owned_idx sec r (S k))).
    { destruct (owned_by sec o); cbn [In]; intuition (auto; discriminate). }
    rewrite IH. split.
    + intros [[-> OB]|(j & o' & -> & N & OB)]; [exists 0%nat, o|exists (S j), o']; repeat split; auto; lia.
    + intros ([|j] & o' & -> & N & OB); cbn [nth_error] in N.
      * injection N as <-. left. split; [lia|exact OB].
      * right. exists j, o'. repeat split; auto; lia.
Qed.
Lemma owned_idx0_spec sec outs i : In i (owned_idx sec outs 0) <-> exists o, nth_error outs i = Some o /\ owned_by sec o = true.
Proof. rewrite owned_idx_spec. split; [intros (j & o & -> & H); now exists o|intros (o & H); now exists i, o]. Qed.
Lemma owned_idx_nodup sec : forall outs k, NoDup (owned_idx sec outs k).
Proof.
  induction outs as [|o r IH]; intro k; cbn [owned_idx]; [constructor|]. destruct (owned_by sec o); [|apply IH].
  constructor; [|apply IH]. intro I. apply owned_idx_spec in I as (j & _ & E & _). lia.
Qed.
Lemma owned_idx_app sec : forall a b k, owned_idx sec (a ++ b) k = owned_idx sec a k ++ owned_idx sec b (k + length a).
Proof.
  induction a as [|o a IH]; intros b k; cbn [app owned_idx length]. - now rewrite Nat.add_0_r.
  - rewrite IH. replace (S k + length a)%nat with (k + S (length a))%nat by lia. destruct (owned_by sec o); reflexivity.
Qed.
Lemma owned_idx_unassign sec outs pre last lo : owned_idx sec outs 0 = pre ++ [last] -> nth_error outs last = Some lo ->
  owned_idx sec (set_nth outs last (set_blinder_index lo None)) 0 = pre.
Proof.
  intros E NE.
  assert (OB : owned_by sec lo = true).
  { assert (I : In last (owned_idx sec outs 0)) by (rewrite E; apply in_or_app; right; now left).
    apply owned_idx0_spec in I as (o & N & OB). rewrite NE in N. now injection N as <-. }
  destruct (nth_error_split _ _ NE) as (l1 & l2 & -> & <-). rewrite set_nth_app. rewrite !owned_idx_app in *. cbn [owned_idx Nat.add] in *.
  replace (owned_by sec (set_blinder_index lo None)) with false by (unfold owned_by; cbn; now destruct (po_blinding_key lo)).
  rewrite OB in E.
  (* no index follows `last` in the selection, so nothing of l2 is owned *)
  destruct (owned_idx sec l2 (S (length l1))) as [|y ys _] eqn:B using rev_ind; [rewrite app_nil_r; now apply app_inj_tail in E|].
  change (owned_idx sec l1 0 ++ (length l1 :: ys) ++ [y] = pre ++ [length l1]) in E. rewrite app_assoc in E. apply app_inj_tail in E as [_ ->].
  assert (I : In (length l1) (owned_idx sec l2 (S (length l1)))) by (rewrite B; apply in_or_app; right; now left).
  apply owned_idx_spec in I as (j & _ & EJ & _). lia.
Qed.
Lemma owned_by_static sec o o' : same_static o o' -> owned_by sec o' = owned_by sec o.
Proof. intros (_ & _ & _ & K & B). unfold owned_by. now rewrite K, B. Qed.
Lemma owned_idx_static sec outs outs' : Forall2 same_static outs outs' -> forall k, owned_idx sec outs' k = owned_idx sec outs k.
Proof. induction 1 as [|o o' r r' S F IH]; intro k; cbn [owned_idx]; [reflexivity|]. now rewrite (owned_by_static sec o o' S), IH. Qed.

Definition indices_ok (n : nat) (outs : list pout) : Prop :=
  Forall (fun o => forall b, po_blinding_key o <> None -> po_blinder_index o = Some b -> (b < n)%nat) outs.
Lemma indices_ok_static n outs outs' : Forall2 same_static outs outs' -> indices_ok n outs -> indices_ok n outs'.
Proof. apply Forall_static. intros o o' (_ & _ & _ & K & B). now rewrite K, B. Qed.
Lemma outs_to_blind_eq n sec : forall outs k, indices_ok n outs -> outs_to_blind n sec outs k = OVal (owned_idx sec outs k).
Proof.
  induction outs as [|o r IH]; intros k IO; cbn [outs_to_blind owned_idx]; [reflexivity|]. inversion IO as [|? ? Io Ir]; subst.
  unfold owned_by. destruct (po_blinding_key o) as [bk|] eqn:K; [|now apply IH].
  destruct (po_blinder_index o) as [b|] eqn:B; [|now apply IH].
  assert (L : (b < n)%nat) by (apply Io; [discriminate|reflexivity]).
  destruct (Nat.leb_spec n b); [lia|]. destruct (lookup sec b); rewrite (IH _ Ir); reflexivity.
Qed.
Definition issuances_unblinded (ins : list pin) : Prop :=
  Forall (fun inp => pin_has_issuance inp = true -> pi_blinded_issuance inp = Some 0%N) ins.
Lemma check_issuances_ok : forall ins k, issuances_unblinded ins -> check_issuances ins k = OVal tt.
Proof.
  induction ins as [|i r IH]; intros k F; cbn [check_issuances]; [reflexivity|]. inversion F as [|? ? Fi Fr]; subst.
  destruct (pin_has_issuance i) eqn:H; cbn [andb]; [rewrite (Fi eq_refl); cbn|]; now apply IH.
Qed.

Lemma blind_checks_ok ps sec : issuances_unblinded (ps_in ps) -> indices_ok (length (ps_in ps)) (ps_out ps) ->
  blind_checks ps sec = OVal (map (fun e => value_blind_inputs (snd e)) sec, owned_idx sec (ps_out ps) 0).
Proof. intros ISS IO. unfold blind_checks. now rewrite (check_issuances_ok _ _ ISS), (outs_to_blind_eq _ _ _ _ IO). Qed.

Definition mk_in (i : pin) : txin := mkIn (pi_iss i).
Definition in_ok (inp : pin) (s : secrets) (u : txout) : Prop :=
  pi_utxo inp = Some u /\ asset_opened u s /\ value_opened u s /\ iss_ok (mk_in inp).
Fixpoint all_ss (ins : list pin) (SS : list secrets) : list secrets :=
  match ins, SS with
  | i :: ins', s :: SS' => s :: iss_secrets (mk_in i) ++ all_ss ins' SS'
  | _, _ => []
  end.
Lemma in_ok_opens ins SS utxos : Forall3 in_ok ins SS utxos -> opens (map mk_in ins) utxos (all_ss ins SS).
Proof. induction 1 as [|i s u ins SS utxos (U & A & V & I) F IH]; cbn [map all_ss]; constructor; assumption. Qed.

Definition party_tg (ins : list pin) (sec : list (nat * secrets)) : list sdom :=
  match surjection_inputs ins sec 0 with
  | OVal sis => match surjection_targets sis 0 with OVal tg => tg | _ => [] end
  | _ => [] end.

Section Targets.
  Variable sec : list (nat * secrets).
  (* for a party whose secrets are the true ones of the inputs it names (the inputs from position k on, opened by SS): the
     targets' generators are those of all inputs and issuances, and they hold the asset of every input the party names *)
  Lemma surjection_inputs_ok : forall ins SS utxos, Forall3 in_ok ins SS utxos -> forall k,
    (forall j s, lookup sec (k + j) = Some s -> nth_error SS j = Some s) ->
    exists sis tg, surjection_inputs ins sec k = OVal sis /\ surjection_targets sis 0 = OVal tg
      /\ Forall2 geq (map sgen (all_ss ins SS)) (tgens tg)
      /\ (forall j s, lookup sec (k + j) = Some s -> holds_tg tg (s_asset s)).
  Proof.
    induction 1 as [|i s u ins SS utxos (U & A & V & IO) F IH]; intros k C.
    - exists [], []. repeat split; try constructor. intros [|j] s L; discriminate (C _ s L).
    - destruct (IH (S k)) as (sis & tg & SI & ST & D & H).
      { intros j s' L. replace (S k + j)%nat with (k + S j)%nat in L by lia. exact (C (S j) s' L). }
      cbn [surjection_inputs]. rewrite U, SI. cbn [obind].
      set (target := match lookup sec k with Some s0 => sinput_of_secrets s0 | None => SUnknown (o_asset u) end).
      set (iss := if pin_has_issuance i then _ else []).
      (* the input's own target: its generator is that of the true secrets; it carries their asset if the party named the input *)
      assert (T : exists g t bf, surjection_target target = OVal (g, t, bf) /\ geq (sgen s) g /\ (forall s0, lookup sec k = Some s0 -> t = Some (s_asset s0))).
      { unfold target. destruct (lookup sec k) as [s0|] eqn:LK.
        - assert (s0 = s). { specialize (C 0%nat s0). rewrite Nat.add_0_r in C. specialize (C LK). cbn in C. congruence. } subst s0.
          exists (sgen s), (Some (s_asset s)), (s_abf s). split; [reflexivity|]. split; [reflexivity|]. now intros ? [= <-].
        - destruct A as [[OA AB]|(g & OA & G)]; rewrite OA.
          + exists (gH (s_asset s)), None, 0. split; [reflexivity|]. split; [|discriminate]. unfold sgen. rewrite AB. apply asset_gen_0.
          + exists g, None, 0. split; [reflexivity|]. split; [now symmetry|discriminate]. }
      destruct T as (g & t & bf & T & G & TK).
      (* the issuance pseudo-inputs: their targets are the generators of iss_secrets *)
      assert (IS : exists itg, surjection_targets iss 0 = OVal itg /\ tgens itg = map sgen (iss_secrets (mk_in i))).
      { unfold iss, iss_secrets, pin_has_issuance, mk_in. cbn [in_iss]. destruct (has_issuance (mkIn (pi_iss i))); [|exists []; split; reflexivity].
        destruct IO as [IA IK]. unfold mk_in in IA, IK. cbn [in_iss] in IA, IK.
        destruct IA as [->|(x & -> & X)], IK as [->|(y & -> & Y)]; cbn [value_is_null app surjection_targets surjection_target map_err obind];
          eexists; (split; [reflexivity|reflexivity]). }
      destruct IS as (itg & IST & IG).
      exists (target :: iss ++ sis), ((g, t, bf) :: itg ++ tg). split; [reflexivity|]. split; [|split].
      + cbn [surjection_targets]. rewrite T. cbn [map_err obind].
        rewrite (surjection_targets_app iss sis itg tg 1%nat (surjection_targets_index _ _ _ _ IST) (surjection_targets_index _ _ _ _ ST)). reflexivity.
      + cbn [all_ss map tgens fst]. constructor; [exact G|]. rewrite !map_app. change (map (fun e : gel * option N * Z => fst (fst e)) itg) with (tgens itg).
        rewrite IG. apply Forall2_app; [|exact D].
        clear. induction (map sgen (iss_secrets (mk_in i))); constructor; [reflexivity|assumption].
      + intros [|j] s0 L.
        * rewrite Nat.add_0_r in L. exists g, bf. left. now rewrite (TK s0 L).
        * replace (k + S j)%nat with (S k + j)%nat in L by lia. destruct (H j s0 L) as (g' & bf' & I). exists g', bf'. right. apply in_or_app. now right.
  Qed.
End Targets.

Lemma mod_eqn_eq a b : (a + b mod qn) mod qn = (a + b) mod qn.
Proof. apply Zplus_mod_idemp_r. Qed.

Section Flow.
  Variable pubk : Z -> Z.
  Variable ecdh : Z -> Z -> Z.
  Variable p : profile.
  Variables (ins : list pin) (SS : list secrets) (utxos : list txout).
  Hypothesis INS : Forall3 in_ok ins SS utxos.
  Hypothesis ISS : issuances_unblinded ins.
  (* the surjection domain — one entry per input and one per issuance / inflation-keys amount, the same number for every
     party (party_tg_length) — is within the limit of Asset::blind *)
  Hypothesis DOM : within_limit (length (all_ss ins SS)).

  Definition sec_ok (sec : list (nat * secrets)) : Prop := forall i s, lookup sec i = Some s -> nth_error SS i = Some s.
  Definition Isum (sec : list (nat * secrets)) : Z := zsum (map svb (map snd sec)).

  Lemma party_targets sec : sec_ok sec ->
    exists sis, surjection_inputs ins sec 0 = OVal sis /\ surjection_targets sis 0 = OVal (party_tg ins sec)
      /\ Forall2 geq (map sgen (all_ss ins SS)) (tgens (party_tg ins sec))
      /\ (forall j s, lookup sec j = Some s -> holds_tg (party_tg ins sec) (s_asset s)).
  Proof.
    intro OK. destruct (surjection_inputs_ok sec ins SS utxos INS 0%nat OK) as (sis & tg & SI & ST & D & H).
    exists sis. unfold party_tg. rewrite SI, ST. repeat split; assumption.
  Qed.

  Lemma party_tg_length sec : sec_ok sec -> length (party_tg ins sec) = length (all_ss ins SS).
  Proof.
    intro OK. destruct (party_targets sec OK) as (_ & _ & _ & D & _).
    assert (L : forall {A B} (R : A -> B -> Prop) l l', Forall2 R l l' -> length l = length l') by (induction 1; cbn; congruence).
    apply L in D. unfold tgens in D. rewrite !map_length in D. now symmetry.
  Qed.
  Lemma party_tg_small sec : sec_ok sec -> within_limit (length (party_tg ins sec)).
  Proof. intro OK. rewrite (party_tg_length sec OK). exact DOM. Qed.

  (* blind_non_last on a state whose outputs owned by this party are still explicit *)
  Lemma non_last_char ps sec rnd :
    ps_in ps = ins -> sec_ok sec -> indices_ok (length ins) (ps_out ps) ->
    (forall i, In i (owned_idx sec (ps_out ps) 0) -> exists o, nth_error (ps_out ps) i = Some o /\ pgood (party_tg ins sec) o) ->
    (3 * length (owned_idx sec (ps_out ps) 0) <= length rnd)%nat -> Forall in_zn rnd ->
    let idx := owned_idx sec (ps_out ps) 0 in
    exists outs' bl rnd',
      blind_non_last pubk ecdh p ps sec rnd =
        OVal (mkPset ins outs' (match idx with [] => ps_scalars ps
                                | _ => ps_scalars ps ++ [zsub (Isum sec) (Osum outs' idx)] end), bl, rnd')
      /\ length outs' = length (ps_out ps) /\ (forall j, ~ In j idx -> nth_error outs' j = nth_error (ps_out ps) j)
      /\ (forall i, In i idx -> exists o o', nth_error (ps_out ps) i = Some o /\ nth_error outs' i = Some o' /\ blinded_form pubk ecdh (party_tg ins sec) o o')
      /\ (length rnd' + 3 * length idx = length rnd)%nat /\ Forall in_zn rnd'
      /\ Forall2 (fun i r => fst r = i /\ exists o', nth_error outs' i = Some o' /\ fst (fst (snd r)) = s_abf (osec_of o') /\ snd (fst (snd r)) = s_vbf (osec_of o')) idx bl.
  Proof.
    intros EI OK IO G RL RZ idx. unfold blind_non_last. rewrite blind_checks_ok, EI by (rewrite EI; assumption). cbn [obind]. fold idx.
    destruct idx as [|i0 idx0] eqn:EIDX.
    - exists (ps_out ps), [], rnd. destruct ps as [pi po psc]; cbn [ps_in ps_out ps_scalars] in *. subst pi.
      repeat split; try constructor; try assumption; try (cbn; lia); intros ? [].
    - rewrite <- EIDX in *. destruct (party_targets sec OK) as (sis & SI & ST & D & H). rewrite SI. cbn [obind].
      destruct (blind_each_ok pubk ecdh p (party_tg ins sec) (party_tg_small sec OK) sis ST idx (ps_out ps) rnd (owned_idx_nodup _ _ _) G RL RZ)
        as (outs' & osecs & reps & rnd' & BE & L & U & F & S & LO & R2 & LR & RZ').
      rewrite BE. cbn [obind].
      (* the pop of out_secrets: at least one output was blinded *)
      destruct (rev osecs) as [|[[v abf] vbf] others_rev] eqn:RV.
      { apply (f_equal (@length _)) in RV. rewrite rev_length, LO, EIDX in RV. discriminate. }
      assert (EO : osecs = rev others_rev ++ [(v, abf, vbf)]) by (rewrite <- (rev_involutive osecs), RV; reflexivity).
      exists outs', reps, rnd'. rewrite scalar_formula, <- EO, S, map_map. unfold Isum. rewrite map_map.
      split; [rewrite EIDX; reflexivity|]. repeat split; assumption.
  Qed.

  Lemma set_blinder_index_restore o : set_blinder_index (set_blinder_index o None) (po_blinder_index o) = o.
  Proof. now destruct o. Qed.
  Lemma explicit_out_secrets_ok : forall outs k, Forall (fun o => po_blinding_key o = None -> po_amount o <> None) outs ->
    exists l, explicit_out_secrets outs k = OVal l /\ Forall (fun x => vb x = 0) l.
  Proof.
    induction outs as [|o r IH]; intros k F; cbn [explicit_out_secrets]. - exists []. split; constructor.
    - inversion F as [|? ? Fo Fr]; subst. destruct (IH (S k) Fr) as (l & -> & Z0). destruct (po_blinding_key o).
      + exists l. split; [reflexivity|exact Z0].
      + destruct (po_amount o) as [amt|]; [|exfalso; now apply Fo]. cbn [opt_err obind]. exists ((amt, 0, 0) :: l). split; [reflexivity|].
        constructor; [exact (svb_zero_bf 0%N amt)|exact Z0].
  Qed.
  (* the last part of blind_last: blinding the final output of the last party on a state X *)
  Lemma last_output_char X scal sec rnd last lo inp :
    sec_ok sec -> nth_error X last = Some lo -> pgood (party_tg ins sec) lo ->
    Forall (fun o => po_blinding_key o = None -> po_amount o <> None) X ->
    (2 <= length rnd)%nat -> Forall in_zn rnd ->
    exists s esk j bf rnd' sis,
      surjection_inputs ins sec 0 = OVal sis /\
      po_asset lo = Some (s_asset s) /\ po_amount lo = Some (s_value s) /\ in_zn (s_abf s) /\ 1 <= s_value s <= I64_MAX
      /\ find_tag (s_asset s) (party_tg ins sec) 0 = Some (j, bf)
      /\ eqn (svb s) (zsum (map vb inp) + zsum scal)
      /\ forall ret,
        (let* surject_inputs := surjection_inputs ins sec 0 in
         match nth_error X last with
         | None => OPanic PIndex
         | Some lo =>
            let* asset_id := opt_err (po_asset lo) (PMustHaveExplicitTxOut last) in
            let* (out_abf, rnd) := lift_blind last (draw rnd) in
            let* (out_asset_commitment, surjection_proof) := lift_blind last (asset_blind (AExp asset_id) out_abf surject_inputs) in
            let* value := opt_err (po_amount lo) (PMustHaveExplicitTxOut last) in
            let* exp_out_secrets := explicit_out_secrets X 0 in
            let final_vbf := last_vbf value out_abf inp exp_out_secrets in
            let final_vbf := fold_left zadd scal final_vbf in
            let* receiver_blinding_pk := opt_err (po_blinding_key lo) (PMustHaveExplicitTxOut last) in
            let* (ephemeral_sk, rnd) := lift_blind last (draw rnd) in
            let msg := (asset_id, out_abf) in
            let* (value_commitment, nonce, rangeproof) :=
              lift_blind last (value_blind pubk ecdh (VExp value) final_vbf receiver_blinding_pk ephemeral_sk (po_script lo) msg) in
            let t' := mkOut out_asset_commitment value_commitment nonce (po_script lo) (Some rangeproof) (Some surjection_proof) in
            let* bap := opt_err (blind_asset_proof asset_id out_abf) (PBlindingProofsCreationError last) in
            match o_asset t', o_value t' with
            | AConf asset_gen, VConf value_comm =>
                let* bvp := opt_err (blind_value_proof value value_comm asset_gen final_vbf) (PBlindingProofsCreationError last) in
                OVal (mkPset ins (set_nth X last (set_blinded lo t' (Some bvp) (Some bap))) [],
                      ret ++ [(last, (out_abf, final_vbf, ephemeral_sk))], rnd)
            | _, _ => OPanic PUnwrapExplicit
            end
         end)
        = OVal (mkPset ins (set_nth X last (blinded_as pubk ecdh (party_tg ins sec) lo s esk j bf)) [],
                ret ++ [(last, (s_abf s, s_vbf s, esk))], rnd').
  Proof.
    intros OK NE (a & v & rk & A & V & K & R & _ & H & _ & _) FX RL RZ.
    destruct rnd as [|abf [|esk rnd']]; cbn [length] in RL; try lia.
    assert (Zabf : in_zn abf) by (inversion RZ; assumption).
    destruct (party_targets sec OK) as (sis & SI & ST & _ & _).
    destruct (find_tag_some a _ H 0%nat) as (j & bf & F).
    destruct (explicit_out_secrets_ok X 0%nat FX) as (exp & EO & EZ).
    set (fv := fold_left zadd scal (last_vbf v abf inp exp)).
    exists (mkSec a abf v fv), esk, j, bf, rnd', sis. cbn [s_asset s_value s_abf s_vbf].
    split; [exact SI|]. split; [exact A|]. split; [exact V|]. split; [exact Zabf|]. split; [exact R|]. split; [exact F|]. split.
    - (* v·abf + fv with fv = last_vbf + Σ scal, the explicit outputs contributing nothing to last_vbf *)
      unfold svb, fv. cbn [vb s_value s_abf s_vbf].
      rewrite zadd_eqn, fold_left_zadd, last_vbf_formula, (zsum_zero vb exp EZ), !zsub_eqn, !zmul_eqn, !zsum_eqn.
      unfold eqn. f_equal. ring.
    - intro ret. rewrite SI. cbn [obind]. rewrite NE, A. cbn [opt_err obind draw lift_blind map_err].
      rewrite (asset_blind_targets _ _ _ _ ST), (dom_guard_ok _ (party_tg_small sec OK)). unfold sp_new at 1. rewrite F. cbn [map_err obind].
      rewrite V, EO. cbn [opt_err obind]. fold fv. rewrite K. cbn [opt_err obind draw map_err].
      rewrite (value_blind_ok pubk ecdh) by exact R. cbn [map_err obind].
      unfold blinded_as. rewrite K, !blind_asset_proof_made. cbn [opt_err obind o_asset o_value blind_value_proof]. reflexivity.
  Qed.

  (* the state X' on which the last output is blinded holds the party's other outputs, at `pre`, in blinded form; blinding
     `last` completes the party's outputs, and their factors add up to what the party took in *)
  Lemma last_finish sec X X' pre last lo s esk j bf scal :
    blinded_at pubk ecdh (party_tg ins sec) pre X X' -> ~ In last pre ->
    nth_error X last = Some lo -> pgood (party_tg ins sec) lo ->
    po_asset lo = Some (s_asset s) -> po_amount lo = Some (s_value s) -> in_zn (s_abf s) -> 1 <= s_value s <= I64_MAX ->
    find_tag (s_asset s) (party_tg ins sec) 0 = Some (j, bf) ->
    eqn (svb s) (Isum sec + zsum scal - Osum X' pre) ->
    let outs' := set_nth X' last (blinded_as pubk ecdh (party_tg ins sec) lo s esk j bf) in
    blinded_at pubk ecdh (party_tg ins sec) (pre ++ [last]) X outs' /\ eqn (Osum outs' (pre ++ [last])) (Isum sec + zsum scal).
  Proof.
    intros B NLP NL PGL A V Zabf R FT EQ outs'. pose proof (pgood_key _ _ PGL) as KN.
    assert (NL' : nth_error X' last = Some lo) by now rewrite (proj1 (proj2 B) last NLP).
    split.
    - apply (blinded_at_app _ _ _ pre [last] X X' outs' B); [|intros i I [<-|[]]; contradiction].
      apply (blinded_at_one _ _ _ X' last lo _ NL'). exists s, esk, j, bf. auto 10.
    - rewrite Osum_app, (Osum_ext X' outs' pre) by (intros i I; apply nth_set_neq; intros ->; contradiction).
      unfold Osum at 2, outs'. cbn [map zsum fold_right]. rewrite (nth_set_eq _ _ _ _ NL'), (osec_of_blinded _ _ _ _ _ _ _ _ KN).
      rewrite !zadd_eqn, EQ. unfold eqn. f_equal. ring.
  Qed.

  Lemma last_char ps sec rnd :
    ps_in ps = ins -> sec_ok sec -> indices_ok (length ins) (ps_out ps) ->
    (forall i, In i (owned_idx sec (ps_out ps) 0) -> exists o, nth_error (ps_out ps) i = Some o /\ pgood (party_tg ins sec) o) ->
    Forall (fun o => po_blinding_key o = None -> po_amount o <> None) (ps_out ps) ->
    owned_idx sec (ps_out ps) 0 <> [] ->
    (3 * length (owned_idx sec (ps_out ps) 0) <= length rnd + 1)%nat -> Forall in_zn rnd ->
    let idx := owned_idx sec (ps_out ps) 0 in
    exists outs' bl rnd',
      blind_last pubk ecdh p ps sec rnd = OVal (mkPset ins outs' [], bl, rnd')
      /\ length outs' = length (ps_out ps) /\ (forall j, ~ In j idx -> nth_error outs' j = nth_error (ps_out ps) j)
      /\ (forall i, In i idx -> exists o o', nth_error (ps_out ps) i = Some o /\ nth_error outs' i = Some o' /\ blinded_form pubk ecdh (party_tg ins sec) o o')
      /\ eqn (Osum outs' idx) (Isum sec + zsum (ps_scalars ps)).
  Proof.
    intros EI OK IO G FX NE RL RZ idx. destruct ps as [pi X scal]. cbn [ps_in ps_out ps_scalars] in *. subst pi.
    unfold blind_last. rewrite blind_checks_ok by assumption. cbn [obind ps_in ps_out ps_scalars]. subst idx.
    pose proof (owned_idx_nodup sec X 0) as NDI. remember (owned_idx sec X 0) as idx eqn:EOWN. symmetry in EOWN.
    (* the last selected output is blinded last; the others, if any, through blind_non_last on the state in which it is un-assigned *)
    destruct (rev idx) as [|last rest_rev] eqn:RV; apply (f_equal (@rev nat)) in RV; rewrite rev_involutive in RV; [contradiction|].
    cbn [rev] in RV. rewrite RV in *. clear idx RV.
    destruct (G last) as (lo & NL & PGL); [apply in_or_app; right; now left|].
    assert (NLP : ~ In last (rev rest_rev)). { apply NoDup_remove_2 in NDI. now rewrite app_nil_r in NDI. }
    destruct rest_rev as [|r0 rr]; cbn [obind].
    - destruct (last_output_char X scal sec rnd last lo (map (fun e => value_blind_inputs (snd e)) sec) OK NL PGL FX) as
        (s & esk & j & bf & rnd' & sis & SI & A & V & Zabf & R & F & EQ & RUN); [cbn in RL; lia|exact RZ|].
      destruct (last_finish sec X X [] last lo s esk j bf scal (blinded_at_nil _ _ _ X)) as ((L & U & B) & E); try assumption; try (intros []).
      { rewrite EQ. unfold Isum, Osum. rewrite !map_map. cbn [map zsum fold_right]. now rewrite Z.sub_0_r. }
      eexists _, _, rnd'. split; [exact (RUN [])|exact (conj L (conj U (conj B E)))].
    - remember (rev (r0 :: rr)) as pre eqn:EPD. rewrite NL.
      pose proof (owned_idx_unassign sec X pre last lo EOWN NL) as E2.
      set (X1 := set_nth X last (set_blinder_index lo None)) in *.
      destruct (non_last_char (mkPset ins X1 scal) sec rnd eq_refl OK) as (outs2 & bl2 & rnd2 & BN & L2 & U2 & F2 & LR2 & RZ2 & _);
        cbn [ps_out ps_scalars]; try rewrite E2; try assumption.
      { apply Forall_set_nth; [exact IO|]. intros b _ BI. discriminate BI. }
      { intros i I. destruct (G i) as (o & NO & PG); [apply in_or_app; now left|]. exists o. split; [|exact PG].
        unfold X1. rewrite nth_set_neq; [exact NO|]. intros ->. contradiction. }
      { rewrite app_length in RL. cbn [length] in RL. lia. }
      cbn [ps_out ps_scalars ps_in] in BN, L2, U2, F2, LR2. rewrite E2 in BN, U2, F2, LR2. rewrite BN. cbn [obind ps_out ps_in ps_scalars].
      assert (NL2 : nth_error outs2 last = Some (set_blinder_index lo None)) by (rewrite (U2 last NLP); exact (nth_set_eq _ _ _ _ NL)).
      rewrite NL2. cbn [obind ps_out ps_in ps_scalars]. rewrite set_blinder_index_restore.
      destruct pre as [|p0 pre0] eqn:EPRE; [cbn [rev] in EPD; destruct (rev rr); discriminate EPD|]. rewrite <- EPRE in *.
      (* with the index restored the state is X with the party's other outputs blinded *)
      pose proof (blinded_at_aside pubk ecdh _ pre X outs2 last lo _ (conj L2 (conj U2 F2)) NLP NL) as B3.
      set (X3 := set_nth outs2 last lo) in *.
      assert (NL3 : nth_error X3 last = Some lo) by exact (nth_set_eq _ _ _ _ NL2).
      destruct (last_output_char X3 (scal ++ [zsub (Isum sec) (Osum outs2 pre)]) sec rnd2 last lo [] OK NL3 PGL
                  (amounts_static X X3 (blinded_at_static _ _ _ _ _ _ B3) FX)) as
        (s & esk & j & bf & rnd' & sis & SI & A & V & Zabf & R & F & EQ & RUN); [rewrite app_length in RL; cbn [length] in *; lia|exact RZ2|].
      destruct (last_finish sec X X3 pre last lo s esk j bf scal B3) as ((L & U & B) & E); try assumption.
      { rewrite EQ, zsum_app, (Osum_ext outs2 X3 pre) by (intros i I; apply nth_set_neq; intros ->; contradiction).
        cbn [map zsum fold_right]. rewrite !zadd_eqn, zsub_eqn. unfold eqn. f_equal. ring. }
      eexists _, _, rnd'. split; [exact (RUN bl2)|exact (conj L (conj U (conj B E)))].
  Qed.

  Variable outs0 : list pout.
  Hypothesis IDX0 : indices_ok (length ins) outs0.
  Definition party := (list (nat * secrets) * list Z)%type.
  Definition pidx (P : party) : list nat := owned_idx (fst P) outs0 0.
  Definition didx (l : list party) : list nat := flat_map pidx l.
  Definition party_ok (slack : nat) (P : party) : Prop :=
    sec_ok (fst P) /\ pidx P <> []
    /\ (forall i, In i (pidx P) -> exists o, nth_error outs0 i = Some o /\ pgood (party_tg ins (fst P)) o)
    /\ (3 * length (pidx P) <= length (snd P) + slack)%nat /\ Forall in_zn (snd P).
  Definition out_disjoint (P Q : party) : Prop := forall o, In o outs0 -> owned_by (fst P) o = true -> owned_by (fst Q) o = true -> False.

  Definition Inv (ps : pset) (done : list party) : Prop :=
    ps_in ps = ins /\ length (ps_out ps) = length outs0
    /\ (forall j o0, nth_error outs0 j = Some o0 -> exists o, nth_error (ps_out ps) j = Some o
          /\ ((forall P, In P done -> owned_by (fst P) o0 = false) -> o = o0)
          /\ (forall P, In P done -> owned_by (fst P) o0 = true -> blinded_form pubk ecdh (party_tg ins (fst P)) o0 o))
    /\ eqn (zsum (ps_scalars ps)) (zsum (map (fun P => Isum (fst P)) done) - Osum (ps_out ps) (didx done)).

  Lemma didx_spec all i : In i (didx all) <-> exists P o, In P all /\ nth_error outs0 i = Some o /\ owned_by (fst P) o = true.
  Proof.
    unfold didx. rewrite in_flat_map. split.
    - intros (P & IP & II). apply owned_idx0_spec in II as (o & N & OB). now exists P, o.
    - intros (P & o & IP & N & OB). exists P. split; [exact IP|]. apply owned_idx0_spec. now exists o.
  Qed.
  Lemma Inv_static ps done : Inv ps done -> Forall2 same_static outs0 (ps_out ps).
  Proof.
    intros (_ & L & I3 & _). apply pointwise_Forall2; [exact L|]. intros j o0 N0. destruct (I3 j o0 N0) as (o & N & U & B).
    exists o. split; [exact N|]. destruct (existsb (fun P => owned_by (fst P) o0) done) eqn:E.
    - apply existsb_exists in E as (P & IP & OB). exact (blinded_form_static _ _ _ _ _ (B P IP OB)).
    - rewrite U; [apply same_static_refl|]. exact (proj1 (existsb_false _ _) E).
  Qed.
  Lemma Inv_idx ps done sec : Inv ps done -> owned_idx sec (ps_out ps) 0 = owned_idx sec outs0 0.
  Proof. intro I. apply owned_idx_static, (Inv_static ps done I). Qed.
  Lemma Inv_indices ps done : Inv ps done -> indices_ok (length ins) (ps_out ps).
  Proof. intro I. exact (indices_ok_static _ _ _ (Inv_static ps done I) IDX0). Qed.
  Lemma Inv_untouched ps done P j o0 : Inv ps done -> (forall Q, In Q done -> out_disjoint P Q) ->
    nth_error outs0 j = Some o0 -> owned_by (fst P) o0 = true -> nth_error (ps_out ps) j = Some o0.
  Proof.
    intros (_ & _ & I3 & _) DJ N0 OB. destruct (I3 j o0 N0) as (o & N & U & _). rewrite N. f_equal. apply U. intros Q IQ.
    destruct (owned_by (fst Q) o0) eqn:OBQ; [|reflexivity]. destruct (DJ Q IQ o0 (nth_error_In _ _ N0) OB OBQ).
  Qed.
  Lemma Inv_party ps done P slack : Inv ps done -> party_ok slack P -> (forall Q, In Q done -> out_disjoint P Q) ->
    owned_idx (fst P) (ps_out ps) 0 = pidx P
    /\ forall i, In i (pidx P) -> exists o, nth_error (ps_out ps) i = Some o /\ pgood (party_tg ins (fst P)) o.
  Proof.
    intros I (_ & _ & G & _) DJ. split; [exact (Inv_idx ps done (fst P) I)|].
    intros i II. destruct (G i II) as (o0 & N0 & PG). exists o0. split; [|exact PG].
    apply owned_idx0_spec in II as (o & N & OB). rewrite N0 in N. injection N as <-. exact (Inv_untouched ps done P i o0 I DJ N0 OB).
  Qed.

  (* the step of any party, last or not: its outputs blinded, the others as they were, and scalars that account for what it took
     in and what it blinded *)
  Lemma Inv_extend ps done P outs' scal' : Inv ps done -> (forall Q, In Q done -> out_disjoint P Q) ->
    blinded_at pubk ecdh (party_tg ins (fst P)) (pidx P) (ps_out ps) outs' ->
    eqn (zsum scal') (zsum (ps_scalars ps) + Isum (fst P) - Osum outs' (pidx P)) ->
    Inv (mkPset ins outs' scal') (done ++ [P]).
  Proof.
    intros I DJ (L & U & F) EQ. pose proof I as (I1 & I2 & I3 & I4).
    split; [reflexivity|]. split; [cbn [ps_out]; congruence|]. cbn [ps_out ps_scalars]. split.
    - intros j o0 N0. destruct (I3 j o0 N0) as (o & N & UU & BB). destruct (owned_by (fst P) o0) eqn:OBP.
      + assert (IJ : In j (pidx P)) by (apply owned_idx0_spec; eauto).
        destruct (F j IJ) as (o1 & o' & N1 & N' & BF). rewrite (Inv_untouched ps done P j o0 I DJ N0 OBP) in N1. injection N1 as <-.
        exists o'. split; [exact N'|]. split.
        * intro H. rewrite (H P) in OBP by (apply in_or_app; right; now left). discriminate.
        * intros Q IQ OBQ. apply in_app_or in IQ as [IQ|[<-|[]]]; [destruct (DJ Q IQ o0 (nth_error_In _ _ N0) OBP OBQ)|exact BF].
      + assert (NJ : ~ In j (pidx P)). { intro IJ. apply owned_idx0_spec in IJ as (o1 & N1 & OB1). congruence. }
        exists o. rewrite (U j NJ). split; [exact N|]. split.
        * intro H. apply UU. intros Q IQ. apply H, in_or_app. now left.
        * intros Q IQ OBQ. apply in_app_or in IQ as [IQ|[<-|[]]]; [now apply BB|congruence].
    - unfold didx. rewrite flat_map_app. cbn [flat_map]. rewrite app_nil_r. fold (didx done).
      rewrite Osum_app, (Osum_ext (ps_out ps) outs' (didx done)).
      + rewrite map_app, zsum_app. cbn [map zsum fold_right]. rewrite EQ, I4, !zadd_eqn. unfold eqn, party. f_equal. ring.
      + (* what the earlier parties blinded is not P's *)
        intros i II. apply U. intro IP. apply didx_spec in II as (Q & o & IQ & N & OBQ).
        apply owned_idx0_spec in IP as (o1 & N1 & OB1). rewrite N in N1. injection N1 as <-. exact (DJ Q IQ o (nth_error_In _ _ N) OB1 OBQ).
  Qed.

  Lemma Inv_step ps done P : Inv ps done -> party_ok 0 P -> (forall Q, In Q done -> out_disjoint P Q) ->
    exists ps' bl rnd', blind_non_last pubk ecdh p ps (fst P) (snd P) = OVal (ps', bl, rnd') /\ Inv ps' (done ++ [P]).
  Proof.
    intros I OKP DJ. destruct (Inv_party ps done P 0 I OKP DJ) as (EIX & G). destruct OKP as (OK & NE & _ & RL & RZ).
    destruct (non_last_char ps (fst P) (snd P) (proj1 I) OK (Inv_indices ps done I)) as (outs' & bl & rnd' & BN & L & U & F & _);
      rewrite ?EIX; try assumption; [lia|].
    rewrite EIX in BN, U, F. eexists _, bl, rnd'. split; [exact BN|].
    apply (Inv_extend ps done P _ _ I DJ (conj L (conj U F))). destruct (pidx P); [contradiction|].
    rewrite zsum_app. cbn [zsum fold_right]. rewrite !zadd_eqn, zsub_eqn. unfold eqn. f_equal. ring.
  Qed.
  Lemma Inv_last_step ps done L : Inv ps done -> party_ok 1 L -> (forall Q, In Q done -> out_disjoint L Q) ->
    Forall (fun o => po_blinding_key o = None -> po_amount o <> None) outs0 ->
    exists outs' bl rnd', blind_last pubk ecdh p ps (fst L) (snd L) = OVal (mkPset ins outs' [], bl, rnd') /\ Inv (mkPset ins outs' []) (done ++ [L]).
  Proof.
    intros I OKL DJ FA. destruct (Inv_party ps done L 1 I OKL DJ) as (EIX & G). destruct OKL as (OK & NE & _ & RL & RZ).
    destruct (last_char ps (fst L) (snd L) (proj1 I) OK (Inv_indices ps done I)) as (outs' & bl & rnd' & BL & LL & U & F & EQ);
      rewrite ?EIX; try assumption.
    { exact (amounts_static _ _ (Inv_static ps done I) FA). }
    rewrite EIX in U, F, EQ. exists outs', bl, rnd'. split; [exact BL|].
    apply (Inv_extend ps done L _ _ I DJ (conj LL (conj U F))). rewrite EQ. unfold eqn. f_equal. cbn [zsum fold_right]. ring.
  Qed.

  Variable hop : pset -> pset.
  Hypothesis hop_id : forall ps, hop ps = ps.       (* serialize/deserialize is the identity on the modelled fields (C07) *)

  Definition pairwise_disjoint (all : list party) : Prop := forall P Q, In P all -> In Q all -> P <> Q -> out_disjoint P Q.
  Lemma disjoint_from_earlier done P l : NoDup (done ++ P :: l) -> pairwise_disjoint (done ++ P :: l) -> forall Q, In Q done -> out_disjoint P Q.
  Proof.
    intros ND PD Q IQ. apply PD; [apply in_or_app; right; now left|apply in_or_app; now left|].
    intros ->. apply NoDup_remove_2 in ND. apply ND, in_or_app. now left.
  Qed.

  Lemma run_nonlast_ok : forall l done ps, Inv ps done -> (forall P, In P l -> party_ok 0 P) ->
    NoDup (done ++ l) -> pairwise_disjoint (done ++ l) ->
    exists ps', run_nonlast pubk ecdh hop p ps l = OVal ps' /\ Inv ps' (done ++ l).
  Proof.
    induction l as [|P l IH]; intros done ps I OKs ND PD; cbn [run_nonlast].
    - exists ps. rewrite app_nil_r. auto.
    - destruct (Inv_step ps done P I (OKs P (or_introl eq_refl)) (disjoint_from_earlier done P l ND PD)) as (ps' & bl & rnd' & BN & I').
      destruct P as [sec rnd]. cbn [fst snd] in BN. rewrite BN. cbn [obind]. rewrite hop_id.
      destruct (IH (done ++ [(sec, rnd)]) ps' I') as (ps'' & R & I'').
      + intros Q IQ. apply OKs. now right.
      + rewrite <- app_assoc. exact ND.
      + rewrite <- app_assoc. exact PD.
      + exists ps''. rewrite <- app_assoc in I''. auto.
  Qed.

  Definition pexplicit (o : pout) : Prop :=
    po_blinding_key o = None /\ exists a v, po_asset o = Some a /\ po_amount o = Some v /\ 0 < v < qn
      /\ po_asset_comm o = None /\ po_amount_comm o = None /\ po_rp o = None /\ po_sp o = None /\ po_ecdh o = None.
  Definition final_state (all : list party) (outs' : list pout) : Prop :=
    length outs' = length outs0
    /\ (forall j o0, nth_error outs0 j = Some o0 -> exists o, nth_error outs' j = Some o
          /\ ((forall P, In P all -> owned_by (fst P) o0 = false) -> o = o0)
          /\ (forall P, In P all -> owned_by (fst P) o0 = true -> blinded_form pubk ecdh (party_tg ins (fst P)) o0 o))
    /\ eqn (zsum (map (fun P => Isum (fst P)) all)) (Osum outs' (didx all)).

  Theorem flow_final l L :
    (forall P, In P l -> party_ok 0 P) -> party_ok 1 L -> NoDup (l ++ [L]) -> pairwise_disjoint (l ++ [L]) ->
    Forall (fun o => po_blinding_key o = None -> po_amount o <> None) outs0 ->
    exists outs' bl, run_flow pubk ecdh hop p (mkPset ins outs0 []) l L = OVal (mkPset ins outs' [], bl) /\ final_state (l ++ [L]) outs'.
  Proof.
    intros OKs OKL ND PD FA.
    assert (I0 : Inv (mkPset ins outs0 []) []).
    { split; [reflexivity|]. split; [reflexivity|]. split; [|reflexivity].
      intros j o0 N0. exists o0. split; [exact N0|]. split; [reflexivity|]. intros P []. }
    destruct (run_nonlast_ok l [] _ I0 OKs) as (ps1 & R1 & I1); cbn [app].
    { apply NoDup_remove_1 in ND. now rewrite app_nil_r in ND. }
    { intros P Q IP IQ. apply PD; apply in_or_app; now left. }
    destruct (Inv_last_step ps1 l L I1 OKL (disjoint_from_earlier l L [] ND PD) FA) as (outs' & bl & rnd' & BL & _ & LL & PW & EQ).
    exists outs', bl. unfold run_flow. rewrite R1. cbn [obind]. rewrite BL. split; [reflexivity|].
    split; [exact LL|]. split; [exact PW|].
    (* with the scalars used up, the invariant says that everything taken in has been blinded *)
    exact (eqn_sub_0 _ _ EQ).
  Qed.

  Definition fsec (o : pout) : secrets :=
    match po_rp o, po_asset o, po_amount o with
    | Some _, _, _ => osec_of o
    | None, Some a, Some v => mkSec a 0 v 0
    | _, _, _ => mkSec 0 0 0 0 end.
  Definition final_rel (all : list party) (o0 o : pout) : Prop :=
    (pexplicit o0 /\ o = o0) \/ (exists P, In P all /\ blinded_form pubk ecdh (party_tg ins (fst P)) o0 o).
  Definition ptotal (b : N) (outs : list pout) : Z :=
    isum (map (fun o => match po_asset o, po_amount o with Some a, Some v => if N.eqb b a then v else 0 | _, _ => 0 end) outs).

  Lemma blinded_as_extract tgx o0 s esk j bf rk : po_blinding_key o0 = Some rk ->
    extract_outputs [blinded_as pubk ecdh tgx o0 s esk j bf] = OVal [wts_out_g pubk ecdh (po_script o0) rk esk s (tgens tgx) j bf].
  Proof. intro K. unfold blinded_as. rewrite K. reflexivity. Qed.

  Lemma extract_outputs_cons o r :
    extract_outputs (o :: r) = let* t := extract_outputs [o] in let* l := extract_outputs r in OVal (t ++ l).
  Proof.
    cbn [extract_outputs]. destruct (po_asset_comm o), (po_asset o), (po_amount_comm o), (po_amount o); cbn [obind app];
      destruct (extract_outputs r); reflexivity.
  Qed.
  Lemma extract_outputs_all : forall outs touts, Forall2 (fun o t => extract_outputs [o] = OVal [t]) outs touts -> extract_outputs outs = OVal touts.
  Proof. induction 1 as [|o t outs touts E F IH]; [reflexivity|]. now rewrite extract_outputs_cons, E, IH. Qed.
  Lemma fsec_blinded tgx o s esk j bf : po_blinding_key o <> None -> fsec (blinded_as pubk ecdh tgx o s esk j bf) = s.
  Proof.
    intro K. rewrite <- (osec_of_blinded pubk ecdh tgx o s esk j bf K) at 2. unfold fsec, blinded_as.
    destruct (po_blinding_key o); [reflexivity|congruence].
  Qed.

  (* one output of the final state: it extracts to an output that passes the per-output checks with the commitment of its secrets *)
  Lemma final_output all vdom k o0 o : (forall P, In P all -> sec_ok (fst P)) -> Forall2 geq vdom (map sgen (all_ss ins SS)) ->
    final_rel all o0 o ->
    exists t c, extract_outputs [o] = OVal [t] /\ verify_output_step vdom k t = OVal (Some c) /\ geq c (scommit (fsec o))
      /\ po_asset o0 = Some (s_asset (fsec o)) /\ po_amount o0 = Some (s_value (fsec o)).
  Proof.
    intros OKs D [[(K & a & v & A & V & RV & AC & VC & RP & SP & EC) ->]|(P & IP & (s & esk & j & bf & A & V & Zabf & RV & FT & KN & ->))].
    - exists (mkOut (AExp a) (VExp v) NNull (po_script o0) None None), (commit v (gH a) 0).
      assert (FS : fsec o0 = mkSec a 0 v 0) by (unfold fsec; now rewrite RP, A, V). rewrite FS.
      split; [cbn [extract_outputs]; now rewrite AC, VC, A, V, EC, RP, SP|]. split; [now apply verify_step_explicit|].
      split; [apply scommit_iss|auto].
    - rewrite (fsec_blinded _ o0 s esk j bf KN). destruct (po_blinding_key o0) as [rk|] eqn:K; [|congruence].
      destruct (party_targets (fst P) (OKs P IP)) as (sis & SI & ST & DP & _).
      exists (wts_out_g pubk ecdh (po_script o0) rk esk s (tgens (party_tg ins (fst P))) j bf), (scommit s).
      split; [now apply blinded_as_extract|]. split; [|split; [reflexivity|auto]].
      apply step_live; [now apply (skipped_conf _ (scommit s))|].
      apply verify_output_wts_g; try assumption; [exact (surjection_targets_ok _ _ _ ST)|exact (Forall2_trans geq _ _ _ D DP)].
  Qed.
  Lemma final_outputs all vdom : (forall P, In P all -> sec_ok (fst P)) -> Forall2 geq vdom (map sgen (all_ss ins SS)) ->
    forall outs outs', Forall2 (final_rel all) outs outs' -> forall k,
    exists touts cs, Forall2 (fun o t => extract_outputs [o] = OVal [t]) outs' touts /\ verify_outputs vdom touts k = OVal (map Some cs)
      /\ Forall2 geq cs (map scommit (map fsec outs')) /\ (forall b, asset_total b (map fsec outs') = ptotal b outs)
      /\ length touts = length outs'.
  Proof.
    intros OKs D. induction 1 as [|o0 o outs outs' R F IH]; intro k.
    - exists [], []. repeat split; constructor.
    - destruct (final_output all vdom k o0 o OKs D R) as (t & c & EX & VS & C & A & V).
      destruct (IH (S k)) as (touts & cs & EXs & VO & CS & AT & LT).
      exists (t :: touts), (c :: cs). cbn [verify_outputs map]. rewrite VS. cbn [obind]. rewrite VO. cbn [obind].
      split; [now constructor|]. split; [reflexivity|]. split; [now constructor|]. split; [|cbn [length]; congruence].
      intro b. unfold asset_total, ptotal in *. cbn [map isum fold_right]. fold isum. specialize (AT b). unfold isum in AT. rewrite AT, A, V. reflexivity.
  Qed.
  Lemma final_outputs_verify all vdom : (forall P, In P all -> sec_ok (fst P)) -> Forall2 geq vdom (map sgen (all_ss ins SS)) ->
    forall outs outs', Forall2 (final_rel all) outs outs' -> forall k,
    exists touts cs, extract_outputs outs' = OVal touts /\ verify_outputs vdom touts k = OVal (map Some cs)
      /\ Forall2 geq cs (map scommit (map fsec outs')) /\ (forall b, asset_total b (map fsec outs') = ptotal b outs)
      /\ length touts = length outs'.
  Proof.
    intros OKs D outs outs' F k. destruct (final_outputs all vdom OKs D outs outs' F k) as (touts & cs & EX & R).
    exists touts, cs. split; [now apply extract_outputs_all|exact R].
  Qed.

  Lemma sum_over_nodup (f : nat -> Z) : forall n (l : list nat), NoDup l -> (forall i, In i l -> (i < n)%nat) ->
    (forall j, (j < n)%nat -> ~ In j l -> f j mod qn = 0) -> zsum (map f (seq 0 n)) = zsum (map f l).
  Proof.
    induction n as [|n IH]; intros l ND B Z0.
    - destruct l as [|x l]; [reflexivity|]. specialize (B x (or_introl eq_refl)). lia.
    - rewrite seq_S, map_app, zsum_app. cbn [Nat.add map zsum fold_right].
      destruct (in_dec Nat.eq_dec n l) as [I|NI].
      + destruct (in_split _ _ I) as (l1 & l2 & ->).
        assert (ND' : NoDup (l1 ++ l2)) by (eapply NoDup_remove_1, ND).
        assert (NI' : ~ In n (l1 ++ l2)) by (eapply NoDup_remove_2, ND).
        rewrite (IH (l1 ++ l2) ND').
        * rewrite !map_app, !zsum_app. cbn [map zsum fold_right]. fold (zsum (map f l2)).
          generalize (zsum (map f l1)) (zsum (map f l2)) (f n). intros. zn_ring.
        * intros i Ii. assert (In i (l1 ++ n :: l2)) by (apply in_app_or in Ii as [?|?]; apply in_or_app; [now left|right; now right]).
          specialize (B i H). assert (i <> n) by (intros ->; contradiction). lia.
        * intros j LJ NJ. apply Z0; [lia|]. intro Ij. apply in_app_or in Ij as [?|[E|?]]; [apply NJ, in_or_app; now left|lia|apply NJ, in_or_app; now right].
      + rewrite (IH l ND).
        * rewrite zadd_0_r, zadd_mod_r. unfold zadd. rewrite <- Zplus_mod_idemp_r, (Z0 n (Nat.lt_succ_diag_r n) NI), Z.add_0_r. apply zsum_mod.
        * intros i Ii. specialize (B i Ii). assert (i <> n) by (intros ->; contradiction). lia.
        * intros j LJ NJ. apply Z0; [lia|exact NJ].
  Qed.

  Lemma NoDup_didx all : NoDup all -> pairwise_disjoint all -> NoDup (didx all).
  Proof.
    induction all as [|P r IH]; intros ND PD; cbn [didx flat_map]; [constructor|]. inversion ND as [|? ? NI ND']; subst.
    apply NoDup_app_intro; [apply owned_idx_nodup|apply IH; [exact ND'|]|].
    - intros A B IA IB NE. apply PD; [now right|now right|exact NE].
    - intros i I1 I2. apply owned_idx0_spec in I1 as (o & N & OB).
      apply (didx_spec r i) in I2 as (Q & o' & IQ & N' & OB'). rewrite N in N'. injection N' as <-.
      assert (NE : P <> Q) by (intros ->; contradiction).
      exact (PD P Q (or_introl eq_refl) (or_intror IQ) NE o (nth_error_In _ _ N) OB OB').
  Qed.
  Lemma zsum_all_ss : forall ins' SS' utxos', Forall3 in_ok ins' SS' utxos' -> zsum (map svb (all_ss ins' SS')) = zsum (map svb SS').
  Proof.
    induction 1 as [|i s u ins' SS' utxos' (_ & _ & _ & IO) F IH]; cbn [all_ss map zsum fold_right]; [reflexivity|].
    fold (zsum (map svb SS')). rewrite map_app, zsum_app, IH.
    assert (Z0 : zsum (map svb (iss_secrets (mk_in i))) = 0).
    { unfold iss_secrets. destruct (has_issuance (mk_in i)); [|reflexivity].
      destruct (is_amount (in_iss (mk_in i))), (is_keys (in_iss (mk_in i))); cbn [app map zsum fold_right]; rewrite ?svb_zero_bf; reflexivity. }
    rewrite Z0, zadd_0_l, zsum_mod. reflexivity.
  Qed.
  Lemma Isum_total all : zsum (map (fun P : party => Isum (fst P)) all) = zsum (map svb (flat_map (fun P : party => map snd (fst P)) all)).
  Proof.
    induction all as [|P r IH]; cbn [map flat_map zsum fold_right]; [reflexivity|].
    fold (zsum (map (fun P : party => Isum (fst P)) r)). rewrite map_app, zsum_app, IH. reflexivity.
  Qed.

  Definition outputs_assigned (all : list party) : Prop :=
    Forall (fun o0 => pexplicit o0 \/ exists P, In P all /\ owned_by (fst P) o0 = true) outs0.
  Lemma assigned_amounts all : outputs_assigned all -> Forall (fun o => po_blinding_key o = None -> po_amount o <> None) outs0.
  Proof.
    unfold outputs_assigned. rewrite !Forall_forall. intros OUT o I K. destruct (OUT o I) as [(_ & a & v & _ & V & _)|(P & _ & OB)].
    - rewrite V. discriminate. - unfold owned_by in OB. rewrite K in OB. discriminate.
  Qed.
  Lemma final_state_rel all outs' : outputs_assigned all -> final_state all outs' -> Forall2 (final_rel all) outs0 outs'.
  Proof.
    intros OUT (LF & PW & _). apply pointwise_Forall2; [exact LF|]. intros j o0 N0. destruct (PW j o0 N0) as (o & N & U & B). exists o. split; [exact N|].
    unfold outputs_assigned in OUT. rewrite Forall_forall in OUT. destruct (OUT o0 (nth_error_In _ _ N0)) as [PE|(P & IP & OB)].
    - left. split; [exact PE|]. apply U. intros P IP. unfold owned_by. destruct PE as (K & _). now rewrite K.
    - right. exists P. split; [exact IP|]. now apply B.
  Qed.
  Lemma svb_fsec all o0 o : final_rel all o0 o -> svb (fsec o) = svb (osec_of o).
  Proof.
    intros [[(K & x & v & A & V & RV & AC & VC & RP & SP & EC) ->]|(P & IP & (s & esk & j & bf & _ & _ & _ & _ & _ & KN & ->))].
    - unfold fsec, osec_of. rewrite RP, A, V. apply svb_zero_bf.
    - now rewrite fsec_blinded, osec_of_blinded.
  Qed.
  (* the G-sum over all outputs is the sum over the blinded positions: an output nobody owns is explicit and carries no factor *)
  Lemma Osum_all all outs' : NoDup all -> pairwise_disjoint all -> outputs_assigned all -> final_state all outs' ->
    zsum (map (fun o => svb (osec_of o)) outs') = Osum outs' (didx all).
  Proof.
    intros ND PD OUT (LF & PW & _). unfold Osum.
    rewrite <- (sum_over_nodup (fun i => match nth_error outs' i with Some o => svb (osec_of o) | None => 0 end) (length outs') (didx all)).
    - rewrite (map_seq_nth (fun o => svb (osec_of o)) outs' 0%nat). f_equal. apply map_ext. intro i. now rewrite Nat.sub_0_r.
    - apply NoDup_didx; assumption.
    - intros i I. apply (didx_spec all i) in I as (P & o & _ & N & _). rewrite LF. apply nth_error_Some. congruence.
    - intros j LJ NJ. rewrite LF in LJ. destruct (nth_error outs0 j) as [o0|] eqn:N0; [|apply nth_error_None in N0; lia].
      destruct (PW j o0 N0) as (o & N & U & _). rewrite N.
      assert (UO : forall P, In P all -> owned_by (fst P) o0 = false).
      { intros P IP. destruct (owned_by (fst P) o0) eqn:OB; [|reflexivity]. exfalso. apply NJ. apply didx_spec. now exists P, o0. }
      rewrite (U UO). unfold outputs_assigned in OUT. rewrite Forall_forall in OUT.
      destruct (OUT o0 (nth_error_In _ _ N0)) as [(K & x & v & A & V & RV & AC & VC0 & RP & SP & EC)|(P & IP & OB)].
      + unfold osec_of. rewrite RP. reflexivity.
      + rewrite (UO P IP) in OB. discriminate.
  Qed.

  Definition flow_ok (l : list party) (L : party) : Prop :=
    (forall P, In P l -> party_ok 0 P) /\ party_ok 1 L /\ NoDup (l ++ [L]) /\ pairwise_disjoint (l ++ [L])
    /\ outputs_assigned (l ++ [L])
    /\ Permutation (flat_map (fun P : party => map snd (fst P)) (l ++ [L])) SS     (* the parties' secrets are those of all inputs, each once *)
    /\ (forall b, asset_total b (all_ss ins SS) = ptotal b outs0).                  (* per asset: inputs + issuances = outputs *)

  Theorem flow_verifies l L : flow_ok l L -> (forall a b, ecdh (pubk a) b = ecdh (pubk b) a) ->
    exists psf bl t,
      run_flow pubk ecdh hop p (mkPset ins outs0 []) l L = OVal (psf, bl)
      /\ ps_scalars psf = []
      /\ extract_tx psf = OVal t /\ verify_tx_amt_proofs t utxos = OVal tt
      /\ length (ps_out psf) = length outs0 /\ length (t_out t) = length outs0
      /\ forall j o0 rsk, nth_error outs0 j = Some o0 -> po_blinding_key o0 = Some (pubk rsk) ->
           exists o tj s, nth_error (ps_out psf) j = Some o /\ nth_error (t_out t) j = Some tj
             /\ is_fully_blinded o = true
             /\ unblind ecdh tj rsk = OVal s /\ po_asset o0 = Some (s_asset s) /\ po_amount o0 = Some (s_value s)
             /\ o_asset tj = AConf (sgen s) /\ o_value tj = VConf (scommit s)
             /\ (exists a v g c bvp bap, po_asset o = Some a /\ po_amount o = Some v /\ po_asset_comm o = Some g /\ po_amount_comm o = Some c
                   /\ po_bvp o = Some bvp /\ po_bap o = Some bap /\ blind_value_proof_verify bvp v g c = true /\ blind_asset_proof_verify bap a g = true).
  Proof.
    intros (OKs & OKL & ND & PD & OUT & PERM & BAL) SYM. set (all := l ++ [L]) in *.
    destruct (flow_final l L OKs OKL ND PD (assigned_amounts all OUT)) as (outs' & bl & RF & FS). fold all in FS.
    assert (SOK : forall P, In P all -> sec_ok (fst P)).
    { intros P IP. apply in_app_or in IP as [IP|[<-|[]]]; [apply (OKs P IP)|apply OKL]. }
    pose proof (final_state_rel all outs' OUT FS) as FR. destruct FS as (LF & PW & GB).
    destruct (verify_inputs_ok _ _ _ (in_ok_opens _ _ _ INS) 0%nat) as (vdom & vcoms & VI & VD & VC).
    destruct (final_outputs all vdom SOK VD outs0 outs' FR 0%nat) as (touts & cs & EX & VO & CS & AT & LT).
    exists (mkPset ins outs' []), bl, (mkTx (map mk_in ins) touts).
    split; [exact RF|]. split; [reflexivity|]. split; [unfold extract_tx; cbn [ps_out ps_in]; now rewrite (extract_outputs_all _ _ EX)|]. split.
    - apply (verifies_by_balance (mkTx (map mk_in ins) touts) utxos (all_ss ins SS) (map fsec outs') vdom vcoms cs); try assumption;
        [cbn [t_in]; rewrite map_length; exact (proj2 (Forall3_length _ _ _ _ INS))| |intro b; now rewrite AT].
      (* G: the parties' inputs are all inputs, and what they took in is what was blinded *)
      rewrite (zsum_all_ss _ _ _ INS), <- (zsum_perm _ _ (Permutation_map svb PERM)), <- Isum_total.
      apply eqn_zsum. rewrite GB, <- (Osum_all all outs' ND PD OUT (conj LF (conj PW GB))), map_map.
      unfold eqn. do 2 f_equal. clear -FR. induction FR as [|o0 o a b R F IH]; cbn [map]; [reflexivity|]. now rewrite IH, (svb_fsec all o0 o R).
    - split; [exact LF|]. split; [cbn [t_out]; congruence|].
      intros j o0 rsk N0 K. destruct (Forall2_nth_error _ _ _ FR j o0 N0) as (o & N & [[(KE & _) _]|(P & IP & BF)]); [congruence|].
      destruct (Forall2_nth_error _ _ _ EX j o N) as (tj & NT & EXj).
      destruct (blinded_form_sound pubk ecdh _ o0 o rsk BF K SYM) as (FB & (t & s & EXt & UB & A & V & OA & OV) & PR).
      rewrite EXj in EXt. injection EXt as <-. exists o, tj, s. cbn [ps_out t_out]. repeat split; assumption.
  Qed.
End Flow.

Lemma flow_ok_perm ins SS outs0 l sigma L : Permutation sigma l -> flow_ok ins SS outs0 l L -> flow_ok ins SS outs0 sigma L.
Proof.
  intros PM (OKs & OKL & ND & PD & OUT & PERM & BAL).
  assert (PA : Permutation (sigma ++ [L]) (l ++ [L])) by (apply Permutation_app_tail; exact PM).
  split; [intros P IP; apply OKs; eapply Permutation_in; eassumption|]. split; [exact OKL|].
  split; [eapply Permutation_NoDup; [apply Permutation_sym; exact PA|exact ND]|].
  split; [intros P Q IP IQ; apply PD; eapply Permutation_in; eassumption|].
  split; [|split; [|exact BAL]].
  - unfold outputs_assigned in *. rewrite Forall_forall in *. intros o I. destruct (OUT o I) as [E|(P & IP & OB)]; [now left|right].
    exists P. split; [|exact OB]. eapply Permutation_in; [apply Permutation_sym; exact PA|exact IP].
  - eapply Permutation_trans; [|exact PERM]. apply Permutation_flat_map. exact PA.
Qed.

(* a surjection domain larger than Asset::blind accepts: a non-last blinder with something to blind is refused at its first output *)
Lemma non_last_over_limit pubk ecdh p ins SS utxos : Forall3 in_ok ins SS utxos -> issuances_unblinded ins ->
  (CT_SURJECTIONPROOF_MAX_N_INPUTS < N.of_nat (length (all_ss ins SS)))%N ->
  forall ps sec rnd, ps_in ps = ins -> sec_ok SS sec -> indices_ok (length ins) (ps_out ps) ->
  (forall i, In i (owned_idx sec (ps_out ps) 0) -> exists o, nth_error (ps_out ps) i = Some o /\ pgood (party_tg ins sec) o) ->
  (3 <= length rnd)%nat ->
  forall i0 rest, owned_idx sec (ps_out ps) 0 = i0 :: rest ->
  blind_non_last pubk ecdh p ps sec rnd = OFail (PConfidentialTxOutError i0 BCannotProveSurjection).
Proof.
  intros INS ISS OV ps sec rnd EI OK IO G RL i0 rest EIDX.
  unfold blind_non_last. rewrite blind_checks_ok, EI, EIDX by (rewrite EI; assumption). cbn [obind].
  destruct (party_targets ins SS utxos INS sec OK) as (sis & SI & ST & _ & _). rewrite SI. cbn [obind blind_each].
  destruct (G i0) as (o & NE & (a & v & rk & A & V & K & R & (ad & AD) & H & AC & VC)); [rewrite EIDX; now left|].
  unfold blind_one. rewrite NE, K. cbn [opt_err obind].
  unfold to_non_last_confidential, to_txout. rewrite AC, VC, A, V. cbn [o_value o_asset o_script].
  rewrite (address_spk_ok p _ ad AD). cbn [obind]. unfold new_not_last_confidential.
  destruct rnd as [|x1 [|x2 [|x3 rnd']]]; cbn [length] in RL; try lia. cbn [draw obind].
  rewrite (wts_over_limit pubk ecdh _ _ _ _ sis _ ST); [reflexivity|].
  rewrite (party_tg_length ins SS utxos INS sec OK). exact OV.
Qed.

From Coq Require Import List Arith NArith ZArith Bool Lia ZifyN ZifyBool ZifyNat Permutation.
From Coq.Strings Require Import Byte.
From EV Require Import Base.Bytes Gen.Tables Model.Taproot Model.Huffman Proofs.Taproot.
Import ListNotations.
Ltac Zify.zify_post_hook ::= Z.div_mod_to_equations.

Section GEN.
Variable X : Type.
Variable xcmp : X -> X -> comparison.
Variable xcomb : X -> X -> res berr X.
Notation entry_cmp := (entry_cmp X xcmp).
Notation pop_max := (pop_max X xcmp).
Notation huff_loop := (huff_loop X xcmp xcomb).

(* the tuple order looks at the weights first, reversed *)
Lemma entry_cmp_weight a b : match entry_cmp a b with Lt => fst b <= fst a | _ => fst a <= fst b end%N.
Proof. unfold Huffman.entry_cmp. destruct (N.compare_spec (fst b) (fst a)); [destruct (xcmp _ _)|..]; lia. Qed.
Lemma pop_max_spec : forall l x m rest, pop_max x l = (m, rest) ->
  Permutation (x :: l) (m :: rest) /\ (forall y, In y (x :: l) -> (fst m <= fst y)%N).
Proof. induction l as [|y r IH]; intros x m rest E; cbn [Huffman.pop_max] in E.
  - injection E as <- <-. split; [reflexivity|]. intros y [<-|[]]. lia.
  - destruct (pop_max y r) as [m' rest'] eqn:P. destruct (IH y m' rest' P) as [Pm Min].
    pose proof (entry_cmp_weight x m') as W. destruct (entry_cmp x m'); injection E as <- <-.
    1,3: split; [reflexivity|intros z [<-|Hz]; [lia|specialize (Min z Hz); lia]].
    split; [rewrite Pm; apply perm_swap|]. intros z [<-|Hz]; [lia|apply Min, Hz]. Qed.

Definition two_lightest (e1 e2 : N * X) (r : list (N * X)) : Prop := (fst e1 <= fst e2)%N /\ forall y, In y r -> (fst e2 <= fst y)%N.
(* one round of the loop on a heap of at least two: the two lightest entries come off, in order *)
Lemma huff_loop_round f a b r : exists e1 e2 h2,
  Permutation (a :: b :: r) (e1 :: e2 :: h2) /\ two_lightest e1 e2 h2 /\
  huff_loop (S f) (a :: b :: r) =
  match xcomb (snd e1) (snd e2) with Ok c => huff_loop f ((sat_add (fst e1) (fst e2), c) :: h2) | Err e => Fail e end.
Proof. cbn [Huffman.huff_loop]. destruct (pop_max a (b :: r)) as [e1 h1] eqn:P1. destruct (pop_max_spec _ _ _ _ P1) as [Pm1 Min1].
  destruct h1 as [|y r1]; [apply Permutation_length in Pm1; discriminate|].
  destruct (pop_max y r1) as [e2 h2] eqn:P2. destruct (pop_max_spec _ _ _ _ P2) as [Pm2 Min2].
  exists e1, e2, h2. split; [exact (perm_trans Pm1 (perm_skip e1 Pm2))|]. symmetry in Pm1, Pm2. split; [split|reflexivity].
  - apply Min1, (Permutation_in _ Pm1). right. apply (Permutation_in _ Pm2). now left.
  - intros z Hz. apply Min2, (Permutation_in _ Pm2). now right. Qed.

(* invariant rule for the merge loop: I is stable under rearrangement and under one merge of the two lightest.  The loop then
   never runs out of fuel, none of its `expect`s can fire, and it stops on a single entry or at a pair that does not combine,
   with I still true *)
Section IND.
Variable I : list (N * X) -> Prop.
Hypothesis I_perm : forall h h', Permutation h h' -> I h -> I h'.
Hypothesis I_step : forall e1 e2 r c, I (e1 :: e2 :: r) -> two_lightest e1 e2 r ->
  xcomb (snd e1) (snd e2) = Ok c -> I ((sat_add (fst e1) (fst e2), c) :: r).
Definition rule_outcome (o : outcome X) : Prop :=
  (exists w x, o = Val x /\ I [(w, x)]) \/
  (exists e e1 e2 r, o = Fail e /\ I (e1 :: e2 :: r) /\ xcomb (snd e1) (snd e2) = Err e).
Lemma huff_loop_rule : forall fuel h, I h -> h <> [] -> (length h <= S fuel)%nat -> rule_outcome (huff_loop fuel h).
Proof. induction fuel as [|f IH]; intros h Ih N L; destruct h as [|[w x] [|b r]]; try congruence.
  1,3: left; exists w, x; split; [reflexivity|assumption].
  1: cbn in L; lia.
  destruct (huff_loop_round f (w, x) b r) as (e1 & e2 & h2 & Pm & L2 & ->). apply (I_perm _ _ Pm) in Ih.
  destruct (xcomb (snd e1) (snd e2)) as [c|e] eqn:C; [|right; eauto 8].
  apply IH; [now apply I_step|discriminate|]. apply Permutation_length in Pm. cbn [length] in *. lia. Qed.
Lemma huffman_rule h : I h -> h <> [] -> rule_outcome (huffman X xcmp xcomb h).
Proof. intros Ih N. unfold huffman. destruct h; [congruence|]. apply huff_loop_rule; [assumption..|lia]. Qed.
End IND.
End GEN.
Arguments two_lightest {X}.

Section ASTREE.
Variables Hleaf Hbranch : bytes -> bytes.
Notation combine := (combine Hbranch).
Notation node_of := (node_of Hleaf Hbranch).
Notation leaf_paths := (leaf_paths Hleaf Hbranch).
Fixpoint no_hidden (t : tree) : Prop := match t with Leaf _ _ => True | Hidden _ => False | Node a b => no_hidden a /\ no_hidden b end.
Lemma deepest_leaf t : no_hidden t -> exists l, In l (n_leaves (node_of t)) /\ length (l_branch l) = height t.
Proof. induction t as [s v|h|a IHa b IHb]; cbn [no_hidden Taproot.node_of height]; intros N.
  - eexists. split; [left; reflexivity|reflexivity].
  - destruct N.
  - destruct N as [Na Nb]. destruct (IHa Na) as (la & Ia & Ea). destruct (IHb Nb) as (lb & Ib & Eb).
    unfold combine_tot. cbn [n_leaves]. destruct (Nat.max_spec (height a) (height b)) as [[_ ->]|[_ ->]].
    + exists (snoc (n_hash (node_of a)) lb). split; [apply in_or_app; right; now apply in_map|]. cbn [snoc l_branch]. rewrite app_length. cbn [length]. lia.
    + exists (snoc (n_hash (node_of b)) la). split; [apply in_or_app; left; now apply in_map|]. cbn [snoc l_branch]. rewrite app_length. cbn [length]. lia. Qed.
Lemma height_lt_leaves t : no_hidden t -> (height t < length (leaf_paths t))%nat.
Proof. induction t as [s v|h|a IHa b IHb]; cbn [no_hidden Taproot.leaf_paths height length]; [lia|tauto|].
  intros [Na Nb]. specialize (IHa Na). specialize (IHb Nb). rewrite app_length, !map_length. lia. Qed.

Definition tree_inv (h : list (N * node)) : Prop :=
  Forall (fun e => exists t, snd e = node_of t /\ no_hidden t /\ (height t <= MAXD)%nat) h.
Lemma tree_perm h h' : Permutation h h' -> tree_inv h -> tree_inv h'.
Proof. intros P. apply Permutation_Forall, P. Qed.
(* two hidden-free trees that combine make a tree of height <= MAXD: a deepest leaf of either has room for one more hash *)
Lemma tree_step e1 e2 r c : tree_inv (e1 :: e2 :: r) -> combine (snd e1) (snd e2) = Ok c -> tree_inv ((sat_add (fst e1) (fst e2), c) :: r).
Proof. intros F E. inversion F as [|? ? (t1 & E1 & N1 & H1) F']; subst. inversion F' as [|? ? (t2 & E2 & N2 & H2) Fr]; subst.
  constructor; [|assumption]. cbn [snd]. rewrite E1, E2 in E. apply combine_ok in E as [-> B]. exists (Node t1 t2). split; [reflexivity|]. split; [cbn; auto|].
  apply Forall_app in B as [B1 B2]. rewrite Forall_forall in B1, B2.
  destruct (deepest_leaf t1 N1) as (l1 & I1 & L1). destruct (deepest_leaf t2 N2) as (l2 & I2 & L2).
  specialize (B1 l1 I1). specialize (B2 l2 I2). cbn [height]. lia. Qed.

Definition keys (n : node) : list (bytes * byte) := map (fun l => (l_script l, l_ver l)) (n_leaves n).
Definition allkeys (h : list (N * node)) : list (bytes * byte) := flat_map (fun e => keys (snd e)) h.
Definition huff_inv (inputs : list (bytes * byte)) (h : list (N * node)) : Prop := tree_inv h /\ Permutation (allkeys h) inputs.
Lemma huff_inv_perm inputs h h' : Permutation h h' -> huff_inv inputs h -> huff_inv inputs h'.
Proof. intros P [T K]. split; [exact (tree_perm _ _ P T)|]. rewrite <- K. symmetry. now apply Permutation_flat_map. Qed.
Lemma huff_inv_step inputs e1 e2 r c : huff_inv inputs (e1 :: e2 :: r) -> combine (snd e1) (snd e2) = Ok c ->
  huff_inv inputs ((sat_add (fst e1) (fst e2), c) :: r).
Proof. intros [T K] E. split; [exact (tree_step _ _ _ _ T E)|]. rewrite <- K. unfold allkeys. cbn [flat_map snd].
  apply combine_ok in E as [-> _]. unfold keys, combine_tot. cbn [n_leaves]. now rewrite map_app, !map_map, <- app_assoc. Qed.
Definition leaf_entry (ws : N * bytes) : N * node := (fst ws, new_leaf Hleaf (snd ws) default_ver).
Lemma huff_inv_init ws : huff_inv (map (fun ws => (snd ws, default_ver)) ws) (map leaf_entry ws).
Proof. split.
  - apply Forall_forall. intros e He. apply in_map_iff in He as [a [<- _]]. exists (Leaf (snd a) default_ver). cbn. repeat split; auto. lia.
  - induction ws as [|a r IH]; cbn; [reflexivity|]. now apply perm_skip. Qed.

(* with_huffman_tree's node: never a panic; Ok exactly with the builder's node of a hidden-free tree of height <= 128 whose leaves
   are the input scripts (default version); the only refusals are the empty input and a leaf pushed past depth 128 *)
Theorem huff_node_cases ws :
  (exists t, huff_node Hleaf Hbranch ws = Val (node_of t) /\ no_hidden t /\ (height t <= MAXD)%nat /\
             Permutation (keys (node_of t)) (map (fun ws => (snd ws, default_ver)) ws)) \/
  (ws = [] /\ huff_node Hleaf Hbranch ws = Fail IncompleteTree) \/
  (ws <> [] /\ huff_node Hleaf Hbranch ws = Fail (InvalidMerkleTreeDepth (N.of_nat MAXD))).
Proof. destruct ws as [|w0 wr]; [right; left; auto|]. set (ws := w0 :: wr). set (inputs := map _ ws).
  destruct (huffman_rule node node_cmp combine (huff_inv inputs) (huff_inv_perm inputs)
              (fun e1 e2 r c I _ C => huff_inv_step inputs e1 e2 r c I C) (map leaf_entry ws) (huff_inv_init ws))
    as [(w & n & E & T & K)|(e & e1 & e2 & r & E & [T _] & C)]; [discriminate| |].
  - left. inversion T as [|? ? (t & En & N & Hh) _]; subst. cbn [snd] in En. subst n. exists t. unfold allkeys in K. cbn [flat_map snd] in K. rewrite app_nil_r in K. auto.
  - right. right. split; [discriminate|]. unfold huff_node. fold leaf_entry. rewrite E. f_equal.
    inversion T as [|? ? (t1 & E1 & _ & H1) T']; subst. inversion T' as [|? ? (t2 & E2 & _ & H2) _]; subst. rewrite E1, E2 in C.
    exact (combine_node_of_err Hleaf Hbranch t1 t2 e H1 H2 C). Qed.
End ASTREE.

Section SPEND.
Variables Hleaf Hbranch Htweak : bytes -> bytes.
Variable scalar_ok : bytes -> bool.
Variable tweak : bytes -> bytes -> option (bytes * bool).
(* with_huffman_tree is the builder's result on the depth-first walk of a hidden-free tree whose leaves are exactly the inputs:
   every control-block theorem of the builder applies to it *)
Theorem with_huffman_is_build P ws i : with_huffman_tree Hleaf Hbranch Htweak scalar_ok tweak P ws = Val i ->
  exists t, no_hidden t /\ (height t <= MAXD)%nat /\ build Hleaf Hbranch Htweak scalar_ok tweak (dfs t 0) P = Val i /\
            Permutation (map (fun l => (l_script l, l_ver l)) (leaf_paths Hleaf Hbranch t)) (map (fun ws => (snd ws, default_ver)) ws) /\
            Forall (fun l => (length (l_branch l) < length ws)%nat) (leaf_paths Hleaf Hbranch t).
Proof. unfold with_huffman_tree. destruct (huff_node_cases Hleaf Hbranch ws) as [(t & -> & N & Hh & K)|[[_ ->]|[_ ->]]]; try discriminate.
  intros F. unfold keys in K. rewrite node_of_leaves in K. exists t. repeat (split; [assumption|]).
  split; [rewrite build_accepts by assumption; exact F|]. split; [exact K|].
  apply Forall_forall. intros l Hl. apply leaf_path_depth in Hl. pose proof (height_lt_leaves Hleaf Hbranch t N) as Lt.
  apply Permutation_length in K. rewrite !map_length in K. lia. Qed.
(* it never panics inside the Huffman loop, and refuses only the empty list and trees deeper than 128 *)
Theorem with_huffman_outcomes P ws :
  match with_huffman_tree Hleaf Hbranch Htweak scalar_ok tweak P ws with
  | Val _ => ws <> []
  | Fail e => (ws = [] /\ e = IncompleteTree) \/ (ws <> [] /\ e = InvalidMerkleTreeDepth (N.of_nat MAXD))
  | Panic s => s = ScalarRange \/ s = TweakFailed
  end.
Proof. destruct ws as [|w0 wr]; [cbn; auto|]. unfold with_huffman_tree.
  destruct (huff_node_cases Hleaf Hbranch (w0 :: wr)) as [(t & -> & _)|[[D _]|[N ->]]]; [|discriminate|right; split; [discriminate|reflexivity]].
  unfold from_node_info, new_key_spend, tap_tweak. destruct (scalar_ok _); [|auto]. destruct (tweak P _) as [[Q par]|]; [discriminate|auto]. Qed.
End SPEND.

(* Weighted shadow trees and the depth-order argument.
   In a tree built by always merging the two lightest, any two internal nodes are ordered: all children of the earlier one weigh
   at most as much as all children of the later one.  From that and "weight = sum of the children": for ANY two nodes x, y of
   the final tree, weight x < weight y -> depth x >= depth y (induction on the depth of y; the parents are either the same
   node, or strictly ordered by weight again). *)
Inductive wtree := WL (w : N) (sc : bytes) | WN (w : N) (a b : wtree).
Definition wt (T : wtree) : N := match T with WL w _ => w | WN w _ _ => w end.
Fixpoint sums (T : wtree) : Prop := match T with WL _ _ => True | WN w a b => w = (wt a + wt b)%N /\ sums a /\ sums b end.
Record irec := { r_d : nat; r_w : N; r_a : N; r_b : N }.     (* an internal node: depth, weight, weights of its two children *)
Definition bump (r : irec) : irec := {| r_d := S (r_d r); r_w := r_w r; r_a := r_a r; r_b := r_b r |}.
Fixpoint inodes (T : wtree) (d : nat) : list irec :=
  match T with WL _ _ => [] | WN w a b => {| r_d := d; r_w := w; r_a := wt a; r_b := wt b |} :: inodes a (S d) ++ inodes b (S d) end.
Fixpoint nodes (T : wtree) (d : nat) : list (N * nat) :=
  match T with WL w _ => [(w, d)] | WN w a b => (w, d) :: nodes a (S d) ++ nodes b (S d) end.
Fixpoint wleaves (T : wtree) (d : nat) : list (N * bytes * nat) :=
  match T with WL w sc => [(w, sc, d)] | WN _ a b => wleaves a (S d) ++ wleaves b (S d) end.
Definition ord (r1 r2 : irec) : Prop :=
  (N.max (r_a r1) (r_b r1) <= N.min (r_a r2) (r_b r2))%N \/ (N.max (r_a r2) (r_b r2) <= N.min (r_a r1) (r_b r1))%N.
Definition C1d (T : wtree) (d : nat) : Prop := forall r1 r2, In r1 (inodes T d) -> In r2 (inodes T d) -> ord r1 r2 \/ r_d r1 = r_d r2.
Lemma ord_sym r1 r2 : ord r1 r2 -> ord r2 r1. Proof. unfold ord. tauto. Qed.
Lemma ord_bump r1 r2 : ord r1 r2 -> ord (bump r1) (bump r2). Proof. exact (fun H => H). Qed.

Lemma inodes_S T : forall d, inodes T (S d) = map bump (inodes T d).
Proof. induction T as [w sc|w a IHa b IHb]; intros d; cbn [inodes map]; [reflexivity|]. rewrite IHa, IHb, map_app. reflexivity. Qed.
Lemma wleaves_S T : forall d, wleaves T (S d) = map (fun x => (fst x, S (snd x))) (wleaves T d).
Proof. induction T as [w sc|w a IHa b IHb]; intros d; cbn [wleaves map]; [reflexivity|]. rewrite IHa, IHb, map_app. reflexivity. Qed.
Lemma C1d_S T d : C1d T d -> C1d T (S d).
Proof. intros C r1 r2. rewrite inodes_S. intros H1 H2. apply in_map_iff in H1 as [x1 [<- H1]]. apply in_map_iff in H2 as [x2 [<- H2]].
  destruct (C x1 x2 H1 H2) as [O|E]; [left; exact O|right; cbn; congruence]. Qed.

(* the order condition only looks at the two child weights of each internal node, whatever its depth *)
Fixpoint kids (T : wtree) : list (N * N) := match T with WL _ _ => [] | WN _ a b => (wt a, wt b) :: kids a ++ kids b end.
Definition ordk (p q : N * N) : Prop :=
  (N.max (fst p) (snd p) <= N.min (fst q) (snd q))%N \/ (N.max (fst q) (snd q) <= N.min (fst p) (snd p))%N.
Lemma kids_inodes T : forall d, map (fun r => (r_a r, r_b r)) (inodes T d) = kids T.
Proof. induction T as [w sc|w a IHa b IHb]; intros d; cbn [inodes kids map]; [reflexivity|]. now rewrite map_app, IHa, IHb. Qed.
Lemma FOP_map {A B} (f : A -> B) (R : B -> B -> Prop) l : ForallOrdPairs R (map f l) -> ForallOrdPairs (fun x y => R (f x) (f y)) l.
Proof. induction l as [|x l IH]; cbn [map]; intros F; [constructor|]. inversion F as [|? ? Fx F']; subst.
  constructor; [exact (proj1 (Forall_map f (R (f x)) l) Fx)|auto]. Qed.
Lemma FOP_perm {A} (R : A -> A -> Prop) (Rsym : forall x y, R x y -> R y x) l l' :
  Permutation l l' -> ForallOrdPairs R l -> ForallOrdPairs R l'.
Proof. induction 1 as [|x l l' P IH|x y l|l l' l'' P1 IH1 P2 IH2]; intros F.
  - constructor.
  - inversion F; subst. constructor; [eapply Permutation_Forall; eassumption|auto].
  - inversion F as [|? ? Fy F']; subst. inversion F' as [|? ? Fx F'']; subst. inversion Fy; subst.
    constructor; [constructor; [apply Rsym; assumption|assumption]|constructor; assumption].
  - auto. Qed.
Lemma kids_C1d T d : ForallOrdPairs ordk (kids T) -> C1d T d.
Proof. rewrite <- (kids_inodes T d). intros F r1 r2 H1 H2. apply FOP_map in F.
  destruct (ForallOrdPairs_In F _ _ H1 H2) as [->|[O|O]]; [now right|left; exact O|left; apply ord_sym, O]. Qed.

Lemma node_parent T : forall d w e, In (w, e) (nodes T d) ->
  (e = d /\ w = wt T) \/ exists r, In r (inodes T d) /\ S (r_d r) = e /\ (w = r_a r \/ w = r_b r).
Proof. induction T as [w0 sc|w0 a IHa b IHb]; intros d w e H; cbn [nodes inodes wt] in *.
  - destruct H as [H|[]]. inversion H; subst. now left.
  - destruct H as [H|H]; [inversion H; subst; now left|]. right. apply in_app_or in H as [H|H].
    + destruct (IHa _ _ _ H) as [[-> ->]|(r & Hr & R)].
      * eexists. split; [left; reflexivity|]. cbn. auto.
      * exists r. split; [right; apply in_or_app; now left|exact R].
    + destruct (IHb _ _ _ H) as [[-> ->]|(r & Hr & R)].
      * eexists. split; [left; reflexivity|]. cbn. auto.
      * exists r. split; [right; apply in_or_app; now right|exact R]. Qed.
Lemma inode_node T : forall d r, sums T -> In r (inodes T d) -> r_w r = (r_a r + r_b r)%N /\ In (r_w r, r_d r) (nodes T d).
Proof. induction T as [w0 sc|w0 a IHa b IHb]; intros d r Sm H; cbn [nodes inodes sums] in *; [destruct H|].
  destruct Sm as (E & Sa & Sb). destruct H as [<-|H]; [cbn; auto|]. apply in_app_or in H as [H|H].
  - destruct (IHa _ _ Sa H) as [E1 E2]. split; [exact E1|right; apply in_or_app; now left].
  - destruct (IHb _ _ Sb H) as [E1 E2]. split; [exact E1|right; apply in_or_app; now right]. Qed.
Lemma node_le_root T : forall d w e, sums T -> In (w, e) (nodes T d) -> (w <= wt T)%N.
Proof. induction T as [w0 sc|w0 a IHa b IHb]; intros d w e Sm H; cbn [nodes sums wt] in *.
  - destruct H as [H|[]]. inversion H. lia.
  - destruct Sm as (E & Sa & Sb). destruct H as [H|H]; [inversion H; lia|]. apply in_app_or in H as [H|H].
    + specialize (IHa _ _ _ Sa H). lia. + specialize (IHb _ _ _ Sb H). lia. Qed.
Lemma wleaf_node T : forall d x, In x (wleaves T d) -> In (fst (fst x), snd x) (nodes T d).
Proof. induction T as [w0 sc|w0 a IHa b IHb]; intros d x H; cbn [nodes wleaves] in *.
  - destruct H as [<-|[]]. now left.
  - right. apply in_or_app. apply in_app_or in H as [H|H]; [left; now apply IHa|right; now apply IHb]. Qed.

Lemma ord_parents r1 r2 w1 w2 : ord r1 r2 -> w1 = r_a r1 \/ w1 = r_b r1 -> w2 = r_a r2 \/ w2 = r_b r2 -> (w1 < w2)%N ->
  (r_a r1 + r_b r1 < r_a r2 + r_b r2)%N.
Proof. unfold ord. lia. Qed.
Theorem depth_order T : sums T -> C1d T 0 -> forall d2 w1 d1 w2, In (w1, d1) (nodes T 0) -> In (w2, d2) (nodes T 0) -> (w1 < w2)%N -> (d2 <= d1)%nat.
Proof. intros Sm C. induction d2 as [|d2' IH]; intros w1 d1 w2 H1 H2 L; [lia|].
  destruct (node_parent T 0 w1 d1 H1) as [[-> ->]|(r1 & I1 & D1 & K1)].
  - pose proof (node_le_root T 0 w2 (S d2') Sm H2). lia.
  - destruct (node_parent T 0 w2 (S d2') H2) as [[Bad _]|(r2 & I2 & D2 & K2)]; [discriminate|].
    destruct (inode_node T 0 r1 Sm I1) as [E1 N1]. destruct (inode_node T 0 r2 Sm I2) as [E2 N2].
    destruct (C r1 r2 I1 I2) as [O|Ed]; [|lia].
    pose proof (ord_parents r1 r2 w1 w2 O K1 K2 L) as Lw. rewrite <- E1, <- E2 in Lw.
    assert (Dd : r_d r2 = d2') by lia. rewrite Dd in N2. specialize (IH _ _ _ N1 N2 Lw). lia. Qed.

Section HORDER.
Variables Hleaf Hbranch : bytes -> bytes.
Notation combine := (combine Hbranch).
Notation Y := (node * wtree)%type (only parsing).
(* a shadow heap: every entry carries, beside the node, the weighted tree it stands for *)
Definition eT (e : N * Y) : wtree := snd (snd e).
Definition eN (e : N * Y) : node := fst (snd e).
(* the node's leaves are the weighted tree's, script by script and depth by depth *)
Definition Rn (n : node) (T : wtree) : Prop :=
  map (fun l => (l_script l, length (l_branch l))) (n_leaves n) = map (fun x => (snd (fst x), snd x)) (wleaves T 0).
Lemma Rn_combine a b Ta Tb w : Rn a Ta -> Rn b Tb -> Rn (combine_tot Hbranch a b) (WN w Ta Tb).
Proof. unfold Rn, combine_tot. cbn [n_leaves wleaves]. intros Ra Rb.
  assert (D : forall h ls, map (fun l => (l_script l, length (l_branch l))) (map (snoc h) ls) =
                           map (fun p => (fst p, S (snd p))) (map (fun l => (l_script l, length (l_branch l))) ls)).
  { intros h ls. rewrite !map_map. apply map_ext. intros l. cbn [snoc l_script l_branch fst snd]. rewrite app_length, Nat.add_1_r. reflexivity. }
  rewrite !map_app, !D, Ra, Rb, !wleaves_S, !map_map. reflexivity. Qed.
Definition ent_ok (e : N * Y) : Prop := fst e = wt (eT e) /\ sums (eT e) /\ Rn (eN e) (eT e).
Definition allkids (h : list (N * Y)) : list (N * N) := flat_map (fun e => kids (eT e)) h.
(* both children of every internal node made so far weigh at most as much as every entry still in the heap *)
Definition bound (h : list (N * Y)) : Prop := forall p e, In p (allkids h) -> In e h -> (fst p <= fst e)%N /\ (snd p <= fst e)%N.
Definition sumw (h : list (N * Y)) : N := fold_right (fun e s => (fst e + s)%N) 0%N h.
Lemma sumw_perm h h' : Permutation h h' -> sumw h = sumw h'.
Proof. induction 1; unfold sumw in *; cbn [fold_right] in *; lia. Qed.
Definition allwleaves (h : list (N * Y)) : list (N * bytes) := flat_map (fun e => map fst (wleaves (eT e) 0)) h.
Variable total : N.
Variable ws : list (N * bytes).
Hypothesis total_ok : (total <= U64MAX)%N.
Definition INV (h : list (N * Y)) : Prop :=
  Forall ent_ok h /\ bound h /\ ForallOrdPairs ordk (allkids h) /\ sumw h = total /\ Permutation (allwleaves h) ws.

Lemma sumw_in h e : In e h -> (fst e <= sumw h)%N.
Proof. induction h as [|a r IH]; intros []; cbn [sumw fold_right]; [subst; lia|]. specialize (IH H). unfold sumw in IH. lia. Qed.
Lemma INV_perm h h' : Permutation h h' -> INV h -> INV h'.
Proof. intros P (F & B & C & Sw & L). pose proof (Permutation_flat_map (fun e => kids (eT e)) P) as Pk.
  split; [exact (Permutation_Forall P F)|]. split; [|split; [|split]].
  - intros p e Hp He. apply B; eapply Permutation_in; try eassumption; now symmetry.
  - refine (FOP_perm _ _ _ _ Pk C). intros p q [H|H]; [right|left]; exact H.
  - rewrite <- Sw. symmetry. apply sumw_perm, P.
  - rewrite <- L. symmetry. now apply Permutation_flat_map. Qed.

(* merging the two lightest: the new internal node's children are the two roots, which by `bound` weigh at least as much as
   every child made before, so the new node is ordered after all of them; and the merged root weighs at least as much as both *)
Lemma INV_step e1 e2 r cn : INV (e1 :: e2 :: r) -> two_lightest e1 e2 r ->
  combine (eN e1) (eN e2) = Ok cn ->
  INV ((sat_add (fst e1) (fst e2), (cn, WN (wt (eT e1) + wt (eT e2)) (eT e1) (eT e2))) :: r).
Proof. intros (F & B & C & Sw & L) [L12 L2r] E. change (fst e1 + (fst e2 + sumw r) = total)%N in Sw.
  inversion F as [|? ? (W1 & S1 & R1) F']; subst. inversion F' as [|? ? (W2 & S2 & R2) Fr]; subst.
  apply combine_ok in E as [-> _].
  replace (sat_add (fst e1) (fst e2)) with (fst e1 + fst e2)%N by (unfold sat_add; lia).
  set (enew := (_, _)).
  assert (K : allkids (enew :: r) = (fst e1, fst e2) :: allkids (e1 :: e2 :: r))
    by (unfold allkids; cbn [flat_map eT enew snd kids app]; now rewrite W1, W2, <- app_assoc).
  assert (In1 : In e1 (e1 :: e2 :: r)) by now left. assert (In2 : In e2 (e1 :: e2 :: r)) by (right; now left).
  split; [constructor; [|exact Fr]|split; [|split; [|split]]].
  - unfold ent_ok, enew. cbn [fst snd eT eN wt sums]. rewrite <- W1, <- W2. auto using Rn_combine.
  - unfold bound. rewrite K. intros p e Hp He.
    assert (Root : (fst e1 <= fst e)%N /\ (fst e2 <= fst e)%N) by (destruct He as [<-|He]; [cbn [enew fst]|specialize (L2r e He)]; lia).
    destruct Hp as [<-|Hp]; [exact Root|]. destruct (B p e1 Hp In1). lia.
  - rewrite K. constructor; [|exact C]. apply Forall_forall. intros q Hq. right. cbn [fst snd].
    destruct (B q e1 Hq In1), (B q e2 Hq In2). lia.
  - change (fst e1 + fst e2 + sumw r = total)%N. lia.
  - rewrite <- L. unfold allwleaves. cbn [flat_map eT enew snd wleaves]. now rewrite !wleaves_S, map_app, !map_map, <- app_assoc. Qed.

Definition forget (e : N * Y) : N * node := (fst e, eN e).
Definition shadowed (h : list (N * node)) : Prop := exists hs, h = map forget hs /\ INV hs.
Lemma shadowed_perm h h' : Permutation h h' -> shadowed h -> shadowed h'.
Proof. intros P (hs & -> & I). symmetry in P. apply Permutation_map_inv in P as (hs' & -> & P).
  exists hs'. split; [reflexivity|exact (INV_perm _ _ P I)]. Qed.
Lemma shadowed_step e1 e2 r c : shadowed (e1 :: e2 :: r) -> two_lightest e1 e2 r ->
  combine (snd e1) (snd e2) = Ok c -> shadowed ((sat_add (fst e1) (fst e2), c) :: r).
Proof. intros (hs & E & I) [L12 Lr] C. destruct hs as [|y1 [|y2 rs]]; try discriminate. injection E as -> -> ->.
  eexists (_ :: rs). split; [|apply (INV_step y1 y2 rs c I); [split; [exact L12|intros y Hy; exact (Lr _ (in_map forget _ _ Hy))]|exact C]]. reflexivity. Qed.
End HORDER.

Section ORDER_THM.
Variables Hleaf Hbranch : bytes -> bytes.
Definition wsum (ws : list (N * bytes)) : N := fold_right (fun x s => (fst x + s)%N) 0%N ws.
Definition shadow_entry (x : N * bytes) : N * (node * wtree) := (fst x, (new_leaf Hleaf (snd x) default_ver, WL (fst x) (snd x))).

Lemma INV_init ws : INV (wsum ws) ws (map shadow_entry ws).
Proof. assert (K : allkids (map shadow_entry ws) = []) by (induction ws as [|x r IH]; [reflexivity|exact IH]).
  unfold INV, bound. rewrite K. split; [|split; [|split; [|split]]].
  - apply Forall_forall. intros e He. apply in_map_iff in He as [x [<- _]]. repeat split.
  - intros p e [].
  - constructor.
  - clear K. induction ws as [|x r IH]; [reflexivity|]. unfold sumw, wsum in *. cbn. now rewrite IH.
  - unfold allwleaves. clear K. induction ws as [|[w sc] r IH]; cbn; [constructor|]. now apply perm_skip. Qed.

(* Huffman order (full, when the u64 weight sum does not saturate): there is an assignment of the input weights to the leaves of
   the result — a rearrangement wl of the inputs, position by position the leaves of the result with their scripts and depths —
   under which a strictly heavier leaf is never strictly deeper than a lighter one *)
Theorem huff_order ws n : huff_node Hleaf Hbranch ws = Val n -> (wsum ws <= U64MAX)%N ->
  exists wl : list (N * bytes * nat),
    Permutation (map fst wl) ws /\
    map (fun l => (l_script l, length (l_branch l))) (n_leaves n) = map (fun x => (snd (fst x), snd x)) wl /\
    forall x y, In x wl -> In y wl -> (fst (fst y) < fst (fst x))%N -> (snd x <= snd y)%nat.
Proof. intros E Hs. destruct ws as [|w0 wr]; [discriminate|]. set (ws := w0 :: wr) in *.
  assert (I0 : shadowed (wsum ws) ws (map (leaf_entry Hleaf) ws))
    by (exists (map shadow_entry ws); split; [now rewrite map_map|apply INV_init]).
  unfold huff_node in E. fold (leaf_entry Hleaf) in E.
  destruct (huffman_rule _ node_cmp (combine Hbranch) _ (shadowed_perm _ _) (shadowed_step Hbranch _ _ Hs) _ I0 ltac:(discriminate))
    as [(w & n' & En & hs & Eh & F & _ & C & _ & L)|(e & e1 & e2 & r & En & _)]; rewrite En in E; [|discriminate].
  injection E as ->. destruct hs as [|[w' [n' T]] [|? ?]]; try discriminate. injection Eh as _ ->.
  inversion F as [|? ? (_ & Sm & R) _]; subst. unfold allwleaves, allkids in *. cbn [flat_map eT eN fst snd] in *. rewrite app_nil_r in *.
  exists (wleaves T 0). split; [exact L|]. split; [exact R|]. intros a b Ha Hb Lt.
  exact (depth_order T Sm (kids_C1d _ 0 C) (snd a) (fst (fst b)) (snd b) (fst (fst a)) (wleaf_node _ _ _ Hb) (wleaf_node _ _ _ Ha) Lt). Qed.
End ORDER_THM.

Lemma wsum_le m ws : (forall x, In x ws -> (fst x <= m)%N) -> (wsum ws <= N.of_nat (length ws) * m)%N.
Proof. induction ws as [|x r IH]; intros B; cbn [wsum fold_right length]; [lia|].
  pose proof (B x (or_introl eq_refl)) as Bx. pose proof (IH (fun y Hy => B y (or_intror Hy))) as IH'. unfold wsum in IH'. lia. Qed.
(* the Rust inputs are u32 weights: fewer than 2^32 of them cannot saturate the u64 sum *)
Lemma wsum_u32 ws : (forall x, In x ws -> (fst x < 2 ^ 32)%N) -> (N.of_nat (length ws) <= 2 ^ 32)%N -> (wsum ws <= U64MAX)%N.
Proof. intros B L. assert (G : (wsum ws <= N.of_nat (length ws) * (2 ^ 32 - 1))%N) by (apply wsum_le; intros x Hx; specialize (B x Hx); lia).
  unfold U64MAX. change (2 ^ 32)%N with 4294967296%N in *. nia. Qed.

(* C10 — proofs about Model/Totality.v: no Panic outcome on any input (the model follows the repaired library, so no class of inputs is
   excepted), and agreement of the versions written with explicit partial operations with the total models they re-express; where there
   is such a model, panic-freedom is read off the agreement. *)
From Coq Require Import List Arith NArith ZArith Lia Bool ZifyN ZifyBool ZifyNat.
From Coq.Strings Require Import Byte.
From EV Require Import Base.Bytes Base.Codec Gen.Tables Model.Script Model.Taproot Model.Bech32 Model.Tx Model.Alloc Model.Totality
  Proofs.Script Proofs.Taproot Proofs.Alloc.
Import ListNotations.
Ltac Zify.zify_post_hook ::= Z.div_mod_to_equations.
Open Scope N_scope.
Set Default Timeout 60.

Lemma idx_ok {A} (s : list A) i d : (i < length s)%nat -> idx s i = Val (nth i s d).
Proof. intros H. unfold idx. destruct (nth_error s i) eqn:E.
  - now rewrite (nth_error_nth _ _ d E).
  - apply nth_error_None in E. lia. Qed.
Lemma idx_panic {A} (s : list A) i : (length s <= i)%nat -> idx s i = Panic WIndex.
Proof. intros H. unfold idx. apply nth_error_None in H. now rewrite H. Qed.
Lemma slice_ok {A} (s : list A) a b : (a <= b)%nat -> (b <= length s)%nat -> slice s a b = Val (firstn (b - a) (skipn a s)).
Proof. intros H1 H2. unfold slice. destruct (Nat.leb_spec a b); [|lia]. destruct (Nat.leb_spec b (length s)); [|lia]. reflexivity. Qed.
Lemma slice_from_ok {A} (s : list A) a : (a <= length s)%nat -> slice_from s a = Val (skipn a s).
Proof. intros H. unfold slice_from. rewrite slice_ok by lia. f_equal. rewrite firstn_all2; [reflexivity|]. rewrite skipn_length. lia. Qed.
Lemma slice_to_ok {A} (s : list A) b : (b <= length s)%nat -> slice_to s b = Val (firstn b s).
Proof. intros H. unfold slice_to. rewrite slice_ok by lia. now rewrite Nat.sub_0_r. Qed.
Lemma usub_ok a b : (b <= a)%nat -> usub a b = Val (a - b)%nat.
Proof. intros H. unfold usub. destruct (Nat.leb_spec b a); [reflexivity|lia]. Qed.
Lemma usub_panic a b : (a < b)%nat -> usub a b = Panic WSub.
Proof. intros H. unfold usub. destruct (Nat.leb_spec b a); [lia|reflexivity]. Qed.
Lemma bind_no_panic {A B} (o : outcome A) (f : A -> outcome B) w : o <> Panic w -> (forall a, f a <> Panic w) -> bind o f <> Panic w.
Proof. intros Ho Hf. destruct o; cbn [bind]; [apply Hf|discriminate|intros [= ->]; now apply Ho]. Qed.

Lemma key_dec_total maxvec bs : is_panic (fst (key_dec maxvec bs)) = false /\ snd (key_dec maxvec bs) <= maxvec.
Proof. unfold key_dec. destruct (vi_dec bs) as [[n r]|]; [|cbn; lia]. destruct (N.eqb_spec n 0); [cbn; lia|].
  destruct (N.leb_spec 1 n); [|lia]. destruct (N.ltb_spec maxvec (n - 1)); [cbn; lia|]. destruct r as [|t r']; [cbn; lia|].
  destruct (take _ r') as [[k rest]|]; cbn; lia. Qed.
(* the reservation of a successfully decoded key is paid for by its bytes; a failed one costs at most MAX_VEC_SIZE *)
Lemma key_dec_paid maxvec bs t key rest : key_dec maxvec bs = (Val (t, key, rest), snd (key_dec maxvec bs)) -> snd (key_dec maxvec bs) <= len bs.
Proof. unfold key_dec. destruct (vi_dec bs) as [[n r]|] eqn:V; [|discriminate]. destruct (N.eqb_spec n 0); [discriminate|].
  destruct (N.leb_spec 1 n); [|lia]. destruct (N.ltb_spec maxvec (n - 1)); [discriminate|]. destruct r as [|t' r']; [discriminate|].
  destruct (take _ r') as [[k rest']|] eqn:T; [|discriminate]. cbn [snd]. intros _. apply take_spec in T as [-> L].
  pose proof (vi_dec_min _ _ _ V) as M. unfold len in *. cbn [length] in M. rewrite app_length in M. lia. Qed.

Lemma andp_val a b : andp (Val a) (Val b) = Val (a && b). Proof. destruct a; reflexivity. Qed.
Lemma orp_val a b : orp (Val a) (Val b) = Val (a || b). Proof. destruct a; reflexivity. Qed.
Lemma andp_false b : andp (Val false) b = Val false. Proof. reflexivity. Qed.
Lemma at_eq_ok s i v : (i < length s)%nat -> at_eq s i v = Val (at_ s i =? v).
Proof. intros H. unfold at_eq, at_. now rewrite (idx_ok s i x00 H). Qed.
Lemma at_le_ok s i v : (i < length s)%nat -> at_le s i v = Val (at_ s i <=? v).
Proof. intros H. unfold at_le, at_. now rewrite (idx_ok s i x00 H). Qed.
Lemma at_ge_ok s i v : (i < length s)%nat -> at_ge s i v = Val (v <=? at_ s i).
Proof. intros H. unfold at_ge, at_. now rewrite (idx_ok s i x00 H). Qed.

Ltac tmpl := repeat (rewrite at_eq_ok by lia); repeat (rewrite at_le_ok by lia); repeat (rewrite at_ge_ok by lia); repeat rewrite andp_val; repeat rewrite orp_val.
(* `&&` short-circuits: what follows a guard is evaluated, and has to be total, only where the guard holds *)
Lemma andp_guard (g : bool) P b : (g = true -> P = Val b) -> andp (Val g) P = Val (g && b).
Proof. destruct g; cbn; auto. Qed.
Lemma two_bytes_p s n a b :
  andp (lenb s (S (S n))) (andp (at_eq s 0 a) (at_eq s 1 b)) = Val (len_is s (S (S n)) && (at_ s 0 =? a) && (at_ s 1 =? b)).
Proof. rewrite <- andb_assoc. apply andp_guard. intros L%Nat.eqb_eq. tmpl. reflexivity. Qed.
Lemma first_last_p s n a z :
  andp (lenb s (S n)) (andp (at_eq s 0 a) (at_eq s n z)) = Val (len_is s (S n) && (at_ s 0 =? a) && (at_ s n =? z)).
Proof. rewrite <- andb_assoc. apply andp_guard. intros L%Nat.eqb_eq. tmpl. reflexivity. Qed.
Lemma is_p2sh_p_eq s : is_p2sh_p s = Val (is_p2sh s).
Proof. unfold is_p2sh_p, is_p2sh, lenb. rewrite <- !andb_assoc. apply andp_guard. intros L%Nat.eqb_eq. tmpl. reflexivity. Qed.
Lemma is_p2pkh_p_eq s : is_p2pkh_p s = Val (is_p2pkh s).
Proof. unfold is_p2pkh_p, is_p2pkh, lenb. rewrite <- !andb_assoc. apply andp_guard. intros L%Nat.eqb_eq. tmpl. reflexivity. Qed.
Lemma is_p2pk_p_eq s : is_p2pk_p s = Val (is_p2pk s).
Proof. unfold is_p2pk_p, is_p2pk. now rewrite !first_last_p, orp_val. Qed.
Lemma is_v0_p2wsh_p_eq s : is_v0_p2wsh_p s = Val (is_v0_p2wsh s).
Proof. exact (two_bytes_p s 32 _ _). Qed.
Lemma is_v1_p2tr_p_eq s : is_v1_p2tr_p s = Val (is_v1_p2tr s).
Proof. exact (two_bytes_p s 32 _ _). Qed.
Lemma is_v0_p2wpkh_p_eq s : is_v0_p2wpkh_p s = Val (is_v0_p2wpkh s).
Proof. exact (two_bytes_p s 20 _ _). Qed.
Lemma is_op_return_p_eq s : is_op_return_p s = Val (is_op_return s).
Proof. unfold is_op_return_p, is_op_return. apply andp_guard. destruct s; [discriminate|]. intros _. apply at_eq_ok. cbn. lia. Qed.
Lemma is_witness_program_p_eq s : is_witness_program_p s = Val (is_witness_program s).
Proof. unfold is_witness_program_p, is_witness_program, Script.lenN, at_. cbv zeta. rewrite <- !andb_assoc.
  replace (4 <=? N.of_nat (length s)) with (4 <=? length s)%nat by lia. replace (N.of_nat (length s) <=? 42) with (length s <=? 42)%nat by lia.
  apply andp_guard. intros L4. apply andp_guard. intros L42. tmpl. rewrite usub_ok by lia. rewrite (idx_ok s 1 x00) by lia. cbn [bind]. rewrite !andp_val.
  unfold at_. now replace (N.of_nat (length s - 2)) with (N.of_nat (length s) - 2) by lia. Qed.
Lemma is_v1plus_p2witprog_p_eq s : is_v1plus_p2witprog_p s = Val (is_v1plus_p2witprog s).
Proof. unfold is_v1plus_p2witprog_p, is_v1plus_p2witprog, Script.lenN, Totality.lenN, at_. rewrite <- !andb_assoc.
  replace (1 <? N.of_nat (length s)) with (1 <? length s)%nat by lia.
  apply andp_guard. intros L. rewrite (idx_ok s 1 x00) by lia. cbn [bind]. tmpl. reflexivity. Qed.

Lemma read_uint_loop_release items : forall i ret w, read_uint_loop Release items i ret <> Panic w.
Proof. induction items as [|x r IH]; intros i ret w; cbn [read_uint_loop]; [discriminate|].
  destruct (i * 8 <? 64); cbn [bind]; destruct (_ + _ <? 2 ^ 64); cbn [bind]; apply IH. Qed.
Lemma read_uint_loop_small p items : forall i ret, (N.to_nat i + length items <= 8)%nat -> ret < 2 ^ (8 * i) ->
  read_uint_loop p items i ret = Val (ret + 2 ^ (8 * i) * le_val items).
Proof. induction items as [|x r IH]; intros i ret L R; cbn [read_uint_loop le_val]; [f_equal; lia|].
  cbn [length] in L. destruct (N.ltb_spec (i * 8) 64) as [_|]; [|lia].
  assert (P8 : 2 ^ (8 * (i + 1)) = 256 * 2 ^ (8 * i)) by (replace (8 * (i + 1)) with (8 + 8 * i) by lia; rewrite N.pow_add_r; reflexivity).
  assert (Pm : 256 * 2 ^ (8 * i) <= 2 ^ 64). { rewrite <- P8. apply N.pow_le_mono_r; lia. }
  rewrite N.shiftl_mul_pow2. replace (i * 8) with (8 * i) by lia.
  specialize (IH (i + 1) (ret + b2n x * 2 ^ (8 * i))). rewrite P8 in IH.
  (* what remains is linear in P, b2n x * P and P * le_val r *)
  remember (2 ^ (8 * i)) as P.
  assert (Hx : b2n x * P <= 255 * P) by (apply N.mul_le_mono_r; pose proof (b2n_lt x); lia).
  rewrite N.mod_small by lia. cbn [bind]. destruct (N.ltb_spec (ret + b2n x * P) (2 ^ 64)) as [_|]; [|lia]. cbn [bind].
  rewrite IH by lia. f_equal. lia. Qed.
Lemma read_uint_p_small p data size : (size <= 8)%nat ->
  read_uint_p p data size = match Script.read_uint data size with SOk n => Val n | SErr _ => Fail (E "early") end.
Proof. intros H. unfold read_uint_p, Script.read_uint. destruct (Nat.ltb_spec (length data) size); [reflexivity|].
  destruct (Nat.ltb_spec 8 size); [lia|].
  rewrite read_uint_loop_small; [f_equal; cbn; lia| |cbn; lia]. rewrite firstn_length. cbn. lia. Qed.
(* since 6050d64 an oversized `size` is the error NumericOverflow: no shift can overflow any more, in either profile *)
Lemma read_uint_p_total p data size w : read_uint_p p data size <> Panic w.
Proof. destruct (Nat.leb_spec size 8) as [L|L].
  - rewrite read_uint_p_small by lia. destruct (Script.read_uint data size); discriminate.
  - unfold read_uint_p. destruct (_ <? size)%nat; [discriminate|]. destruct (Nat.ltb_spec 8 size); [discriminate|lia]. Qed.
Lemma read_uint_p_oversize p data size : (8 < size)%nat -> (size <= length data)%nat -> read_uint_p p data size = Fail (E "overflow").
Proof. intros L1 L2. unfold read_uint_p. destruct (Nat.ltb_spec (length data) size); [lia|]. destruct (Nat.ltb_spec 8 size); [reflexivity|lia]. Qed.

Lemma from_pegin_witness_total w x : from_pegin_witness w <> Panic x.
Proof. unfold from_pegin_witness. destruct (Nat.eqb_spec (length w) 6) as [L|]; [|discriminate]. cbn [negb].
  rewrite (idx_ok w 5 []) by lia. cbn [bind]. destruct (_ <? 80)%nat; [discriminate|].
  rewrite (idx_ok w 0 []) by lia. cbn [bind]. destruct (negb _); [discriminate|].
  rewrite (idx_ok w 1 []) by lia. cbn [bind]. destruct (negb _); [discriminate|].
  rewrite (idx_ok w 2 []) by lia. cbn [bind]. destruct (negb _); [discriminate|].
  rewrite (idx_ok w 3 []), (idx_ok w 4 []) by lia. discriminate. Qed.

Lemma is_null_data_total s x : is_null_data s <> Panic x.
Proof. unfold is_null_data. pose proof (instructions_clean false s) as F. destruct (instructions false s) as [|i r]; [discriminate|].
  pose proof (F i (or_introl eq_refl)) as Ci. destruct i; try (exfalso; exact Ci); try discriminate. destruct (_ =? _); [|discriminate].
  assert (Fr : forall j, In j r -> Script.clean j) by (intros j Hj; apply F; right; exact Hj). clear F Ci.
  induction r as [|i r IH]; [discriminate|]. specialize (IH (fun j Hj => Fr j (or_intror Hj))). specialize (Fr i (or_introl eq_refl)).
  destruct i; try (exfalso; exact Fr); try discriminate; [exact IH|]. destruct (_ <? _); [discriminate|exact IH]. Qed.
Lemma pegout_data_total v s x : pegout_data v s <> Panic x.
Proof. unfold pegout_data. apply bind_no_panic; [apply is_null_data_total|]. intros nd.
  destruct nd; cbn [negb]; [|discriminate]. destruct v; [|discriminate]. destruct (instructions false s) as [|i rest]; [discriminate|].
  destruct (push_of _); [|discriminate]. destruct (negb _); [discriminate|]. destruct (push_of _); [|discriminate].
  destruct (Script.is_empty _); [discriminate|]. destruct (forallb _ _); discriminate. Qed.

Lemma rangeproof_ok_len p : rangeproof_ok p = true -> (65 <= length p)%nat.
Proof. unfold rangeproof_ok. destruct (Nat.ltb_spec (length p) 65); [discriminate|lia]. Qed.
Lemma minimum_value_conf_total opret p x : (10 <= length p)%nat -> minimum_value_conf opret p <> Panic x.
Proof. intros L. unfold minimum_value_conf. rewrite (idx_ok p 0 x00) by lia. cbn [bind]. destruct (negb _); [discriminate|].
  destruct (N.testbit _ 6).
  - rewrite slice_ok by lia. cbn [bind]. rewrite firstn_length, skipn_length. replace (Nat.min (10 - 2) (length p - 2)) with 8%nat by lia. cbn. discriminate.
  - rewrite slice_ok by lia. cbn [bind]. rewrite firstn_length, skipn_length. replace (Nat.min (9 - 1) (length p - 1)) with 8%nat by lia. cbn. discriminate. Qed.
(* total because the only constructors of a RangeProof admit proofs of at least 65 bytes (Model/Tx.rangeproof_ok) *)
Lemma minimum_value_p_total v opret prf x : (forall p, prf = Some p -> rangeproof_ok p = true) -> minimum_value_p v opret prf <> Panic x.
Proof. intros H. unfold minimum_value_p. destruct v; try discriminate. destruct prf as [p|]; [|discriminate].
  apply minimum_value_conf_total. pose proof (rangeproof_ok_len p (H p eq_refl)). lia. Qed.
(* and it is only that: a 9-byte "proof" with the min-value flag would slice out of range *)
Lemma minimum_value_short_panics : minimum_value_conf false (x60 :: repeat x00 8) = Panic WSlice.
Proof. reflexivity. Qed.

Definition locktime_inv (st : ltk * ltk) : Prop :=
  match st with (Unconstrained, Disallowed) | (Disallowed, Unconstrained) => False | _ => True end.
Lemma locktime_max_min a x : lt_max a (Minimum x) <> Unconstrained. Proof. destruct a; discriminate. Qed.
Lemma locktime_step_inv st inp : locktime_inv st -> locktime_inv (lt_step st inp).
Proof. destruct st as [t h], inp as [[rt|] [rh|]]; cbn [lt_step]; intros I; try exact I.
  - pose proof (locktime_max_min t rt). pose proof (locktime_max_min h rh). destruct (lt_max t (Minimum rt)), (lt_max h (Minimum rh)); cbn; auto.
  - pose proof (locktime_max_min t rt). destruct (lt_max t (Minimum rt)); cbn; auto.
  - pose proof (locktime_max_min h rh). destruct (lt_max h (Minimum rh)); cbn; auto. Qed.
Lemma locktime_fold_inv inputs : forall st, locktime_inv st -> locktime_inv (fold_left lt_step inputs st).
Proof. induction inputs as [|i r IH]; intros st I; [exact I|]. cbn [fold_left]. apply IH, locktime_step_inv, I. Qed.
Lemma locktime_p_total fallback inputs x : locktime_p fallback inputs <> Panic x.
Proof. unfold locktime_p. pose proof (locktime_fold_inv inputs (Unconstrained, Unconstrained) I) as H.
  destruct (fold_left lt_step inputs (Unconstrained, Unconstrained)) as [[| |] [| |]]; cbn in H; try discriminate; contradiction. Qed.

Lemma eqp_spec (a b : list N) : (if list_eq_dec N.eq_dec a b then true else false) = true <-> a = b.
Proof. destruct (list_eq_dec N.eq_dec a b); split; congruence. Qed.
(* both subtractions sit behind their length tests (the second one since 4b01389) *)
Lemma merge_xpub_total f2 d2 f1 d1 w : merge_xpub f2 d2 f1 d1 <> Panic w.
Proof. unfold merge_xpub. destruct (_ && _); [discriminate|].
  destruct (Nat.ltb_spec (length d1) (length d2)).
  - rewrite usub_ok by lia. cbn [bind]. rewrite slice_from_ok by lia. cbn [bind]. destruct (list_eq_dec N.eq_dec d1 _); [discriminate|].
    destruct (Nat.ltb_spec (length d2) (length d1)); [lia|]. cbn [bind]. discriminate.
  - cbn [bind]. destruct (Nat.ltb_spec (length d2) (length d1)); cbn [bind]; [|discriminate].
    rewrite usub_ok by lia. cbn [bind]. rewrite slice_from_ok by lia. cbn [bind]. destruct (list_eq_dec N.eq_dec d2 _); discriminate. Qed.
(* what the repaired branch decides: keep on identical sources or when other's path is a proper suffix of self's, replace when self's is a
   proper suffix of other's, conflict otherwise (in particular equal paths with different fingerprints, formerly F4) *)
Lemma merge_xpub_conflict_equal_paths f2 f1 d : f1 <> f2 -> merge_xpub f2 d f1 d = Fail (E "conflict").
Proof. intros NE. unfold merge_xpub. destruct (list_eq_dec N.eq_dec d d); [|contradiction]. destruct (bytes_eqb_spec f1 f2); [contradiction|]. cbn [andb].
  rewrite Nat.ltb_irrefl. cbn [bind]. reflexivity. Qed.

Lemma blind_loop_last : forall outs i n nb last bl r li, blind_loop outs i n nb last bl = Val r -> fst r = Some li ->
  last = Some li \/ (i <= li < i + length outs)%nat.
Proof. induction outs as [|o rest IH]; intros i n nb last bl r li H Hl; cbn [blind_loop length] in *.
  - inversion H; subst r. left. exact Hl.
  - destruct (bo_fee o || negb (bo_marked o)).
    { destruct (IH _ _ _ _ _ _ _ H Hl) as [Z|Z]; [left; exact Z|right; lia]. }
    destruct (negb (bo_addr o)); [discriminate|]. destruct (_ <? _)%nat.
    + destruct (IH _ _ _ _ _ _ _ H Hl) as [Z|Z]; [left; exact Z|right; lia].
    + destruct (IH _ _ _ _ _ _ _ H Hl) as [Z|Z]; [inversion Z|]; right; lia. Qed.
Lemma blind_loop_no_panic : forall outs i n nb last bl w, blind_loop outs i n nb last bl <> Panic w.
Proof. induction outs as [|o r IH]; intros i n nb last bl w; cbn [blind_loop]; [discriminate|].
  destruct (bo_fee o || negb (bo_marked o)); [apply IH|]. destruct (negb (bo_addr o)); [discriminate|]. destruct (_ <? _)%nat; apply IH. Qed.
(* since 8d5600e an empty selection is the error TooFewBlindingOutputs; the index of the last marked output is in range *)
Lemma blind_select_total outs w : blind_select outs <> Panic w.
Proof. unfold blind_select. intros H.
  destruct (blind_loop outs 0 _ 0 None []) as [[last bl]|e|w'] eqn:L; cbn [bind] in H; [|discriminate|exact (blind_loop_no_panic _ _ _ _ _ _ _ L)].
  destruct last as [li|]; cbn [bind] in H; [|discriminate].
  destruct (blind_loop_last _ _ _ _ _ _ _ li L eq_refl) as [Z|Z]; [discriminate|].
  rewrite (idx_ok outs li {| bo_fee := false; bo_marked := false; bo_addr := false |}) in H by lia. discriminate. Qed.
Lemma blind_select_nothing_marked : blind_select [ {| bo_fee := true; bo_marked := false; bo_addr := false |} ] = Fail (E "toofew"). Proof. reflexivity. Qed.

(* the saturating sum is the true sum capped at u64::MAX: exact below 2^64, and monotone, so comparing it with any threshold below
   u64::MAX answers as the true sum would *)
Lemma fee_sum_spec vals : forall acc, acc <= U64_MAX -> fee_sum vals acc = N.min (acc + fold_right N.add 0 vals) U64_MAX.
Proof. induction vals as [|v r IH]; intros acc H; cbn [fee_sum fold_right].
  - rewrite N.add_0_r. symmetry. apply N.min_l. exact H.
  - rewrite IH by (unfold sat_add; apply N.le_min_r). unfold sat_add. unfold U64_MAX in *. lia. Qed.
Lemma fee_in_spec outs asset : fee_in outs asset = Val (N.min (fold_right N.add 0 (map snd (filter (fun o => fst o =? asset) outs))) U64_MAX).
Proof. unfold fee_in. rewrite fee_sum_spec by (unfold U64_MAX; lia). reflexivity. Qed.

Lemma from_commitment_p_total pt_ok sl w : from_commitment_p pt_ok sl <> Panic w.
Proof. unfold from_commitment_p, read33. destruct (Nat.eqb (length sl) 33); discriminate. Qed.
(* the length test added by 838e50c is what this rests on: the hand-over without it reads out of bounds on every other length *)
Lemma read33_oob pt_ok sl : (exists w, read33 pt_ok sl = Panic w) <-> length sl <> 33%nat.
Proof. unfold read33. destruct (Nat.eqb_spec (length sl) 33); split; try congruence; eauto. intros [w H]; discriminate. Qed.

(* since c723f02 finalize has no panic left, whatever the state — API-built or produced by serde *)
Lemma finalize_p_total b s : finalize_p b <> Taproot.Panic s.
Proof. unfold finalize_p, Taproot.finalize. destruct (1 <? _)%nat; [discriminate|]. destruct b as [|[n|] r]; try discriminate;
  unfold from_node_info, new_key_spend, tap_tweak; cbn; discriminate. Qed.
Lemma finalize_p_serde : finalize_p [None] = Taproot.Fail IncompleteTree. Proof. reflexivity. Qed.

(* Once check_characters has passed, every data character is a bech32 character; on such data each step written with partial
   operations equals its total counterpart of Model/Bech32.v over the symbols `symsl d`, so that no step panics is read off the equations,
   and SegwitHrpstring::new is Bech32.segwit_decode under the blech32 configuration (the function C06/C17 are about). *)
Definition validc (c : byte) : bool := match from_char c with Some _ => true | None => false end.
Definition hpanic {A} (r : hres A) : bool := match r with HPanic _ => true | _ => false end.
Lemma hpanic_of_res {A} (r : Bech32.res A) : hpanic (of_res r) = false.
Proof. destruct r; reflexivity. Qed.
Lemma hbind_assoc {A B C} (a : hres A) (f : A -> hres B) (g : B -> hres C) : hbind (hbind a f) g = hbind a (fun x => hbind (f x) g).
Proof. destruct a; reflexivity. Qed.

Lemma unchecked_valid s h d : Bech32.unchecked_new s = Bech32.Ok (h, d) -> forallb validc d = true.
Proof. unfold Bech32.unchecked_new, Bech32.check_characters. fold validc. destruct (rsplit x31 s) as [[h' d']|].
  - destruct (forallb validc d') eqn:F; cbn [negb]; [|discriminate]. destruct (_ && _); [discriminate|]. destruct (hrp_parse h') as [[]|]; [|discriminate].
    intros H; inversion H; subst. exact F.
  - destruct (negb _); [discriminate|]. destruct (_ && _); discriminate. Qed.
Lemma unchecked_new_p_spec s : unchecked_new_p s = of_res (Bech32.unchecked_new s).
Proof. unfold unchecked_new_p, Bech32.unchecked_new. destruct (Bech32.check_characters s) as [[h d]|e]; cbn [of_res hbind]; [|reflexivity].
  rewrite slice_from_ok by (cbn; lia). cbn [skipn of_outcome hbind]. destruct (hrp_parse h) as [[]|e]; reflexivity. Qed.

Definition symsl (d : bytes) : list N := map (fun c => match from_char c with Some v => v | None => 0 end) d.
Lemma syms_p_valid d : forallb validc d = true -> syms_p d = HOk (symsl d).
Proof. induction d as [|c r IH]; cbn [forallb syms_p symsl map]; [reflexivity|]. unfold validc at 1. intros H. apply andb_true_iff in H as [Hc Hr].
  destruct (from_char c); [|discriminate]. fold (symsl r). now rewrite (IH Hr). Qed.
Lemma syms_of_valid d : forallb validc d = true -> syms_of d = Some (symsl d).
Proof. unfold syms_of. induction d as [|c r IH]; cbn [forallb map Bech32.all_some symsl]; [reflexivity|]. unfold validc at 1. intros H. apply andb_true_iff in H as [Hc Hr].
  destruct (from_char c); [|discriminate]. fold (symsl r). now rewrite (IH Hr). Qed.
Lemma symsl_length d : length (symsl d) = length d. Proof. apply map_length. Qed.
Lemma symsl_firstn n d : symsl (firstn n d) = firstn n (symsl d). Proof. unfold symsl. now rewrite firstn_map. Qed.
Lemma forallb_skipn {A} (p : A -> bool) n l : forallb p l = true -> forallb p (skipn n l) = true.
Proof. revert n; induction l as [|a r IH]; intros [|n]; cbn; auto. intros H. apply andb_true_iff in H as [_ H]. now apply IH. Qed.

(* validate_checksum then remove_checksum: the subtraction and the slice are behind the length test of the former *)
Lemma checksum_steps c slen h d : forallb validc d = true ->
  hbind (validate_checksum_p c h d) (fun _ => remove_checksum_p c d) =
  of_res (match validate_checksum cfg_blech c slen h (symsl d) with
          | Bech32.Ok _ => Bech32.Ok (firstn (length d - c_len c) d) | Bech32.Err e => Bech32.Err e end).
Proof. intros V. unfold validate_checksum_p, remove_checksum_p, validate_checksum. cbn [cfg_blech sw_code_length]. rewrite symsl_length.
  destruct (Nat.eqb_spec (c_len c) 0) as [Z|NZ].
  - cbn [hbind]. rewrite Z, usub_ok by lia. cbn [of_outcome hbind]. now rewrite slice_to_ok by lia.
  - destruct (Nat.ltb_spec (length d) (c_len c)); [reflexivity|]. rewrite (syms_p_valid d V). cbn [hbind].
    destruct (valid_codeword _ _); cbn [negb hbind]; [|reflexivity]. rewrite usub_ok by lia. cbn [of_outcome hbind]. now rewrite slice_to_ok by lia. Qed.
Lemma checked_no_panic c s : hpanic (checked_new_p c s) = false.
Proof. unfold checked_new_p. rewrite unchecked_new_p_spec. destruct (Bech32.unchecked_new s) as [[h d]|e] eqn:U; cbn [of_res hbind]; [|reflexivity].
  rewrite <- hbind_assoc, (checksum_steps c 0 h d (unchecked_valid _ _ _ U)). destruct (validate_checksum _ _ _ _ _); reflexivity. Qed.

Lemma pos_ltb x : (0 <? x) = negb (x =? 0). Proof. destruct x; reflexivity. Qed.
(* the five padding lengths test the low `pad` bits of the last symbol; a sixth cannot occur *)
Lemma pad_mask l pad : (pad <= 4)%nat ->
  match pad with
  | 0%nat => HOk false | 1%nat => HOk (0 <? N.land l 1) | 2%nat => HOk (0 <? N.land l 3)
  | 3%nat => HOk (0 <? N.land l 7) | 4%nat => HOk (0 <? N.land l 15)
  | _ => HPanic WUnreachable end = HOk (negb (N.land l (N.ones (N.of_nat pad)) =? 0)).
Proof. intros P. destruct pad as [|[|[|[|[|p]]]]]; [change (N.ones (N.of_nat 0)) with 0; now rewrite N.land_0_r| | | | |lia]; apply (f_equal HOk), pos_ltb. Qed.
Lemma validate_padding_p_spec d : forallb validc d = true -> validate_padding_p d = of_res (validate_padding (symsl d)).
Proof. intros V. unfold validate_padding_p, validate_padding. destruct d as [|c r]; [reflexivity|]. set (d := c :: r) in *.
  rewrite (syms_p_valid d V), symsl_length. destruct (symsl d) as [|v t] eqn:Es; [discriminate Es|]. rewrite <- Es.
  destruct (Nat.ltb_spec 4 (length d * 5 mod 8)) as [|P]; [reflexivity|]. cbn [hbind]. rewrite Es at 1. cbn [expect of_outcome hbind].
  rewrite pad_mask by exact P. cbn [hbind]. destruct (negb _); reflexivity. Qed.
Lemma validate_padding_no_panic d : forallb validc d = true -> hpanic (validate_padding_p d) = false.
Proof. intros V. rewrite (validate_padding_p_spec d V). apply hpanic_of_res. Qed.
Lemma validate_wpl_p_spec ver d : validate_wpl_p ver d = of_res (validate_wpl cfg_blech ver (symsl d)).
Proof. unfold validate_wpl_p, validate_wpl. cbn [cfg_blech sw_len_min sw_len_max sw_len_v0_a sw_len_v0_b]. rewrite symsl_length.
  destruct (_ <? _)%nat; [reflexivity|]. destruct (_ <? _)%nat; [reflexivity|]. destruct (_ && _); reflexivity. Qed.
Lemma data_bytes_valid d : forallb validc d = true -> data_bytes d = fes_to_bytes (symsl d).
Proof. intros V. unfold data_bytes. now rewrite (syms_of_valid d V). Qed.

(* `data[0]` and `Fe32::from_char(..).expect(..)` on non-empty checked data yield its first symbol *)
Lemma head_sym {B} c r (k : N -> hres B) : forallb validc (c :: r) = true ->
  hbind (of_outcome (idx (c :: r) 0)) (fun c0 => hbind (of_outcome (expect (from_char c0))) k) = k (hd 0 (symsl (c :: r))).
Proof. cbn [forallb]. unfold validc at 1. intros V. cbn [idx nth_error of_outcome hbind symsl map hd]. destruct (from_char c); [reflexivity|discriminate]. Qed.

Lemma segwit_front_spec s :
  segwit_front s = of_res (match Bech32.unchecked_new s with
                           | Bech32.Err e => Bech32.Err e
                           | Bech32.Ok (h, d) => match symsl d with
                                                 | [] => Bech32.Err ENoData
                                                 | ver :: _ => if BLECH_MAX_WITNESS_VERSION <? ver then Bech32.Err EWitVer else Bech32.Ok (h, d, ver) end end).
Proof. unfold segwit_front. rewrite unchecked_new_p_spec. destruct (Bech32.unchecked_new s) as [[h d]|e] eqn:U; cbn [of_res hbind]; [|reflexivity].
  pose proof (unchecked_valid _ _ _ U) as V. destruct d as [|c r]; [reflexivity|]. cbn [Script.is_empty]. rewrite (head_sym c r _ V).
  cbn [symsl map hd]. destruct (_ <? _); reflexivity. Qed.
Lemma validate_segwit_p_spec h d : forallb validc d = true ->
  validate_segwit_p h d = match d with
                          | [] => HErr ENoData
                          | _ :: r => of_res (match validate_padding (symsl r) with
                                              | Bech32.Err e => Bech32.Err e
                                              | Bech32.Ok _ => match validate_wpl cfg_blech (hd 0 (symsl d)) (symsl r) with
                                                               | Bech32.Err e => Bech32.Err e | Bech32.Ok _ => Bech32.Ok (h, hd 0 (symsl d), r) end end) end.
Proof. intros V. unfold validate_segwit_p. destruct d as [|c r]; [reflexivity|]. rewrite (head_sym c r _ V).
  rewrite slice_from_ok by (cbn; lia). cbn [skipn of_outcome hbind]. cbn [forallb] in V. apply andb_true_iff in V as [_ Vr].
  rewrite (validate_padding_p_spec r Vr). destruct (validate_padding (symsl r)) as [[]|e]; cbn [of_res hbind]; [|reflexivity].
  rewrite validate_wpl_p_spec. destruct (validate_wpl _ _ _) as [[]|e]; reflexivity. Qed.

(* after the front part, everything is guarded: whichever code the version selects *)
Lemma segwit_tail_no_panic c h d : forallb validc d = true ->
  hpanic (hbind (validate_checksum_p c h d) (fun _ => hbind (remove_checksum_p c d) (fun d' => validate_segwit_p h d'))) = false.
Proof. intros V. rewrite <- hbind_assoc, (checksum_steps c 0 h d V). destruct (validate_checksum _ _ _ _ _); cbn [of_res hbind]; [|reflexivity].
  rewrite validate_segwit_p_spec by (apply forallb_firstn, V). destruct (firstn _ d); [reflexivity|apply hpanic_of_res]. Qed.
Lemma segwit_any_code_no_panic (code : N -> code) s :
  hpanic (hbind (segwit_front s) (fun '(h, d, ver) =>
          hbind (validate_checksum_p (code ver) h d) (fun _ => hbind (remove_checksum_p (code ver) d) (fun d' => validate_segwit_p h d')))) = false.
Proof. rewrite segwit_front_spec. destruct (Bech32.unchecked_new s) as [[h d]|e] eqn:U; [|reflexivity]. pose proof (unchecked_valid _ _ _ U) as V.
  destruct (symsl d) as [|ver t]; [reflexivity|]. destruct (_ <? ver); [reflexivity|]. now apply segwit_tail_no_panic. Qed.
Lemma segwit_new_no_panic s : hpanic (segwit_new_p s) = false.
Proof. exact (segwit_any_code_no_panic (fun ver => if ver =? 0 then blech_code BLECH_V0_CODE else blech_code BLECH_V1PLUS_CODE) s). Qed.
(* since a4bc64e new_bech32 has the same guard *)
Lemma segwit_new_bech32_no_panic s : hpanic (segwit_new_bech32_p s) = false.
Proof. exact (segwit_any_code_no_panic (fun _ => blech32) s). Qed.
Lemma segwit_new_bech32_empty_data : segwit_new_bech32_p [x61; x31] = HErr ENoData. Proof. reflexivity. Qed.

Theorem segwit_new_p_spec s :
  match segwit_new_p s with
  | HOk (h, ver, d) => segwit_decode cfg_blech s = Bech32.Ok (ver, data_bytes d)
  | HErr e => segwit_decode cfg_blech s = Bech32.Err e
  | HPanic _ => False end.
Proof. unfold segwit_new_p, segwit_decode. cbn [cfg_blech sw_max_string sw_max_version sw_code_v0 sw_code_v1]. rewrite segwit_front_spec.
  destruct (Bech32.unchecked_new s) as [[h d]|e] eqn:U; [|reflexivity]. pose proof (unchecked_valid _ _ _ U) as V. rewrite (syms_of_valid d V).
  destruct (symsl d) as [|ver t] eqn:Es; [reflexivity|]. destruct (_ <? ver); [reflexivity|]. cbn [of_res hbind]. rewrite <- Es.
  set (code := if ver =? 0 then blech_code BLECH_V0_CODE else blech_code BLECH_V1PLUS_CODE).
  rewrite <- hbind_assoc, (checksum_steps code (length s) h d V). destruct (validate_checksum _ _ _ _ _); cbn [of_res hbind]; [|reflexivity].
  rewrite symsl_length, <- symsl_firstn. pose proof (forallb_firstn validc (length d - c_len code) d V) as V'.
  rewrite (validate_segwit_p_spec h _ V'). destruct (firstn _ d) as [|c' r']; [reflexivity|]. cbn [symsl map hd]. fold (symsl r').
  destruct (validate_padding (symsl r')) as [[]|e]; [|reflexivity]. destruct (validate_wpl _ _ _) as [[]|e]; [|reflexivity]. cbn [of_res].
  cbn [forallb] in V'. apply andb_true_iff in V' as [_ Vr]. now rewrite (data_bytes_valid r' Vr). Qed.

(* the slice parsers written with partial operations are the total functions of Model/Taproot.v (the ones C15 proves round trips about
   and validates against the crate); that they never panic is read off the equation *)
Definition of_tres {A} (r : Taproot.res terr A) : outcome A := match r with Taproot.Ok a => Val a | Taproot.Err e => Fail (terr_name e) end.
Lemma of_tres_total {A} (r : Taproot.res terr A) w : of_tres r <> Panic w.
Proof. destruct r; discriminate. Qed.
Lemma chunks_p_is_chunks : forall fuel sl, (length sl <= fuel)%nat -> (length sl mod 32 = 0)%nat -> chunks_p fuel sl = Val (chunks fuel NODE_SIZE sl).
Proof. induction fuel as [|f IH]; intros sl L M; cbn [chunks_p chunks].
  - destruct sl; [reflexivity|cbn in L; lia].
  - change NODE with 32%nat. change NODE_SIZE with 32%nat. destruct sl as [|b r]; [reflexivity|]. set (s := b :: r) in *.
    assert (G : (32 <= length s)%nat /\ ((length s - 32) mod 32 = 0)%nat) by (assert (length s <> 0)%nat by (cbn; lia); lia). destruct G as [G M'].
    destruct (Nat.ltb_spec (length s) 32); [lia|]. rewrite firstn_length. replace (Nat.min 32 (length s)) with 32%nat by lia. cbn [Nat.eqb expect bind].
    rewrite IH; [reflexivity| |]; rewrite skipn_length; lia. Qed.
Lemma branch_from_slice_p_spec sl : branch_from_slice_p sl = of_tres (branch_from_slice sl).
Proof. unfold branch_from_slice_p, branch_from_slice, Totality.lenN. change TAPROOT_CONTROL_NODE_SIZE with 32.
  destruct (N.eqb_spec (N.of_nat (length sl) mod 32) 0) as [M|]; cbn [negb]; [|reflexivity]. destruct (_ <? _); [reflexivity|].
  apply chunks_p_is_chunks; lia. Qed.
(* the parity bit is 0 or 1, so the `expect` on it cannot fail *)
Lemma parity_bit n : (N.land n 1 =? 0) || (N.land n 1 =? 1) = true.
Proof. change (N.land n 1) with (N.land n (N.ones 1)). rewrite N.land_ones. change (2 ^ 1) with 2. lia. Qed.
Lemma cb_from_slice_p_spec xv sl : cb_from_slice_p xv sl = of_tres (cb_from_slice xv sl).
Proof. unfold cb_from_slice_p, cb_from_slice, Totality.lenN. change TAPROOT_CONTROL_BASE_SIZE with 33. change BASE with 33%nat. change BASE_SIZE with 33%nat.
  destruct (N.ltb_spec (N.of_nat (length sl)) 33) as [|G]; cbn [bind orb]; [reflexivity|].
  rewrite usub_ok by lia. cbn [bind]. replace (N.of_nat (length sl - 33)) with (N.of_nat (length sl) - 33) by lia.
  destruct (negb _); [reflexivity|]. destruct sl as [|b0 rest]; [cbn in G; lia|]. cbn [length] in G.
  rewrite (idx_ok (b0 :: rest) 0 x00) by (cbn; lia). cbn [nth bind]. cbv zeta. rewrite parity_bit. cbn [expect bind].
  destruct (leafver_from_u8 _); [|reflexivity]. rewrite slice_ok by (cbn [length]; lia). cbn [bind skipn]. change (33 - 1)%nat with 32%nat.
  destruct (negb _); [reflexivity|]. rewrite slice_from_ok by (cbn [length]; lia). cbn [bind skipn].
  rewrite branch_from_slice_p_spec. destruct (branch_from_slice _); reflexivity. Qed.
Lemma branch_from_slice_p_total sl w : branch_from_slice_p sl <> Panic w.
Proof. rewrite branch_from_slice_p_spec. apply of_tres_total. Qed.
Lemma cb_from_slice_p_total xv sl w : cb_from_slice_p xv sl <> Panic w.
Proof. rewrite cb_from_slice_p_spec. apply of_tres_total. Qed.
Lemma schnorr_pset_total sig_ok bs w : schnorr_pset sig_ok bs <> Panic w.
Proof. unfold schnorr_pset. destruct (Nat.eqb_spec (length bs) 65) as [L|].
  - rewrite (idx_ok bs 64 x00) by lia. cbn [bind]. destruct (sighash_from_u8 _); [|discriminate]. rewrite slice_to_ok by lia. cbn [bind]. destruct (sig_ok _); discriminate.
  - destruct (Nat.eqb_spec (length bs) 64) as [L|]; [|discriminate]. rewrite slice_to_ok by lia. cbn [bind]. destruct (sig_ok _); discriminate. Qed.
Lemma schnorr_from_slice_total sig_ok sl w : schnorr_from_slice sig_ok sl <> Panic w.
Proof. unfold schnorr_from_slice. destruct (Nat.eqb _ 64); [destruct (_ && _); discriminate|]. destruct (rev sl); [discriminate|].
  destruct (sighash_from_u8 _); [|discriminate]. destruct (_ && _); discriminate. Qed.

Lemma scriptver_p_total bs w : scriptver_p bs <> Panic w.
Proof. unfold scriptver_p. destruct bs as [|b r]; [discriminate|]. cbn [Script.is_empty]. set (s := b :: r). assert (L : (1 <= length s)%nat) by (cbn; lia).
  rewrite usub_ok by lia. cbn [bind]. rewrite slice_to_ok by lia. cbn [bind]. rewrite (idx_ok s (length s - 1) x00) by lia. cbn [bind].
  destruct (leafver_from_u8 _); discriminate. Qed.
Lemma xonlyleaf_p_total xv bs w : xonlyleaf_p xv bs <> Panic w.
Proof. unfold xonlyleaf_p. destruct (Nat.ltb_spec (length bs) 32); [discriminate|]. rewrite slice_to_ok by lia. cbn [bind]. destruct (negb _); [discriminate|].
  rewrite slice_from_ok by lia. cbn [bind]. destruct (Nat.eqb _ 32); discriminate. Qed.
Lemma le_dec_len k : forall bs v r, le_dec k bs = Some (v, r) -> length bs = (k + length r)%nat.
Proof. intros bs v r H. apply le_dec_exact in H as [-> _]. rewrite app_length, le_enc_length. reflexivity. Qed.
Lemma u32s_total : forall fuel rest w, (length rest < fuel)%nat -> u32s fuel rest <> Panic w.
Proof. induction fuel as [|f IH]; intros rest w L; [lia|]. cbn [u32s]. destruct rest as [|b r]; [discriminate|].
  destruct (le_dec 4 (b :: r)) as [[v r']|] eqn:D; [|discriminate]. apply le_dec_len in D.
  apply bind_no_panic; [apply IH; lia|discriminate]. Qed.
Lemma keysource_p_total bs w : keysource_p bs <> Panic w.
Proof. unfold keysource_p. destruct (_ <? 4)%nat; [discriminate|]. apply bind_no_panic; [|discriminate].
  apply u32s_total. rewrite skipn_length. lia. Qed.
Lemma leafks_p_total maxvec bs w : leafks_p maxvec bs <> Panic w.
Proof. unfold leafks_p. destruct (dec _ bs) as [[hs rest]|]; [|discriminate]. rewrite slice_from_ok by lia. cbn [bind].
  apply bind_no_panic; [apply keysource_p_total|discriminate]. Qed.
Lemma varbytes_consumes maxvec bs v r : dec (c_varbytes maxvec) bs = Some (v, r) -> (length r < length bs)%nat.
Proof. intros D. pose proof (al_min (alaw_varbytes maxvec) bs v r D) as M. unfold len in M. lia. Qed.
Lemma taptree_loop_total Hleaf Hbranch : forall fuel maxvec bs b w, (length bs < fuel)%nat -> taptree_loop Hleaf Hbranch fuel maxvec bs b <> Panic w.
Proof. induction fuel as [|f IH]; intros maxvec bs b w L; [lia|]. cbn [taptree_loop]. destruct bs as [|depth r1]; [discriminate|]. destruct r1 as [|version r2]; [discriminate|].
  destruct (dec (c_varbytes maxvec) r2) as [[script r3]|] eqn:D; [|discriminate]. pose proof (varbytes_consumes _ _ _ _ D) as C.
  destruct (Nat.ltb_spec 0 (length r2 - length r3)); [|lia]. rewrite usub_ok by lia. cbn [bind].
  destruct (leafver_from_u8 _); [|discriminate]. destruct (Taproot.insert _ _ _ _); [|discriminate]. apply IH. cbn [length] in L. lia. Qed.
Lemma taptree_p_total Hleaf Hbranch maxvec bs w : taptree_p Hleaf Hbranch maxvec bs <> Panic w.
Proof. unfold taptree_p. apply bind_no_panic; [apply taptree_loop_total; lia|]. intros b. destruct (Taproot.is_complete b); discriminate. Qed.

Lemma pset_reserve_bound sz count : snd (pset_reserve sz count) <= PSET_MAX_COUNT * sz /\ is_panic (fst (pset_reserve sz count)) = false.
Proof. unfold pset_reserve. destruct (N.ltb_spec PSET_MAX_COUNT count); cbn [fst snd is_panic]; split; try reflexivity; nia. Qed.

(* u16::try_from on the interval count, then from_512_second_intervals *)
Lemma seq_u16_val i v : (if i <? 65536 then Val (seq_from_512 i) else Fail (E "overflow")) = Val v <-> i < 65536 /\ v = N.lor i C10_SEQ_LOCK_TYPE_MASK.
Proof. unfold seq_from_512. destruct (N.ltb_spec i 65536); split; [intros [= <-]; auto|intros [_ ->]; reflexivity|discriminate|lia]. Qed.
Lemma seq_u16_err i : (exists e, (if i <? 65536 then Val (seq_from_512 i) else Fail (E "overflow")) = Fail e) <-> 65536 <= i.
Proof. destruct (N.ltb_spec i 65536); split; [intros [e X]; discriminate|lia|auto|eauto]. Qed.
Lemma seq_floor_spec s v : seq_from_seconds_floor s = Val v <-> s < 65536 * 512 /\ v = N.lor (s / 512) C10_SEQ_LOCK_TYPE_MASK.
Proof. unfold seq_from_seconds_floor. change C10_SEQ_FLOOR_INTERVAL with 512. cbv zeta. rewrite seq_u16_val.
  assert (s / 512 < 65536 <-> s < 65536 * 512) by lia. tauto. Qed.
Lemma seq_floor_err s : (exists e, seq_from_seconds_floor s = Fail e) <-> 65536 * 512 <= s.
Proof. unfold seq_from_seconds_floor. change C10_SEQ_FLOOR_INTERVAL with 512. cbv zeta. rewrite seq_u16_err. lia. Qed.
Lemma u32_div_ceil_spec s : let i := u32_div_ceil s 512 in s <= 512 * i /\ (i = 0 \/ 512 * (i - 1) < s).
Proof. unfold u32_div_ceil. destruct (N.ltb_spec 0 (s mod 512)); cbv zeta; lia. Qed.
Lemma u32_div_ceil_512 s : u32_div_ceil s 512 = (s + 511) / 512.
Proof. unfold u32_div_ceil. destruct (N.ltb_spec 0 (s mod 512)); lia. Qed.
Lemma seq_ceil_spec s v : seq_from_seconds_ceil s = Val v <-> s <= 65535 * 512 /\ v = N.lor ((s + 511) / 512) C10_SEQ_LOCK_TYPE_MASK.
Proof. unfold seq_from_seconds_ceil. change C10_SEQ_CEIL_INTERVAL with 512. cbv zeta. rewrite seq_u16_val, u32_div_ceil_512.
  assert ((s + 511) / 512 < 65536 <-> s <= 65535 * 512) by lia. tauto. Qed.
Lemma seq_ceil_err s : (exists e, seq_from_seconds_ceil s = Fail e) <-> 65535 * 512 < s.
Proof. unfold seq_from_seconds_ceil. change C10_SEQ_CEIL_INTERVAL with 512. cbv zeta. rewrite seq_u16_err, u32_div_ceil_512. lia. Qed.
Lemma lt_height_time_spec n : (lt_from_height n = Val n <-> n < 500000000) /\ (lt_from_time n = Val n <-> 500000000 <= n)
  /\ ((exists e, lt_from_height n = Fail e) <-> 500000000 <= n) /\ ((exists e, lt_from_time n = Fail e) <-> n < 500000000).
Proof. unfold lt_from_height, lt_from_time, is_block_height. change C10_LOCK_TIME_THRESHOLD with 500000000.
  destruct (N.ltb_spec n 500000000); repeat split; intros; try lia; try reflexivity; try discriminate; eauto;
    match goal with H : exists _, _ |- _ => destruct H; discriminate end. Qed.

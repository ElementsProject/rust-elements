(* Lemmas about byte-string order, association lists and the map record (used by C14 and C08). *)
From Coq Require Import List NArith Bool Lia.
From Coq.Strings Require Import Byte.
From EV Require Import Base.Bytes Gen.Tables Model.PsetMap.
Import ListNotations.
Open Scope N_scope.

Lemma bytes_eqb_eq a b : bytes_eqb a b = true <-> a = b.
Proof. destruct (bytes_eqb_spec a b); split; congruence. Qed.
Lemma bytes_eqb_neq a b : bytes_eqb a b = false <-> a <> b.
Proof. destruct (bytes_eqb_spec a b); split; congruence. Qed.
Lemma bytes_eqb_sym a b : bytes_eqb a b = bytes_eqb b a.
Proof. destruct (bytes_eqb_spec a b), (bytes_eqb_spec b a); congruence. Qed.

Lemma bytes_cmp_eq a : forall b, bytes_cmp a b = Eq <-> a = b.
Proof.
  induction a as [|x a IH]; intros [|y b]; cbn [bytes_cmp]; try (split; congruence).
  destruct (N.compare_spec (b2n x) (b2n y)) as [E|L|L].
  - apply b2n_inj in E. subst. rewrite IH. split; congruence.
  - split; [discriminate|]. intros [= -> _]. lia.
  - split; [discriminate|]. intros [= -> _]. lia.
Qed.
Lemma bytes_cmp_refl a : bytes_cmp a a = Eq. Proof. now apply bytes_cmp_eq. Qed.
Lemma bytes_cmp_antisym a : forall b, bytes_cmp b a = CompOpp (bytes_cmp a b).
Proof.
  induction a as [|x a IH]; intros [|y b]; cbn [bytes_cmp]; try reflexivity.
  rewrite (N.compare_antisym (b2n x) (b2n y)). destruct (b2n x ?= b2n y); cbn; auto.
Qed.
Lemma bytes_cmp_trans_lt a : forall b c, bytes_cmp a b = Lt -> bytes_cmp b c = Lt -> bytes_cmp a c = Lt.
Proof.
  induction a as [|x a IH]; intros [|y b] [|z c]; cbn [bytes_cmp]; try congruence.
  destruct (N.compare_spec (b2n x) (b2n y)) as [E|L|L]; try discriminate;
  destruct (N.compare_spec (b2n y) (b2n z)) as [E'|L'|L']; try discriminate; intros H1 H2.
  - rewrite E, E', N.compare_refl. eauto.
  - rewrite E. apply N.compare_lt_iff in L'. now rewrite L'.
  - rewrite <- E'. apply N.compare_lt_iff in L. now rewrite L.
  - assert (b2n x < b2n z) as L'' by lia. apply N.compare_lt_iff in L''. now rewrite L''.
Qed.

Lemma al_find_insert k k' v l : al_find k (al_insert k' v l) = if bytes_eqb k k' then Some v else al_find k l.
Proof.
  induction l as [|[k2 v2] r IH]; cbn [al_insert al_find]; [reflexivity|].
  destruct (bytes_cmp k' k2) eqn:C; cbn [al_find].
  - apply bytes_cmp_eq in C. subst k2. destruct (bytes_eqb k k'); reflexivity.
  - reflexivity.
  - rewrite IH. destruct (bytes_eqb_spec k k2) as [->|N]; [|reflexivity].
    destruct (bytes_eqb_spec k2 k') as [->|N']; [|reflexivity]. rewrite bytes_cmp_refl in C. discriminate.
Qed.
Lemma al_mem_insert k k' v l : al_mem k (al_insert k' v l) = bytes_eqb k k' || al_mem k l.
Proof. unfold al_mem. rewrite al_find_insert. destruct (bytes_eqb k k'); reflexivity. Qed.

Lemma al_mem_extend k : forall b a, al_mem k (al_extend a b) = al_mem k a || al_mem k b.
Proof.
  unfold al_extend. induction b as [|[k' v'] b IH]; intros a; cbn [fold_left fst snd].
  - now rewrite orb_false_r.
  - rewrite IH, al_mem_insert. unfold al_mem. cbn [al_find].
    destruct (bytes_eqb k k'), (al_find k a), (al_find k b); reflexivity.
Qed.

(* strictly increasing keys: the BTreeMap invariant *)
Fixpoint al_lb (k : bytes) (l : alist) : bool :=
  match l with [] => true | (k', _) :: r => match bytes_cmp k k' with Lt => al_lb k r | _ => false end end.
Fixpoint al_sorted (l : alist) : bool := match l with [] => true | (k, _) :: r => al_lb k r && al_sorted r end.

Lemma al_lb_find k l : al_lb k l = true -> al_find k l = None.
Proof.
  induction l as [|[k' v'] r IH]; cbn [al_lb al_find]; [reflexivity|].
  destruct (bytes_cmp k k') eqn:C; try discriminate. intros H.
  destruct (bytes_eqb_spec k k') as [->|N]; [rewrite bytes_cmp_refl in C; discriminate|auto].
Qed.
Lemma al_lb_trans k k' l : bytes_cmp k k' = Lt -> al_lb k' l = true -> al_lb k l = true.
Proof.
  induction l as [|[k2 v2] r IH]; cbn [al_lb]; [reflexivity|]. intros L.
  destruct (bytes_cmp k' k2) eqn:C; try discriminate. intros H. rewrite (bytes_cmp_trans_lt _ _ _ L C). auto.
Qed.
Lemma al_lb_insert k k' v l : bytes_cmp k k' = Lt -> al_lb k l = true -> al_lb k (al_insert k' v l) = true.
Proof.
  induction l as [|[k2 v2] r IH]; cbn [al_insert al_lb]; intros L H.
  - now rewrite L.
  - destruct (bytes_cmp k k2) eqn:C; try discriminate.
    destruct (bytes_cmp k' k2) eqn:C'; cbn [al_lb]; rewrite ?L, ?C; auto.
Qed.
Lemma al_sorted_insert k v l : al_sorted l = true -> al_sorted (al_insert k v l) = true.
Proof.
  induction l as [|[k2 v2] r IH]; cbn [al_insert al_sorted]; [reflexivity|].
  intros H. apply andb_true_iff in H as [H1 H2].
  destruct (bytes_cmp k k2) eqn:C; cbn [al_sorted al_lb].
  - apply bytes_cmp_eq in C. subst. now rewrite H1, H2.
  - rewrite C, H1, H2. cbn. now rewrite (al_lb_trans _ _ _ C H1).
  - rewrite IH by assumption. rewrite andb_true_r. apply al_lb_insert; [|assumption].
    rewrite bytes_cmp_antisym, C. reflexivity.
Qed.
Lemma al_insert_same k v : forall l, al_sorted l = true -> al_find k l = Some v -> al_insert k v l = l.
Proof.
  induction l as [|[k' v'] r IH]; [discriminate|]. cbn [al_sorted al_find al_insert]. intros S F. apply andb_true_iff in S as [L S].
  destruct (bytes_eqb_spec k k') as [->|N]; [injection F as ->; now rewrite bytes_cmp_refl|].
  destruct (bytes_cmp k k') eqn:C.
  - now apply bytes_cmp_eq in C.
  - rewrite (al_lb_find k r) in F; [discriminate|]. eapply al_lb_trans; eauto.
  - now rewrite IH.
Qed.
Lemma al_sorted_extend b : forall a, al_sorted a = true -> al_sorted (al_extend a b) = true.
Proof. unfold al_extend. induction b as [|[k v] b IH]; intros a H; cbn [fold_left]; [assumption|]. apply IH, al_sorted_insert, H. Qed.

Lemma al_find_head k v r : al_find k ((k, v) :: r) = Some v.
Proof. cbn [al_find]. now rewrite bytes_eqb_refl. Qed.
Lemma al_find_below q k v r : bytes_cmp q k = Lt -> al_lb k r = true -> al_find q ((k, v) :: r) = None.
Proof. intros C L. apply al_lb_find. cbn [al_lb]. rewrite C. exact (al_lb_trans _ _ _ C L). Qed.

Lemma al_sorted_ext l : forall l', al_sorted l = true -> al_sorted l' = true -> (forall k, al_find k l = al_find k l') -> l = l'.
Proof.
  induction l as [|[k v] r IH]; intros [|[k' v'] r'] S S' E.
  - reflexivity.
  - specialize (E k'). rewrite al_find_head in E. discriminate.
  - specialize (E k). rewrite al_find_head in E. discriminate.
  - cbn [al_sorted] in S, S'. apply andb_true_iff in S as [L S], S' as [L' S'].
    (* the heads are the same key: the smaller of two different heads would be in one list only *)
    assert (k = k') as <-.
    { destruct (bytes_cmp k k') eqn:C; [now apply bytes_cmp_eq| |].
      - specialize (E k). rewrite al_find_head, (al_find_below _ _ _ _ C L') in E. discriminate.
      - specialize (E k'). rewrite al_find_head, (al_find_below k' k v r) in E; [discriminate| |exact L]. now rewrite bytes_cmp_antisym, C. }
    pose proof (E k) as Ek. rewrite !al_find_head in Ek. injection Ek as <-.
    f_equal. apply IH; try assumption. intros q. specialize (E q). cbn [al_find] in E.
    destruct (bytes_eqb_spec q k) as [Q|N]; [|assumption]. now rewrite Q, (al_lb_find k r), (al_lb_find k r').
Qed.

Lemma al_find_extend_sorted k : forall b a, al_sorted b = true ->
  al_find k (al_extend a b) = match al_find k b with Some v => Some v | None => al_find k a end.
Proof.
  unfold al_extend. induction b as [|[k' v'] b IH]; intros a S; cbn [fold_left fst snd al_find]; [reflexivity|].
  cbn [al_sorted] in S. apply andb_true_iff in S as [L S]. rewrite IH by assumption. rewrite al_find_insert.
  destruct (bytes_eqb_spec k k') as [->|N]; [|reflexivity]. now rewrite (al_lb_find k' b).
Qed.

Lemma unk_set_unk m f v g : unk (set_unk m f v) g = if bytes_eqb g f then v else unk m g. Proof. reflexivity. Qed.
Lemma unk_set_same m f v : unk (set_unk m f v) f = v. Proof. cbn. now rewrite bytes_eqb_refl. Qed.
Lemma unk_set_other m f v g : g <> f -> unk (set_unk m f v) g = unk m g. Proof. intros N. cbn. now apply bytes_eqb_neq in N as ->. Qed.
Lemma kyd_set_unk m f v g : kyd (set_unk m f v) g = kyd m g. Proof. reflexivity. Qed.
Lemma unk_set_kyd m f l g : unk (set_kyd m f l) g = unk m g. Proof. reflexivity. Qed.
Lemma kyd_set_kyd m f l g : kyd (set_kyd m f l) g = if bytes_eqb g f then l else kyd m g. Proof. reflexivity. Qed.

(* Key-order independence of the canonical JSON serialisation (C11, contract-hash clause). *)
From Coq Require Import List NArith Bool Lia Permutation Relations ZifyN ZifyBool.
From Coq.Strings Require Import Byte.
From EV Require Import Base.Bytes Model.Json.
Import ListNotations.
Open Scope N_scope.
Set Default Timeout 30.

Lemma leb_cons x a y b : bytes_leb (x :: a) (y :: b) = true <-> b2n x < b2n y \/ (x = y /\ bytes_leb a b = true).
Proof. cbn [bytes_leb]. destruct (N.ltb_spec (b2n x) (b2n y)) as [L|L]; [tauto|]. destruct (N.ltb_spec (b2n y) (b2n x)) as [G|G].
  - split; [discriminate|]. intros [H|[-> _]]; lia.
  - assert (x = y) by (apply b2n_inj; lia). subst. split; [auto|]. intros [H|[_ H]]; [lia|exact H]. Qed.
Lemma leb_total a : forall b, bytes_leb a b = true \/ bytes_leb b a = true.
Proof. induction a as [|x a IH]; intros [|y b]; [now left|now left|now right|]. rewrite !leb_cons.
  destruct (N.lt_trichotomy (b2n x) (b2n y)) as [L|[E|G]]; [auto| |auto]. apply b2n_inj in E. subst. destruct (IH b); auto. Qed.
Lemma leb_antisym a : forall b, bytes_leb a b = true -> bytes_leb b a = true -> a = b.
Proof. induction a as [|x a IH]; intros [|y b]; try (cbn [bytes_leb]; discriminate); [reflexivity|]. rewrite !leb_cons.
  intros [L|[-> H1]] [G|[E H2]]; try lia; try (subst; lia). f_equal. now apply IH. Qed.
Lemma leb_trans a : forall b c, bytes_leb a b = true -> bytes_leb b c = true -> bytes_leb a c = true.
Proof. induction a as [|x a IH]; intros [|y b] [|z c]; try (cbn [bytes_leb]; discriminate); auto. rewrite !leb_cons.
  intros [L|[-> H1]] [G|[-> H2]]; [left; lia|left; exact L|left; exact G|]. right. split; [reflexivity|]. now apply IH with b. Qed.
Lemma leb_asym a b : a <> b -> bytes_leb b a = negb (bytes_leb a b).
Proof. intros NE. destruct (bytes_leb a b) eqn:E1, (bytes_leb b a) eqn:E2; try reflexivity.
  - elim NE. now apply leb_antisym.
  - destruct (leb_total a b); congruence. Qed.

Section SORT.
Variable A : Type.
Notation entry := (bytes * A)%type.
Lemma insert_comm (x y : entry) : fst x <> fst y -> forall l, insert_by x (insert_by y l) = insert_by y (insert_by x l).
Proof. intros NE. pose proof (leb_asym _ _ NE) as C.
  induction l as [|h t IH].
  - cbn [insert_by]. rewrite C. now destruct (bytes_leb (fst x) (fst y)).
  - destruct (bytes_leb (fst x) (fst y)) eqn:Exy, (bytes_leb (fst y) (fst h)) eqn:Eyh, (bytes_leb (fst x) (fst h)) eqn:Exh;
      repeat (cbn [insert_by negb]; rewrite ?Exy, ?Eyh, ?Exh, ?C); try reflexivity; try (now rewrite IH).
    + now rewrite (leb_trans _ _ _ Exy Eyh) in Exh.
    + now rewrite (leb_trans _ _ _ C Exh) in Eyh. Qed.
Lemma isort_perm (l l' : list entry) : Permutation l l' -> NoDup (map fst l) -> isort l = isort l'.
Proof. induction 1 as [|x l l' P IH|x y l|l l' l'' P1 IH1 P2 IH2]; intros ND; cbn [isort map] in *.
  - reflexivity.
  - inversion ND; subst. now rewrite IH.
  - inversion ND as [|? ? Hy ND']; subst. inversion ND' ; subst. apply insert_comm. intros E. apply Hy. left. now symmetry.
  - rewrite IH1 by exact ND. apply IH2. eapply Permutation_NoDup; [apply Permutation_map; exact P1|exact ND]. Qed.
End SORT.

(* one re-ordering of the entries of one object, anywhere in the tree *)
Inductive step : json -> json -> Prop :=
| st_here l l' : Permutation l l' -> NoDup (map fst l) -> step (JObj l) (JObj l')
| st_arr a j j' b : step j j' -> step (JArr (a ++ j :: b)) (JArr (a ++ j' :: b))
| st_obj a k lit j j' b : step j j' -> step (JObj (a ++ (k, (lit, j)) :: b)) (JObj (a ++ (k, (lit, j')) :: b)).
Definition render (e : bytes * (bytes * json)) : bytes * bytes := match e with (k, (lit, v)) => (k, lit ++ [x3a] ++ canon v) end.
Lemma canon_obj l : canon (JObj l) = [x7b] ++ join_with [x2c] (map snd (isort (map render l))) ++ [x7d].
Proof. reflexivity. Qed.
Lemma render_key l : map fst (map render l) = map fst l.
Proof. rewrite map_map. apply map_ext. intros [k [lit v]]. reflexivity. Qed.
Theorem step_canon j j' : step j j' -> canon j = canon j'.
Proof. induction 1 as [l l' P ND|a j j' b S IH|a k lit j j' b S IH].
  - rewrite !canon_obj. f_equal. f_equal. f_equal. f_equal. apply isort_perm; [now apply Permutation_map|now rewrite render_key].
  - cbn [canon]. rewrite !map_app. cbn [map]. now rewrite IH.
  - rewrite !canon_obj. rewrite !map_app. cbn [map render]. now rewrite IH. Qed.
Theorem reorder_canon j j' : clos_refl_trans json step j j' -> canon j = canon j'.
Proof. induction 1 as [j j' S| |j1 j2 j3 _ IH1 _ IH2]; [now apply step_canon|reflexivity|congruence]. Qed.

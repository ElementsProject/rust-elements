(* C17, the human-readable-part clause for replacements other than a change of letter case: what becomes of a valid segwit address when its
   HRP is replaced by another string of the same length.
   (1) the new prefix is no built-in HRP: every parser takes the base58check branch; the string is rejected unless it is a valid
       base58check address for the hash (explicit residual; impossible when any character — e.g. a `0` or `l` of the data part — is
       outside the base58 alphabet);
   (2) the new prefix is another built-in HRP of the same checksum family (ert <-> tex, lq <-> el): rejected — the residues after the two
       HRP expansions differ, and feeding the same further symbols to both keeps them apart because feeding a zero is injective;
   (3) the new prefix is a built-in HRP of the other family (ex <-> lq, el; tex <-> tlq): rejected unless the same symbols are a codeword
       of both families (explicit residual, narrowed by length arithmetic to program lengths 40 <-> 3). *)
From Coq Require Import List NArith ZArith Bool Lia ZifyN ZifyBool ZifyNat.
From Coq.Strings Require Import Byte.
From EV Require Import Base.Bytes Model.Bech32 Model.Base58 Model.Address Proofs.Bech32 Proofs.Bech32Codes Proofs.Address Proofs.AddressCase Proofs.Numeral Proofs.AddressB58.
Ltac Zify.zify_post_hook ::= Z.div_mod_to_equations.
Import ListNotations.
Open Scope N_scope.
Set Default Timeout 30.

Definition all_hrps : list bytes := flat_map (fun p => [p_bech p; p_blech p]) builtin.
(* ordered pairs of different built-in HRPs of the same length — the ones reachable from each other by replacing characters *)
Definition hrp_pairs : list (bytes * bytes) :=
  filter (fun hh => Nat.eqb (length (fst hh)) (length (snd hh)) && negb (bytes_eqb (fst hh) (snd hh))) (list_prod all_hrps all_hrps).
Definition L_hrp : nat := 1023.
(* D = residue after h1's expansion xor residue after h2's expansion; feeding n more symbols to both leaves the difference Z^n(D) *)
Definition pair_ok (c : code) (h1 h2 : bytes) : bool :=
  negb (existsb (N.eqb 0) (orbit (c_gen c) (shift_of c) (S L_hrp) (N.lxor (residue c (hrp_expand h1)) (residue c (hrp_expand h2))))).
(* the residues after the two expansions differ (48 short words), and feeding zeros is injective, so the difference never dies out *)
Lemma hrp_residues_differ : forallb (fun c => forallb (fun hh => negb (residue c (hrp_expand (fst hh)) =? residue c (hrp_expand (snd hh)))) hrp_pairs) the_codes = true.
Proof. vm_compute. reflexivity. Qed.
Lemma hrp_residues_apart c h1 h2 k : In c the_codes -> In (h1, h2) hrp_pairs ->
  Zp (c_gen c) (shift_of c) k (residue c (hrp_expand h1)) <> Zp (c_gen c) (shift_of c) k (residue c (hrp_expand h2)).
Proof. intros Ic Ih E. destruct (code_ok_spec _ _ _ (code_ok_in c Ic)) as (GB & LO & _).
  pose proof (proj1 (forallb_forall _ _) (proj1 (forallb_forall _ _) hrp_residues_differ c Ic) _ Ih) as ND. cbn [fst snd] in ND.
  apply negb_true_iff, N.eqb_neq in ND. apply ND, (Zp_inj _ _ GB LO k); [| |exact E];
    (apply feedg_bound; [exact GB|apply hrp_expand_sym|apply sym_bound; reflexivity]). Qed.
Lemma hrp_pairs_ok : forallb (fun c => forallb (fun hh => pair_ok c (fst hh) (snd hh)) hrp_pairs) the_codes = true.
Proof. apply forallb_forall. intros c Ic. apply forallb_forall. intros [h1 h2] Ih. cbn [fst snd]. unfold pair_ok.
  apply negb_true_iff. destruct (existsb _ _) eqn:X; [exfalso|reflexivity]. apply existsb_exists in X as (z & Iz & Ez). apply N.eqb_eq in Ez. subst z.
  rewrite orbit_map in Iz. apply in_map_iff in Iz as (k & Zk & _). rewrite Zp_lin in Zk. apply N.lxor_eq in Zk. exact (hrp_residues_apart c h1 h2 k Ic Ih Zk). Qed.

Lemma hrp_pair_in p p' bl bl' : In p builtin -> In p' builtin -> length (hrp_of p bl) = length (hrp_of p' bl') -> hrp_of p bl <> hrp_of p' bl' ->
  In (hrp_of p bl, hrp_of p' bl') hrp_pairs.
Proof. intros I I' L NE. unfold hrp_pairs. apply filter_In. split.
  - apply in_prod; unfold all_hrps; apply in_flat_map; [exists p|exists p']; (split; [assumption|]); [destruct bl|destruct bl']; cbn; tauto.
  - cbn [fst snd]. rewrite L, Nat.eqb_refl. destruct (bytes_eqb_spec (hrp_of p bl) (hrp_of p' bl')); [contradiction|reflexivity]. Qed.

Lemma hrp_swap_invalid c h1 h2 w : In c the_codes -> In (h1, h2) hrp_pairs -> sym_word w ->
  valid_codeword c (hrp_expand h1 ++ w) = true -> valid_codeword c (hrp_expand h2 ++ w) = false.
Proof. intros Ic Ip Sw V1. destruct (valid_codeword c (hrp_expand h2 ++ w)) eqn:V2; [exfalso|reflexivity].
  unfold valid_codeword in V1, V2. apply N.eqb_eq in V1, V2. rewrite residue_app, N.lxor_comm in V1, V2 by exact Sw. rewrite <- V2 in V1.
  exact (hrp_residues_apart c h1 h2 (length w) Ic Ip (lxor_cancel _ _ _ V1)). Qed.

(* s' is s with the human-readable part (everything before the last '1') replaced by an equally long string that is not a mere
   re-casing of it (those are the subject of C17_hrp_case / C17_mixed_case); any number of characters may differ, the separator
   character may occur in the replacement *)
Definition hrp_edit (s s' : bytes) : Prop :=
  exists h h' d, rsplit x31 s = Some (h, d) /\ s' = h' ++ x31 :: d /\ length h' = length h /\ eq_lower h h' = false.

Definition prog_len (a : address) : nat := match a_payload a with WitnessProgram _ prog => length prog | PubkeyHash h | ScriptHash h => length h end.

Section Hrp.
Variable H : bytes -> bytes. Variable pkv : bytes -> bool.

(* residual 1: no built-in HRP matches the new prefix and the whole string — data part and checksum characters of the segwit address
   included — consists of base58 characters and is a valid base58check address of a built-in network for the hash H *)
Definition hrp_residual_base58 (s' : bytes) : Prop :=
  (forall p' bl', In p' builtin -> match_prefix (find_prefix s') (hrp_of p' bl') = false) /\
  (forall c, In c s' -> b58_digit c <> None) /\
  exists data p' a', In p' builtin /\ b58_decode_check H s' = Ok58 data /\ from_base58 pkv data p' = AOk a'.
(* residual 2: the new prefix is the HRP of the other checksum family of a built-in network and the same symbols are a valid address
   there (a bech32(m) codeword behind the old HRP and a blech32(m) codeword behind the new one, or the other way round); lengths force
   an unblinded 40-byte program to be re-read as blinding key + 3-byte program, or the reverse *)
Definition hrp_residual_cross (a : address) (s' : bytes) : Prop :=
  exists p' bl' a', In p' builtin /\ match_prefix (find_prefix s') (hrp_of p' bl') = true /\ from_bech32 pkv s' bl' p' = AOk a' /\
    ((a_blinder a = None /\ bl' = true /\ prog_len a = 40%nat /\ prog_len a' = 3%nat) \/
     (a_blinder a <> None /\ bl' = false /\ prog_len a = 3%nat /\ prog_len a' = 40%nat)).
Definition all_rejected (s' : bytes) : Prop :=
  (exists e, from_str H pkv s' = AErr e) /\ forall p', In p' builtin -> exists e, parse_with_params H pkv s' p' = AErr e.

(* what a successful from_bech32 says about lengths: nbody symbols between the version and the checksum *)
Lemma from_bech32_lengths s bl p a : from_bech32 pkv s bl p = AOk a ->
  exists h d w (nbody : nat), rsplit x31 s = Some (h, d) /\ syms_of d = Some w /\ is_blinded a = bl /\
    length w = (1 + nbody + (if bl then 12 else 6))%nat /\ ((nbody * 5) mod 8 <= 4)%nat /\
    (nbody * 5 / 8 = (if bl then 33 else 0) + prog_len a)%nat /\ (2 <= prog_len a <= 40)%nat.
Proof. intros F. apply from_bech32_ok in F as (v & prog & _ & EA & EB & KO & LP & D). unfold prog_len. rewrite EA.
  apply (segwit_decode_ok _ _ _ _ (sw_code_len bl _)) in D as (h & d & body & ck & R & _ & _ & S & LK & _ & _ & _ & _ & VP & _ & ED).
  rewrite code_for_sw, required_code_len in LK. apply (f_equal (@length byte)) in ED. rewrite (wit_data_length pkv a prog KO), EB, fes_to_bytes_length in ED.
  exists h, d, (v :: body ++ ck), (length body). cbn [length]. rewrite app_length, LK. repeat split; auto using validate_padding_len; lia. Qed.

(* same family: the decoder accepted s behind h; behind another built-in HRP of the same family and length it rejects the same data *)
Lemma same_family_rejected bl s s' h h' d p p' r r' : In p builtin -> In p' builtin ->
  rsplit x31 s = Some (h, d) -> rsplit x31 s' = Some (h', d) -> length h' = length h -> eq_lower h h' = false ->
  eq_lower (hrp_of p bl) h = true -> eq_lower (hrp_of p' bl) h' = true ->
  segwit_decode (sw_cfg bl) s = Ok r -> segwit_decode (sw_cfg bl) s' = Ok r' -> False.
Proof. intros Ip Ip' R R' LH NE M M' D D'. destruct r as [v data], r' as [v' data'].
  destruct (decoded_codeword _ _ _ _ _ _ D R) as (w & S & V). destruct (decoded_codeword _ _ _ _ _ _ D' R') as (w' & S' & V').
  rewrite S in S'. injection S' as <- <-. destruct (syms_of_spec _ _ S) as (Sw & _).
  apply eq_lower_iff in M, M'. rewrite <- (hrp_expand_lower h), <- M, hrp_expand_lower in V. rewrite <- (hrp_expand_lower h'), <- M', hrp_expand_lower in V'.
  rewrite (hrp_swap_invalid _ (hrp_of p bl) (hrp_of p' bl) _ (required_code_in bl v)) in V'; [discriminate V'| |exact Sw|exact V].
  apply hrp_pair_in; try assumption.
  - rewrite <- (lower_length (hrp_of p bl)), <- (lower_length (hrp_of p' bl)), M, M', !lower_length. now symmetry.
  - intros EQ. rewrite EQ, M' in M. symmetry in M. apply eq_lower_iff in M. congruence. Qed.

(* other family: only program lengths 40 (unblinded) <-> 3 (blinded) survive the length rules of both decoders *)
Lemma cross_family_lengths bl s s' h h' d p p' a a' :
  rsplit x31 s = Some (h, d) -> rsplit x31 s' = Some (h', d) ->
  from_bech32 pkv s bl p = AOk a -> from_bech32 pkv s' (negb bl) p' = AOk a' ->
  (a_blinder a = None /\ negb bl = true /\ prog_len a = 40%nat /\ prog_len a' = 3%nat) \/
  (a_blinder a <> None /\ negb bl = false /\ prog_len a = 3%nat /\ prog_len a' = 40%nat).
Proof. intros R R' F F'.
  destruct (from_bech32_lengths _ _ _ _ F) as (h0 & d0 & w & nb & R0 & S & BL & LW & PD & LD & LP).
  destruct (from_bech32_lengths _ _ _ _ F') as (h1 & d1 & w' & nb' & R1 & S' & _ & LW' & PD' & LD' & LP').
  rewrite R in R0. injection R0 as <- <-. rewrite R' in R1. injection R1 as <- <-. rewrite S in S'. injection S' as <-.
  unfold is_blinded in BL. destruct bl, (a_blinder a); try discriminate BL; cbn [negb] in *; [right|left]; repeat split; try discriminate; lia. Qed.

Lemma accepted_or_all_rejected (f : params -> ares address) nets :
  (exists q a, In q nets /\ f q = AOk a) \/ (forall q, In q nets -> exists e, f q = AErr e).
Proof. induction nets as [|net r IH]; [right; intros q []|]. destruct (f net) as [a|e] eqn:F; [left; exists net, a; split; [now left|exact F]|].
  destruct IH as [(q & a & Iq & Fq)|IH]; [left; exists q, a; split; [now right|exact Fq]|]. right. intros q [<-|Iq]; [eauto|now apply IH]. Qed.

Theorem hrp_replaced p s a s' : In p builtin -> parse_with_params H pkv s p = AOk a -> is_segwit a -> hrp_edit s s' ->
  all_rejected s' \/ hrp_residual_base58 s' \/ hrp_residual_cross a s'.
Proof. intros Ip E SW (h & h' & d & R & -> & LH & NE). pose proof (proj2 (rsplit_spec _ _ _ _ R)) as ND.
  pose proof (rsplit_app x31 h' d ND) as R'. set (s' := h' ++ x31 :: d) in *.
  destruct (parse_segwit _ _ _ _ _ E SW) as (bl & M & FB). rewrite (find_prefix_rsplit _ _ _ R) in M.
  assert (AR : (forall q, In q builtin -> exists e, parse_with_params H pkv s' q = AErr e) -> all_rejected s')
    by (intros A; split; [now apply from_str_rejected|exact A]).
  (* does the new prefix match a built-in HRP? *)
  destruct (from_str_bech pkv s' h' builtin) as [r|] eqn:FSB.
  - (* yes, that of (p', bl'): only p' can accept s', and it reads it with from_bech32 *)
    apply from_str_bech_some in FSB as (p' & bl' & Ip' & M' & _). rewrite <- (find_prefix_rsplit _ _ _ R') in M'.
    pose proof (proj1 (segwit_dispatch H pkv s' p' bl' Ip' M')) as OWN. destruct (from_bech32 pkv s' bl' p') as [a'|e'] eqn:FB'.
    + destruct (Bool.bool_dec bl' bl) as [->|NB].
      * exfalso. rewrite (find_prefix_rsplit _ _ _ R') in M'. apply from_bech32_ok in FB as (? & ? & _ & _ & _ & _ & _ & D). apply from_bech32_ok in FB' as (? & ? & _ & _ & _ & _ & _ & D').
        exact (same_family_rejected bl s s' h h' d p p' _ _ Ip Ip' R R' LH NE M M' D D').
      * right. right. assert (EB : bl' = negb bl) by (destruct bl, bl'; try reflexivity; contradiction). subst bl'.
        exists p', (negb bl), a'. repeat split; try assumption. exact (cross_family_lengths bl s s' h h' d p p' a a' R R' FB FB').
    + left. apply AR. intros q Iq. destruct (parse_with_params H pkv s' q) as [aq|e] eqn:EQ; [|eauto].
      rewrite (hrp_owner H pkv s' p' bl' q aq Ip' Iq M' EQ), OWN in EQ. discriminate EQ.
  - (* no: every parser takes the base58check branch *)
    pose proof (proj1 (from_str_bech_none _ _ _ _) FSB) as NM. rewrite <- (find_prefix_rsplit _ _ _ R') in NM.
    assert (PW : forall q, In q builtin -> parse_with_params H pkv s' q = parse_b58 H pkv s' q) by (intros q Iq; apply parse_no_hrp; intros blq; now apply NM).
    destruct (accepted_or_all_rejected (parse_b58 H pkv s') builtin) as [(q & aq & Iq & Fq)|ALL].
    + right. left. split; [exact NM|]. apply parse_b58_ok in Fq as (_ & data & DC & F). split; [|exists data, q, aq; auto].
      destruct (b58_check_inv H _ _ DC) as (ck & _ & _ & D0). exact (b58_decode_chars _ _ D0).
    + left. apply AR. intros q Iq. rewrite (PW q Iq). now apply ALL. Qed.

Lemma residual_base58_needs_alphabet s' : (exists c, In c s' /\ b58_digit c = None) -> ~ hrp_residual_base58 s'.
Proof. intros (c & Ic & Nc) (_ & A & _). exact (A c Ic Nc). Qed.
Lemma residual_cross_needs_lengths a s' : prog_len a <> 40%nat -> prog_len a <> 3%nat -> ~ hrp_residual_cross a s'.
Proof. intros N40 N3 (p' & bl' & a' & _ & _ & _ & [(_ & _ & L & _)|(_ & _ & L & _)]); contradiction. Qed.

(* the common case: the data part contains a character outside the base58 alphabet (`0` and `l` are the two bech32 characters that are;
   in upper case `0`), and the witness program is not 3 or 40 bytes long (all standard forms: 20 and 32) — rejected by every parser *)
Theorem hrp_replaced_common p s a s' : In p builtin -> parse_with_params H pkv s p = AOk a -> is_segwit a -> hrp_edit s s' ->
  (exists c, In c s' /\ b58_digit c = None) -> prog_len a <> 40%nat -> prog_len a <> 3%nat -> all_rejected s'.
Proof. intros Ip E SW ED NB N40 N3. destruct (hrp_replaced p s a s' Ip E SW ED) as [A|[B|C]]; [exact A|exfalso|exfalso].
  - exact (residual_base58_needs_alphabet s' NB B). - exact (residual_cross_needs_lengths a s' N40 N3 C). Qed.
End Hrp.

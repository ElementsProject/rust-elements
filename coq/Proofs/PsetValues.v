(* C07 — laws of the value canonisers (Model/PsetValues.v): idempotence and never lengthening for every type (TapTree
   included since fix aee9a45); every transcribed comparator projection ends in the raw key, hence is injective. *)
From Coq Require Import List Arith NArith ZArith Lia Bool ZifyN ZifyBool ZifyNat.
From Coq.Strings Require Import Byte.
From EV Require Import Base.Bytes Base.Codec Gen.Tables Model.Tx Model.BtcTx Model.Taproot Model.PsetRaw Model.PsetValues Proofs.Tx Proofs.BtcTx Proofs.Taproot Proofs.PsetRaw.
Import ListNotations.
Ltac Zify.zify_post_hook ::= Z.div_mod_to_equations.
Open Scope N_scope.
Set Default Timeout 60.

Section VALUES.
Variable maxvec : N.
Variables cap_txin cap_txout cap_vecu8 cap_h32 : N.
Variables pt_ok pk_ok xonly_ok : bytes -> bool.
Variables Hrip Hsha Hh160 Hh256 : bytes -> bytes.
Variables Hleaf Hbranch : bytes -> bytes.
Notation vcanon := (vcanon maxvec cap_txin cap_txout cap_vecu8 cap_h32 pt_ok pk_ok xonly_ok Hrip Hsha Hh160 Hh256 Hleaf Hbranch).
Notation kcanon := (kcanon maxvec cap_txin cap_txout cap_vecu8 cap_h32 pt_ok pk_ok xonly_ok Hrip Hsha Hh160 Hh256 Hleaf Hbranch).
Notation canon_taptree := (canon_taptree maxvec Hleaf Hbranch).

Lemma guard_ok c v x : guard c v = POk x -> x = v /\ c = true.
Proof. unfold guard. destruct c; [intros H; inversion H; auto|discriminate]. Qed.
Lemma guard_true c v : c = true -> guard c v = POk v. Proof. now intros ->. Qed.
Lemma via_exact {A} (c : codec A) : Lawful c -> forall v x, via c v = POk x -> x = v.
Proof. intros L v x H. unfold via in H. destruct (deserialize c v) as [a|] eqn:D; [|discriminate]. inversion H; subst.
  now destruct (deserialize_exact c L _ _ D) as [-> _]. Qed.
Lemma preimage_ok H k v c : preimage H k v = POk c -> c = v.
Proof. unfold preimage. destruct (bytes_eqb (H v) k); [congruence|discriminate]. Qed.
Lemma preimage_rejects H k v : H v <> k -> preimage H k v = PErr EPreimage.
Proof. unfold preimage. destruct (bytes_eqb_spec (H v) k); [contradiction|reflexivity]. Qed.
Lemma firstn_len_le {A} n (l : list A) : (length (firstn n l) <= length l)%nat.
Proof. rewrite firstn_length. lia. Qed.
Lemma firstn_idem {A} n (l : list A) : firstn n (firstn n l) = firstn n l.
Proof. rewrite firstn_firstn. now rewrite Nat.min_id. Qed.

Local Opaque firstn.
Lemma schnorr_law v c : canon_schnorr v = POk c -> canon_schnorr c = POk c /\ (length c <= length v)%nat.
Proof. intros H. assert (C : c = v \/ c = firstn 64 v /\ length v = 65%nat).
  { revert H. unfold canon_schnorr, len_is. destruct (length v =? 64)%nat; [intros [= <-]; auto|].
    destruct (Nat.eqb_spec (length v) 65) as [L|]; [|discriminate]. destruct (schnorr_hashty_ok _); [|discriminate].
    intros [= <-]. destruct (_ =? 0); auto. }
  destruct C as [->|[-> L]]; [auto|]. unfold canon_schnorr, len_is. rewrite firstn_length, L. split; [reflexivity|apply Nat.le_min_r]. Qed.

(* TapTree: Deserialize then Serialize gives back the accepted bytes.  The builder (C15 model, NodeInfo::combine(child, node)
   since fix aee9a45) holds the leaves in depth-first order with merkle_branch.len() = depth, so Serialize re-writes the
   (depth, version, script) triples it read.  Uses `builder_complete` of Proofs/Taproot.v; the facts about the leaf order are
   proved here. *)
Definition item_enc (it : item) : bytes :=
  match it with ILeaf d s v => n2b d :: v :: enc (c_varbytes maxvec) s | IHidden _ _ => [] end.
Definition is_leaf (it : item) : Prop := match it with ILeaf _ _ _ => True | IHidden _ _ => False end.
Fixpoint no_hidden (t : tree) : Prop := match t with Leaf _ _ => True | Hidden _ => False | Node a b => no_hidden a /\ no_hidden b end.

Lemma taptree_items_exact : forall fuel b items, taptree_items maxvec fuel b = Some items -> b = flat_map item_enc items /\ Forall is_leaf items.
Proof. induction fuel as [|f IH]; intros b items H; [discriminate|]. cbn [taptree_items] in H.
  destruct b as [|d [|v r]]; [inversion H; split; [reflexivity|constructor]|discriminate|].
  destruct (dec (c_varbytes maxvec) r) as [[script rest]|] eqn:D; [|discriminate]. destruct (leafver_ok (b2n v)); [|discriminate].
  destruct (taptree_items maxvec f rest) as [l|] eqn:T; [|discriminate]. inversion H; subst. destruct (IH _ _ T) as [-> F].
  apply (l_exact (c_varbytes_lawful maxvec)) in D. subst r. split; [|constructor; [exact I|exact F]].
  cbn [flat_map item_enc]. rewrite n2b_b2n. cbn [app]. reflexivity. Qed.
Lemma dfs_leaf_only t : forall d, Forall is_leaf (dfs t d) -> no_hidden t.
Proof. induction t as [s v|h|a IHa b IHb]; intros d F; cbn [dfs no_hidden] in *; [exact I|now inversion F|].
  apply Forall_app in F as [Fa Fb]. split; [eapply IHa|eapply IHb]; eauto. Qed.
Lemma pv_node_hash t : n_hash (node_of Hleaf Hbranch t) = root Hleaf Hbranch t.
Proof. induction t as [s v|h|a IHa b IHb]; cbn [node_of root combine_tot n_hash new_leaf new_hidden]; try reflexivity. now rewrite IHa, IHb. Qed.
Lemma pv_node_leaves t : n_leaves (node_of Hleaf Hbranch t) = leaf_paths Hleaf Hbranch t.
Proof. induction t as [s v|h|a IHa b IHb]; cbn [node_of leaf_paths combine_tot n_leaves new_leaf new_hidden]; try reflexivity.
  now rewrite !pv_node_hash, IHa, IHb. Qed.
Lemma leaf_paths_dfs t : no_hidden t -> forall d,
  map (fun l => ILeaf (N.of_nat (d + length (l_branch l))) (l_script l) (l_ver l)) (leaf_paths Hleaf Hbranch t) = dfs t d.
Proof. induction t as [s v|h|a IHa b IHb]; intros NH d; cbn [leaf_paths dfs map no_hidden] in *.
  - cbn [l_branch l_script l_ver length]. now rewrite Nat.add_0_r.
  - contradiction.
  - destruct NH as [Na Nb]. rewrite map_app, !map_map, <- (IHa Na (S d)), <- (IHb Nb (S d)). f_equal; apply map_ext; intros l;
      cbn [snoc l_branch l_script l_ver]; rewrite app_length; cbn [length]; do 2 f_equal; lia. Qed.
Lemma taptree_id v c : canon_taptree v = POk c -> c = v.
Proof. unfold PsetValues.canon_taptree, taptree_node. destruct (taptree_items maxvec (S (length v)) v) as [items|] eqn:T; [|discriminate].
  destruct (run Hleaf Hbranch items []) as [[|[n|] [|? ?]]|] eqn:R; try discriminate. intros H; injection H as <-.
  destruct (builder_complete Hleaf Hbranch items _ R eq_refl) as (t & _ & -> & E & _). injection E as ->.
  destruct (taptree_items_exact _ _ _ T) as [-> F]. pose proof (dfs_leaf_only t 0 F) as NH.
  unfold taptree_ser. rewrite pv_node_leaves, <- (leaf_paths_dfs t NH 0), flat_map_concat_map, flat_map_concat_map, map_map. reflexivity. Qed.

(* VarInt drops trailing bytes and SchnorrSig an explicit Default sighash byte; every other type returns the accepted bytes unchanged *)
Theorem vcanon_same t k v c : t <> TyVarInt -> t <> TySchnorrSig -> vcanon t k v = POk c -> c = v.
Proof. intros NV NS H. destruct t; cbn [PsetValues.vcanon] in H; try contradiction;
  try (apply guard_ok in H as [E _]; exact E); try congruence; try (eapply preimage_ok; eassumption).
  - exact (via_exact _ (c_tx_lawful pt_ok maxvec cap_txin cap_txout cap_vecu8) _ _ H).
  - exact (via_exact _ (c_txout_nowit_lawful pt_ok maxvec) _ _ H).
  - exact (via_exact _ (c_stack_lawful maxvec cap_vecu8) _ _ H).
  - exact (taptree_id _ _ H).
  - destruct (N.of_nat (length v) <=? maxvec); [|discriminate]. exact (via_exact _ (c_btctx_lawful maxvec) _ _ H).
Qed.
Theorem vcanon_law t k v c : vcanon t k v = POk c -> vcanon t k c = POk c /\ (length c <= length v)%nat.
Proof. intros H. assert (ID : c = v -> vcanon t k c = POk c /\ (length c <= length v)%nat) by (intros ->; auto).
  destruct t; try (apply ID; eapply vcanon_same; [| |exact H]; discriminate).
  - cbn [PsetValues.vcanon] in *. destruct (vi_dec v) as [[n r]|] eqn:D; [|discriminate]. injection H as <-.
    pose proof (l_complete c_varint_lawful n [] (l_wf c_varint_lawful _ _ _ D)) as C. cbn [c_varint enc dec] in C. rewrite app_nil_r in C. rewrite C.
    apply (l_exact c_varint_lawful) in D. cbn [c_varint enc] in D. subst v. rewrite app_length. split; [reflexivity|lia].
  - now apply schnorr_law.
Qed.
Theorem vcanon_size t k v c : vcanon t k v = POk c -> (length c <= length v)%nat.
Proof. apply vcanon_law. Qed.
Theorem vcanon_idem t k v c : vcanon t k v = POk c -> vcanon t k c = POk c.
Proof. apply vcanon_law. Qed.
Lemma commitment_length k v c : (vcanon TyPedersen k v = POk c \/ vcanon TyGenerator k v = POk c) -> c = v /\ length v = 33%nat.
Proof. intros [H|H]; cbn [PsetValues.vcanon] in H; apply guard_ok in H as [-> G]; (split; [reflexivity|]);
  unfold conf_wf in G; destruct v; try discriminate; apply andb_true_iff in G as [G _]; apply andb_true_iff in G as [_ G]; now apply Nat.eqb_eq. Qed.

Theorem kcanon_law t kd k : kcanon t kd = Some k -> k <> [] /\ kcanon t k = Some k /\ (length k <= length kd)%nat.
Proof. unfold PsetValues.kcanon. destruct (vcanon t [] kd) as [c|] eqn:V; [|discriminate]. destruct c as [|b c]; [discriminate|].
  intros H; inversion H; subst. split; [discriminate|]. rewrite (vcanon_idem _ _ _ _ V). split; [reflexivity|]. eapply vcanon_size; eauto. Qed.

(* the raw key is the last component of every comparator projection, which makes them injective *)
Lemma key_proj_last t a : last (key_proj t a) [] = a.
Proof. destruct t; try reflexivity. cbn [key_proj]. unfold proj_pubkey. now destruct (len_is 33 a). Qed.
Lemma proj_prop_last a : last (proj_prop maxvec a) [] = a.
Proof. unfold proj_prop. now destruct (prop_dec maxvec a) as [[[? ?] ?]|]. Qed.
End VALUES.

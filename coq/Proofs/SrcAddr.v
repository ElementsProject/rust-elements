(* C16 / C06 / C10 — Address::from_script as TRANSLATED from src/address.rs (Gen/SrcAddr.v: chain of template tests, payload constructor, byte
   range and witness-version expression of every arm) equals the hand-written model (Model/Script.v from_script) on EVERY script, and its
   generated no-panic condition holds for every script. *)
From Coq Require Import List Arith NArith Bool Lia ZifyBool ZifyN ZifyNat.
From Coq.Strings Require Import Byte.
From EV Require Import Base.Bytes Gen.Tables Model.Script Gen.SrcScript Gen.SrcAddr Proofs.SrcScript Proofs.ScriptTemplates.
Import ListNotations.
Open Scope N_scope.

Definition payload_of (r : option (N * N * bytes)) : option payload :=
  match r with
  | None => None
  | Some (k, v, d) => Some (if k =? 0 then PubkeyHash d else if k =? 1 then ScriptHash d else WitnessProgram v d)
  end.

Lemma arr20_slice (s : bytes) a b : (b <= length s)%nat -> (b - a = 20)%nat -> arr20 (slice s a b) = Val (slice s a b).
Proof. intros L E. unfold arr20, len_is, slice. rewrite firstn_length, skipn_length. now replace (Nat.min (b - a) (length s - a)) with 20%nat by lia. Qed.

(* each template test fixes the length (or, for v1+, the version byte), which is all the arms rely on; lia reads it off the boolean *)
Theorem src_from_script_is_model s : from_script s = Val (payload_of (src_from_script s)).
Proof. unfold from_script, src_from_script.
  rewrite (src_is_p2pkh s), (src_is_p2sh s), (src_is_v0_p2wpkh s), (src_is_v0_p2wsh s), (src_is_v1plus_p2witprog s).
  destruct (is_p2pkh s) eqn:A. { rewrite arr20_slice; [reflexivity| |reflexivity]. unfold is_p2pkh, len_is in A. lia. }
  destruct (is_p2sh s) eqn:B. { rewrite arr20_slice; [reflexivity| |reflexivity]. unfold is_p2sh, len_is in B. lia. }
  destruct (is_v0_p2wpkh s); [reflexivity|]. destruct (is_v0_p2wsh s); [reflexivity|].
  destruct (is_v1plus_p2witprog s) eqn:E; [|reflexivity]. unfold is_v1plus_p2witprog, OP_PUSHNUM_1, OP_PUSHNUM_16 in E.
  replace (at_ s 0 <? 80) with false by lia. replace (32 <=? at_ s 0 - 80) with false by lia. reflexivity. Qed.

Theorem src_from_script_safe_all s : src_from_script_safe s = true.
Proof. unfold src_from_script_safe, blen.
  rewrite (src_is_p2pkh s), (src_is_p2sh s), (src_is_v0_p2wpkh s), (src_is_v0_p2wsh s), (src_is_v1plus_p2witprog s).
  destruct (is_p2pkh s) eqn:A. { unfold is_p2pkh, len_is in A. lia. }
  destruct (is_p2sh s) eqn:B. { unfold is_p2sh, len_is in B. lia. }
  destruct (is_v0_p2wpkh s) eqn:C. { unfold is_v0_p2wpkh, len_is in C. lia. }
  destruct (is_v0_p2wsh s) eqn:D. { unfold is_v0_p2wsh, len_is in D. lia. }
  destruct (is_v1plus_p2witprog s) eqn:E; [|reflexivity]. unfold is_v1plus_p2witprog, lenN, OP_PUSHNUM_1, OP_PUSHNUM_16 in E. lia. Qed.

(* consequences carried into the properties: the translated function never panics and, when it yields an address payload, that payload's
   script is the original script (through the model's from_script_spk) *)
Corollary src_from_script_total s : exists r, from_script s = Val r.
Proof. eexists. apply src_from_script_is_model. Qed.
Theorem src_from_script_roundtrip p s r : src_from_script s = Some r -> script_pubkey p (match payload_of (Some r) with Some a => a | None => PubkeyHash [] end) = Val s.
Proof. intro E. pose proof (src_from_script_is_model s) as M. rewrite E in M. destruct r as [[k v] d]. exact (from_script_spk p s _ M). Qed.

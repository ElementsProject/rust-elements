(* Positional numerals (C06): `digits b (value b ds) = ds` for canonical digit lists, `value b (digits b v) = v`, conversion between two
   bases with the leading-zero rule, the first digit of a number from bounds, and — on top of that — both directions of the base58
   codec of Model/Base58.v: b58_decode (b58_encode bs) = bs for every byte string and b58_encode (b58_decode s) = s for every accepted
   text. *)
From Coq Require Import List NArith ZArith Bool Lia ZifyN ZifyBool ZifyNat.
From Coq.Strings Require Import Byte.
From EV Require Import Base.Bytes Model.Bech32 Model.Base58.
Ltac Zify.zify_post_hook ::= Z.div_mod_to_equations.
Import ListNotations.
Open Scope N_scope.
Set Default Timeout 30.

Section Num.
Variable b : N.
Hypothesis b_ge2 : 2 <= b.

Definition dig (ds : list N) : Prop := Forall (fun d => d < b) ds.
Definition head_nz (ds : list N) : Prop := match ds with [] => True | d :: _ => d <> 0 end.
Definition canon (ds : list N) : Prop := dig ds /\ head_nz ds.

Lemma value_app l1 : forall l2 acc, value b (l1 ++ l2) acc = value b l2 (value b l1 acc).
Proof. induction l1 as [|d r IH]; intros l2 acc; cbn [app value]; [reflexivity|apply IH]. Qed.
Lemma value_snoc l d acc : value b (l ++ [d]) acc = value b l acc * b + d.
Proof. rewrite value_app. reflexivity. Qed.
Lemma value_acc ds : forall acc, value b ds acc = acc * b ^ N.of_nat (length ds) + value b ds 0.
Proof. induction ds as [|d r IH]; intros acc; cbn [value length].
  - change (N.of_nat 0) with 0. rewrite N.pow_0_r. lia.
  - rewrite IH, (IH (0 * b + d)), Nnat.Nat2N.inj_succ, N.pow_succ_r'. set (P := b ^ N.of_nat (length r)). lia. Qed.
Lemma value_cons d r : value b (d :: r) 0 = d * b ^ N.of_nat (length r) + value b r 0.
Proof. cbn [value]. rewrite value_acc. set (P := b ^ N.of_nat (length r)). lia. Qed.
Lemma pow_pos k : 0 < b ^ k.
Proof. apply N.neq_0_lt_0, N.pow_nonzero. lia. Qed.
Lemma value_lt ds : dig ds -> value b ds 0 < b ^ N.of_nat (length ds).
Proof. induction ds as [|d r IH]; intros D.
  - cbn. lia.
  - inversion D as [|? ? Hd Hr]; subst. specialize (IH Hr). rewrite value_cons. cbn [length]. rewrite Nnat.Nat2N.inj_succ, N.pow_succ_r'.
    set (P := b ^ N.of_nat (length r)) in *. assert (X : (d + 1) * P <= b * P) by (apply N.mul_le_mono_r; lia). lia. Qed.
Lemma value_cons_range d r : dig r -> d * b ^ N.of_nat (length r) <= value b (d :: r) 0 < (d + 1) * b ^ N.of_nat (length r).
Proof. intros D. rewrite value_cons. pose proof (value_lt r D). lia. Qed.
Lemma value_zeros z ds : value b (repeat 0 z ++ ds) 0 = value b ds 0.
Proof. induction z as [|z IH]; [reflexivity|]. cbn [repeat app value]. exact IH. Qed.

Lemma canon_app_l l1 l2 : canon (l1 ++ l2) -> canon l1.
Proof. intros [D Hn]. split; [apply Forall_app in D; tauto|]. destruct l1; [exact I|exact Hn]. Qed.
Lemma canon_value_ge d r : canon (d :: r) -> b ^ N.of_nat (length r) <= value b (d :: r) 0.
Proof. intros [_ Hn]. cbn in Hn. rewrite value_cons. assert (1 * b ^ N.of_nat (length r) <= d * b ^ N.of_nat (length r)) by (apply N.mul_le_mono_r; lia). lia. Qed.
Lemma canon_value_pos ds : canon ds -> ds <> [] -> 0 < value b ds 0.
Proof. intros C NE. destruct ds as [|d r]; [contradiction|]. pose proof (canon_value_ge d r C). pose proof (pow_pos (N.of_nat (length r))). lia. Qed.

Lemma divmod_snoc v d : d < b -> (v * b + d) / b = v /\ (v * b + d) mod b = d.
Proof. intros Hd. assert (NZ : b <> 0) by lia. pose proof (N.div_mod (v * b + d) b NZ) as E. pose proof (N.mod_lt (v * b + d) b NZ) as L.
  apply (N.div_mod_unique b); [assumption|assumption|]. rewrite <- E. lia. Qed.

Lemma digits_aux_value ds : canon ds -> forall fuel acc, value b ds 0 < 2 ^ N.of_nat fuel -> digits_aux b fuel (value b ds 0) acc = ds ++ acc.
Proof. induction ds as [|d ds' IH] using rev_ind; intros C fuel acc L.
  - cbn [value]. destruct fuel; reflexivity.
  - rewrite value_snoc in *. pose proof (canon_app_l _ _ C) as C'. set (v := value b ds' 0) in *.
    assert (Hd : d < b). { destruct C as [D _]. apply Forall_app in D as [_ D]. now inversion D. }
    assert (NZ : v * b + d <> 0).
    { destruct ds' as [|x xs]; [destruct C as [_ X]; cbn in X; subst v; cbn; lia|].
      assert (0 < v) by (apply canon_value_pos; [exact C'|discriminate]). nia. }
    destruct fuel as [|f]; [cbn in L; lia|]. cbn [digits_aux]. destruct (N.eqb_spec (v * b + d) 0) as [Z|_]; [contradiction|].
    destruct (divmod_snoc v d Hd) as [-> ->]. rewrite <- app_assoc. cbn [app]. apply IH; [exact C'|].
    rewrite Nnat.Nat2N.inj_succ, N.pow_succ_r' in L. assert (v * 2 <= v * b) by (apply N.mul_le_mono_l; exact b_ge2). lia. Qed.
Theorem digits_value ds : canon ds -> digits b (value b ds 0) = ds.
Proof. intros C. unfold digits. rewrite (digits_aux_value ds C), app_nil_r; [reflexivity|]. rewrite Nnat.N2Nat.id. apply N.size_gt. Qed.

Lemma digits_aux_spec fuel : forall v acc, v < 2 ^ N.of_nat fuel -> exists ds, digits_aux b fuel v acc = ds ++ acc /\ canon ds /\ value b ds 0 = v.
Proof. induction fuel as [|f IH]; intros v acc L.
  - exists []. cbn in L. repeat split; [constructor|cbn; lia].
  - cbn [digits_aux]. destruct (N.eqb_spec v 0) as [->|NZ]; [exists []; repeat split; constructor|].
    assert (B0 : b <> 0) by lia.
    assert (L' : v / b < 2 ^ N.of_nat f).
    { apply N.div_lt_upper_bound; [exact B0|]. rewrite Nnat.Nat2N.inj_succ, N.pow_succ_r' in L.
      assert (2 * 2 ^ N.of_nat f <= b * 2 ^ N.of_nat f) by (apply N.mul_le_mono_r; exact b_ge2). lia. }
    destruct (IH (v / b) (v mod b :: acc) L') as (ds' & E & [D Hn] & V). exists (ds' ++ [v mod b]). split; [|split; [split|]].
    + rewrite E, <- app_assoc. reflexivity.
    + apply Forall_app. split; [exact D|]. constructor; [apply N.mod_lt; exact B0|constructor].
    + destruct ds' as [|x xs]; [|exact Hn]. cbn in V. cbn [app head_nz]. pose proof (N.div_mod v b B0). rewrite <- V in *. lia.
    + rewrite value_snoc, V. pose proof (N.div_mod v b B0). lia. Qed.
Lemma digits_spec v : canon (digits b v) /\ value b (digits b v) 0 = v.
Proof. unfold digits. destruct (digits_aux_spec (N.to_nat (N.size v)) v []) as (ds & E & C & V).
  - rewrite Nnat.N2Nat.id. apply N.size_gt.
  - rewrite E, app_nil_r. now split. Qed.

Lemma canon_head_bounds ds m0 lo hi : canon ds -> lo <= value b ds 0 <= hi -> b ^ m0 <= lo -> hi < b ^ (m0 + 1) ->
  exists d r, ds = d :: r /\ N.of_nat (length r) = m0 /\ lo / b ^ m0 <= d <= hi / b ^ m0.
Proof. intros C [L1 L2] B1 B2. destruct ds as [|d r]; [pose proof (pow_pos m0); cbn in L1; lia|]. exists d, r. split; [reflexivity|].
  (* b^m <= value < b^(m+1) fixes the number m of further digits, d * b^m <= value < (d+1) * b^m the first digit *)
  pose proof (canon_value_ge d r C) as LB. pose proof (value_lt _ (proj1 C)) as UB. cbn [length] in UB. rewrite Nnat.Nat2N.inj_succ, <- N.add_1_r in UB.
  destruct (value_cons_range d r) as [VL VU]; [destruct C as [D _]; now inversion D|].
  set (m := N.of_nat (length r)) in *. set (V := value b (d :: r) 0) in *.
  assert (M : m = m0).
  { assert (A1 : m < m0 + 1) by (apply (N.pow_lt_mono_r_iff b); lia). assert (A2 : m0 < m + 1) by (apply (N.pow_lt_mono_r_iff b); lia). lia. }
  split; [exact M|]. rewrite <- M. pose proof (pow_pos m) as Pm. split.
  - apply N.lt_succ_r. rewrite <- N.add_1_r. apply N.div_lt_upper_bound; [lia|]. rewrite N.mul_comm. lia.
  - apply N.div_le_lower_bound; [lia|]. rewrite N.mul_comm. lia. Qed.
Lemma value_inj l1 : forall l2, length l1 = length l2 -> dig l1 -> dig l2 -> value b l1 0 = value b l2 0 -> l1 = l2.
Proof. induction l1 as [|x r IH]; intros [|y r'] L D1 D2 E; try discriminate L; [reflexivity|].
  cbn [length] in L. apply Nat.succ_inj in L. inversion D1 as [|? ? Hx Hr]; subst. inversion D2 as [|? ? Hy Hr']; subst.
  rewrite !value_cons, <- L in E. pose proof (value_lt r Hr) as V1. pose proof (value_lt r' Hr') as V2. rewrite <- L in V2.
  set (P := b ^ N.of_nat (length r)) in *.
  destruct (N.div_mod_unique P x y (value b r 0) (value b r' 0) V1 V2) as [-> E']; [lia|]. f_equal. now apply IH. Qed.
End Num.

Fixpoint strip0 (ds : list N) : list N := match ds with d :: r => if 0 =? d then strip0 r else ds | [] => [] end.
Lemma strip0_split ds : ds = repeat 0 (count_leading (N.eqb 0) ds) ++ strip0 ds.
Proof. induction ds as [|d r IH]; [reflexivity|]. cbn [count_leading strip0]. destruct (N.eqb_spec 0 d) as [<-|NE]; [|reflexivity].
  cbn [repeat app]. f_equal. exact IH. Qed.
Lemma strip0_head ds : head_nz (strip0 ds).
Proof. induction ds as [|d r IH]; [exact I|]. cbn [strip0]. destruct (N.eqb_spec 0 d) as [<-|NE]; [exact IH|]. cbn. lia. Qed.
Lemma strip0_dig b ds : dig b ds -> dig b (strip0 ds).
Proof. induction ds as [|d r IH]; intros D; [constructor|]. cbn [strip0]. destruct (0 =? d); [|exact D]. apply IH. now inversion D. Qed.
Lemma count_leading_zeros z ds : head_nz ds -> count_leading (N.eqb 0) (repeat 0 z ++ ds) = z.
Proof. intros Hn. induction z as [|z IH]; cbn [repeat app count_leading].
  - destruct ds as [|d r]; [reflexivity|]. cbn [count_leading]. cbn in Hn. destruct (N.eqb_spec 0 d); [congruence|reflexivity].
  - now rewrite IH. Qed.

Definition conv (b1 b2 : N) (ds : list N) : list N := repeat 0 (count_leading (N.eqb 0) ds) ++ digits b2 (value b1 ds 0).

Lemma conv_dig b1 b2 ds : 2 <= b2 -> dig b2 (conv b1 b2 ds).
Proof. intros B2. unfold conv. apply Forall_app. split.
  - apply Forall_forall. intros x Ix. apply repeat_spec in Ix. subst. lia.
  - exact (proj1 (proj1 (digits_spec b2 B2 _))). Qed.
Theorem conv_roundtrip b1 b2 ds : 2 <= b1 -> 2 <= b2 -> dig b1 ds -> conv b2 b1 (conv b1 b2 ds) = ds.
Proof. intros B1 B2 D. unfold conv at 2. set (z := count_leading (N.eqb 0) ds). set (V := value b1 ds 0).
  destruct (digits_spec b2 B2 V) as ([D2 H2] & V2). unfold conv. rewrite (count_leading_zeros z _ H2), value_zeros, V2.
  unfold V. rewrite (strip0_split ds) at 1. fold z. rewrite value_zeros.
  rewrite (digits_value b1 B1); [symmetry; apply strip0_split|]. split; [now apply strip0_dig|apply strip0_head]. Qed.

Lemma all_some_map_inv {A B} (f : A -> option B) l : forall ds, all_some (map f l) = Some ds -> Forall2 (fun x d => f x = Some d) l ds.
Proof. induction l as [|x r IH]; intros ds E; cbn [map all_some] in E.
  - apply Some_inj in E. subst. constructor.
  - destruct (f x) as [d|] eqn:F; [|discriminate]. destruct (all_some (map f r)) as [t|] eqn:T; [|discriminate]. apply Some_inj in E. subst.
    constructor; [exact F|now apply IH]. Qed.
Lemma all_some_map_intro {A B} (f : A -> option B) (g : B -> A) ds : Forall (fun d => f (g d) = Some d) ds -> all_some (map f (map g ds)) = Some ds.
Proof. induction ds as [|d r IH]; intros F; [reflexivity|]. inversion F as [|? ? Fd Fr]; subst. cbn [map all_some]. now rewrite Fd, (IH Fr). Qed.
Lemma count_leading_map {A B} (p : B -> bool) (q : A -> bool) (f : A -> B) l : (forall x, In x l -> p (f x) = q x) ->
  count_leading p (map f l) = count_leading q l.
Proof. induction l as [|x r IH]; intros E; [reflexivity|]. cbn [map count_leading]. rewrite (E x) by now left.
  destruct (q x); [|reflexivity]. f_equal. apply IH. intros y Iy. apply E. now right. Qed.

Lemma b58_char_digit d : d < 58 -> b58_digit (b58_char d) = Some d.
Proof. intros L.
  assert (S : forallb (fun k => match b58_digit (b58_char k) with Some k' => k' =? k | None => false end) (map N.of_nat (seq 0 58)) = true) by (vm_compute; reflexivity).
  assert (I : In d (map N.of_nat (seq 0 58))) by (apply in_map_iff; exists (N.to_nat d); split; [apply Nnat.N2Nat.id|apply in_seq; lia]).
  pose proof (proj1 (forallb_forall _ _) S d I) as F. cbv beta in F. destruct (b58_digit (b58_char d)); [apply N.eqb_eq in F; now subst|discriminate F]. Qed.
Lemma b58_digit_char c : match b58_digit c with Some d => d < 58 /\ b58_char d = c /\ byte_eqb x31 c = (0 =? d) | None => True end.
Proof. destruct c; vm_compute; repeat split. Qed.
Lemma byte_zero_test c : byte_eqb x00 c = (0 =? b2n c).
Proof. destruct (byte_eqb_spec x00 c) as [<-|NE]; [reflexivity|]. symmetry. apply N.eqb_neq. intros E. apply NE, b2n_inj, E. Qed.

Lemma b58_encode_conv data : b58_encode data = map b58_char (conv 256 58 (map b2n data)).
Proof. unfold b58_encode, conv. rewrite map_app, map_repeat. f_equal. f_equal.
  symmetry. apply count_leading_map. intros x _. symmetry. apply byte_zero_test. Qed.
Lemma b58_decode_conv s ds : all_some (map b58_digit s) = Some ds -> b58_decode s = Ok58 (map n2b (conv 58 256 ds)) /\ dig 58 ds /\ s = map b58_char ds.
Proof. intros E. unfold b58_decode. rewrite E. apply all_some_map_inv in E.
  assert (X : count_leading (byte_eqb x31) s = count_leading (N.eqb 0) ds /\ dig 58 ds /\ s = map b58_char ds).
  { induction E as [|c d s' ds' F _ (IH1 & IH2 & IH3)]; [repeat split; constructor|].
    pose proof (b58_digit_char c) as T. rewrite F in T. destruct T as (D1 & D2 & D3).
    cbn [count_leading map]. rewrite D3, IH1, <- D2, <- IH3. split; [reflexivity|split; [constructor; assumption|reflexivity]]. }
  destruct X as (CL & D & S). split; [|split; assumption]. unfold conv. rewrite map_app, map_repeat, CL. reflexivity. Qed.

Lemma b58_decode_chars s r : b58_decode s = Ok58 r -> forall c, In c s -> b58_digit c <> None.
Proof. unfold b58_decode. destruct (all_some (map b58_digit s)) as [ds|] eqn:AS; [|discriminate]. intros _. apply all_some_map_inv in AS.
  induction AS as [|x d s' ds' F _ IH]; intros c I; [contradiction|]. destruct I as [<-|I]; [congruence|now apply IH]. Qed.

Lemma map_b2n_n2b ds : dig 256 ds -> map b2n (map n2b ds) = ds.
Proof. induction ds as [|d r IH]; intros D; [reflexivity|]. inversion D as [|? ? Hd Hr]; subst. cbn [map]. rewrite (IH Hr). f_equal. now apply b2n_n2b_small. Qed.
Lemma map_n2b_b2n bs : map n2b (map b2n bs) = bs.
Proof. induction bs as [|x r IH]; [reflexivity|]. cbn [map]. now rewrite IH, n2b_b2n. Qed.
Lemma dig256_bytes bs : dig 256 (map b2n bs).
Proof. apply Forall_forall. intros d Id. apply in_map_iff in Id as (x & <- & _). apply b2n_lt. Qed.

Theorem b58_decode_encode bs : b58_decode (b58_encode bs) = Ok58 bs.
Proof. rewrite b58_encode_conv. set (E := conv 256 58 (map b2n bs)).
  assert (DE : dig 58 E) by (apply conv_dig; lia).
  assert (AS : all_some (map b58_digit (map b58_char E)) = Some E).
  { apply all_some_map_intro. apply Forall_forall. intros d Id. apply b58_char_digit. exact (proj1 (Forall_forall _ _) DE d Id). }
  destruct (b58_decode_conv _ _ AS) as (-> & _ & _). unfold E. rewrite conv_roundtrip; [|lia|lia|apply dig256_bytes]. now rewrite map_n2b_b2n. Qed.
Theorem b58_encode_decode s bs : b58_decode s = Ok58 bs -> b58_encode bs = s.
Proof. intros E. destruct (all_some (map b58_digit s)) as [ds|] eqn:AS.
  - destruct (b58_decode_conv _ _ AS) as (E' & D & ->). rewrite E' in E. injection E as <-.
    rewrite b58_encode_conv, map_b2n_n2b by (apply conv_dig; lia). rewrite conv_roundtrip; [reflexivity|lia|lia|exact D].
  - unfold b58_decode in E. rewrite AS in E. discriminate E. Qed.

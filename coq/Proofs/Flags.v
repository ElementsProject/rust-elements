(* The pegin / issuance flags folded into bits 30 and 31 of the serialized outpoint index (TxIn encode/decode). *)
From Coq Require Import NArith ZArith Lia Bool ZifyN ZifyBool.
Open Scope N_scope.
Set Default Timeout 30.
Definition B30 := 1073741824. Definition B31 := 2147483648. Definition ALL1 := 4294967295. Definition MASK := 1073741823.
Definition join (v : N) (pegin iss : bool) : N := N.lor (N.lor v (if pegin then B30 else 0)) (if iss then B31 else 0).

Lemma lor_disjoint_add a b : N.land a b = 0 -> N.lor a b = a + b.
Proof. intros Hd. rewrite <- N.lxor_lor by assumption. symmetry. now apply N.add_nocarry_lxor. Qed.
Lemma land_pow2_small v k : v < 2 ^ k -> N.land v (2 ^ k) = 0.
Proof. intros Hv. apply N.bits_inj; intros n. rewrite N.land_spec, N.bits_0, N.pow2_bits_eqb.
  destruct (N.eqb_spec k n) as [->|]; [|now rewrite andb_false_r].
  destruct (N.eq_dec v 0) as [->|NZ]; [now rewrite N.bits_0|]. rewrite N.bits_above_log2; [reflexivity|]. now apply N.log2_lt_pow2; [lia|]. Qed.
Lemma join_arith v p i : v < B30 -> join v p i = v + N.b2n p * B30 + N.b2n i * B31.
Proof. intros Hv. unfold join.
  assert (H1 : N.lor v (if p then B30 else 0) = v + N.b2n p * B30).
  { destruct p; [|now rewrite N.lor_0_r, N.add_0_r]. rewrite N.mul_1_l. apply lor_disjoint_add. change B30 with (2^30). now apply land_pow2_small. }
  rewrite H1. destruct i; [|now rewrite N.lor_0_r, N.add_0_r]. rewrite N.mul_1_l. apply lor_disjoint_add. change B31 with (2^31). apply land_pow2_small.
  unfold B30 in *. destruct p; cbn [N.b2n]; lia. Qed.
Lemma land_mask w : N.land w MASK = w mod B30.
Proof. change MASK with (N.ones 30). apply N.land_ones. Qed.

Theorem join_read v p i : v < B30 -> ~ (v = MASK /\ p = true /\ i = true) ->
  let w := join v p i in w <> ALL1 /\ w < 2 ^ 32 /\ N.testbit w 31 = i /\ N.testbit w 30 = p /\ N.land w MASK = v.
Proof. intros Hv Hn w. unfold w. rewrite join_arith by assumption. clear w. rewrite land_mask.
  unfold B30, B31, ALL1, MASK in *. change (2 ^ 32) with 4294967296. repeat split.
  - destruct p, i; cbn [N.b2n]; lia.
  - destruct p, i; cbn [N.b2n]; lia.
  - apply (N.testbit_unique _ 31 i (v + N.b2n p * 1073741824) 0); [destruct p|]; cbn [N.b2n]; change (2 ^ 31) with 2147483648; lia.
  - apply (N.testbit_unique _ 30 p v (N.b2n i)); change (2 ^ 30) with 1073741824; lia.
  - symmetry. apply (N.mod_unique _ _ (N.b2n p + 2 * N.b2n i)); lia. Qed.

Lemma two_bits q : q < 4 -> q = N.b2n (N.testbit q 0) + 2 * N.b2n (N.testbit q 1).
Proof. destruct q as [|[[?|?|]|[?|?|]|]]; try reflexivity; lia. Qed.
Theorem read_join w : w < 2 ^ 32 -> w <> ALL1 ->
  join (N.land w MASK) (N.testbit w 30) (N.testbit w 31) = w /\ N.land w MASK < B30.
Proof. intros Hw NE. rewrite land_mask.
  assert (Hv : w mod B30 < B30) by now apply N.mod_upper_bound.
  split; [|exact Hv]. rewrite join_arith by exact Hv.
  (* bits 30 and 31 of w are bits 0 and 1 of the quotient w / 2^30 < 4 *)
  replace (N.testbit w 30) with (N.testbit (w / B30) 0) by apply (N.div_pow2_bits w 30 0).
  replace (N.testbit w 31) with (N.testbit (w / B30) 1) by apply (N.div_pow2_bits w 30 1).
  assert (Q : w / B30 < 4) by (apply N.div_lt_upper_bound; [discriminate|exact Hw]). apply two_bits in Q.
  pose proof (N.div_mod w B30) as D. unfold B30, B31 in *. lia. Qed.
(* the one non-canonical triple: index 0x3fffffff with both flags encodes to the coinbase index *)
Example noncanonical_triple : join MASK true true = ALL1. Proof. reflexivity. Qed.
